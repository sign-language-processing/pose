(* C15 - augment2d: one common linear map of the first two coordinates; the identity when no deviation is positive. *)
From Coq Require Import Reals ZArith List Bool Lia Lra.
Require Import Result Num RealFacts C15_Spatial C15_Real C15_Lemmas C15_Flip C15_Matmul.
Import ListNotations.
Local Open Scope R_scope.

Definition entry (A : list (list R)) (i j : nat) : R := nth j (nth i A []) 0.
Definition embed_entry (A : list (list R)) (i j : nat) : R :=
  if Nat.ltb i 2 && Nat.ltb j 2 then entry A i j else if Nat.eqb i j then 1 else 0.
Lemma embed_entries D A : embed R_ops D A = map (fun i => map (fun j => embed_entry A i j) (seq 0 D)) (seq 0 D).
Proof. reflexivity. Qed.

Lemma embed_entry_right A i j : (i < 2)%nat -> (2 <= j)%nat -> embed_entry A i j = 0.
Proof. intros Hi Hj. unfold embed_entry. destruct (Nat.ltb_spec j 2); [lia|]. rewrite andb_false_r.
  destruct (Nat.eqb_spec i j); [lia | reflexivity]. Qed.

Lemma vecmat_embed n (A : list (list R)) (x0 x1 : R) (rest : list R) : length rest = n ->
  vecmat R_ops (S (S n)) (x0 :: x1 :: rest) (embed R_ops (S (S n)) A) =
  (x0 * entry A 0 0 + x1 * entry A 1 0) :: (x0 * entry A 0 1 + x1 * entry A 1 1) :: rest.
Proof. intros Hn. rewrite embed_entries. unfold vecmat.
  (* column j: rows 0 and 1 come from the block, the rows below form a unit vector *)
  rewrite (map_ext_in _ (fun j => x0 * embed_entry A 0 j + x1 * embed_entry A 1 j + if Nat.leb 2 j then nth (j - 2) rest 0 else 0)).
  - cbn [seq map]. f_equal; [unfold embed_entry; cbn [Nat.ltb Nat.leb andb]; ring|].
    f_equal; [unfold embed_entry; cbn [Nat.ltb Nat.leb andb]; ring|].
    transitivity (map (fun j => nth (j - 2) rest 0) (seq 2 (length rest))); [|apply map_nth_seq].
    rewrite Hn. apply map_ext_in. intros j Hj. apply in_seq in Hj.
    rewrite !embed_entry_right, (proj2 (Nat.leb_le 2 j)) by lia. ring.
  - intros j Hj. apply in_seq in Hj. rewrite (col_of_entries (embed_entry A)) by lia. cbn [seq map]. rewrite !dotp_cons.
    rewrite (map_ext_in _ (fun i => if Nat.eqb i j then 1 else 0)).
    + rewrite <- Hn, dotp_unit. (rsimp; ring).
    + intros i Hi. apply in_seq in Hi. unfold embed_entry. destruct (Nat.ltb_spec i 2); [lia | reflexivity]. Qed.

Lemma embed_eye D : embed R_ops D (eye R_ops 2) = eye R_ops D.
Proof. rewrite embed_entries. unfold eye. apply map_ext. intros i. apply map_ext. intros j. unfold embed_entry, entry.
  destruct i as [|[|i]]; destruct j as [|[|j]]; reflexivity. Qed.
Lemma aug_matrix_nopos (rot shear scale : R) d :
  pos R_ops rot = false -> pos R_ops shear = false -> pos R_ops scale = false ->
  aug_matrix R_ops rot shear scale d = eye R_ops 2.
Proof. intros H1 H2 H3. unfold aug_matrix. now rewrite H1, H2, H3. Qed.
Lemma pos_false (x : R) : pos R_ops x = false <-> x <= 0.
Proof. unfold pos. rsimp. unfold Rltb. destruct (Rlt_dec 0 x); split; intros H; try reflexivity; try discriminate; lra. Qed.

Lemma augment_as_matmul D (rot shear scale : R) d (b : rframes) : (2 <= D)%nat ->
  augment2d R_ops D rot shear scale d b =
  Ok (map3 R_ops (matmul_point R_ops D (embed R_ops D (aug_matrix R_ops rot shear scale d))) b).
Proof. intros HD. unfold augment2d. destruct (Nat.ltb_spec D 2); [lia|].
  apply matmul_ok. rewrite embed_entries. apply matrix_ok_entries. Qed.

(* what augmentation does to one point: the first two coordinates go through the 2x2 matrix (a00 a01; a10 a11) *)
Definition aug_spec (a00 a01 a10 a11 : R) (p p' : rpoint) : Prop :=
  same_conf_mask p p' /\ (missing p = false -> coords p' = aug_coords a00 a01 a10 a11 (coords p)).

Lemma augment_common_map (rot shear scale : R) (d : draws R_ops) :
  exists a00 a01 a10 a11 : R, forall D (b : rframes), (2 <= D)%nat -> wf_body D b ->
  exists b', augment2d R_ops D rot shear scale d b = Ok b' /\ rel3 (aug_spec a00 a01 a10 a11) b b'.
Proof. set (A := aug_matrix R_ops rot shear scale d).
  exists (entry A 0 0), (entry A 0 1), (entry A 1 0), (entry A 1 1). intros D b HD Hwf.
  rewrite augment_as_matmul by exact HD. eexists. split; [reflexivity|]. fold A.
  apply (all3_rel3_map3 (wf_point D)); [exact Hwf|]. intros p Hp. split; [now apply matmul_point_keeps|].
  intros Hm. rewrite (matmul_point_coords D D _ p Hp Hm). pose proof (coords_length D p Hp) as Hl.
  destruct D as [|[|n]]; try lia. destruct (coords p) as [|x0 [|x1 rest]]; cbn [length] in Hl; try discriminate.
  unfold aug_coords. apply vecmat_embed. now injection Hl. Qed.

Lemma augment_zero_std_identity D (rot shear scale : R) d (b : rframes) :
  rot <= 0 -> shear <= 0 -> scale <= 0 -> (2 <= D)%nat -> wf_body D b ->
  exists b', augment2d R_ops D rot shear scale d b = Ok b' /\ rel3 same_observed b b'.
Proof. intros H1 H2 H3 HD Hwf. rewrite augment_as_matmul by exact HD.
  rewrite aug_matrix_nopos by (now apply pos_false). rewrite embed_eye.
  eexists. split; [reflexivity|]. apply (all3_rel3_map3 (wf_point D)); [exact Hwf|].
  intros p Hp. now apply matmul_point_identity. Qed.

Lemma augment_needs_two_dims D (rot shear scale : R) d (b : rframes) :
  (D < 2)%nat -> augment2d R_ops D rot shear scale d b = Err Value.
Proof. intros H. unfold augment2d. destruct (Nat.ltb_spec D 2); [reflexivity | lia]. Qed.

(* the common map when all three deviations are positive: shear . rotation . scale *)
Lemma aug_matrix_all_positive (rot shear scale g c s g1 : R) :
  0 < rot -> 0 < shear -> 0 < scale ->
  aug_matrix R_ops rot shear scale (@mkD R_ops g c s g1) =
  [[c + g * s; (- s + g * c) * (1 + g1)]; [s; c * (1 + g1)]].
Proof. intros H1 H2 H3.
  assert (P : forall x, 0 < x -> pos R_ops x = true) by (intros x Hx; apply Rltb_true, Hx).
  unfold aug_matrix. rewrite (P rot H1), (P shear H2), (P scale H3).
  cbn [g_shear g_cos g_sin g_scale]. unfold mm, eye, shear_matrix, rotation_matrix, scale_matrix, vecmat, col, dotp, sum.
  cbn [seq map nth zipw fold_right Nat.eqb]. rsimp.
  f_equal; [f_equal; [ring | f_equal; ring] | f_equal; f_equal; [ring | f_equal; ring]]. Qed.
