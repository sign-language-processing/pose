(* C17 - proofs of the discrete part: output size accounting and block layout of the assembled
   PoseRepresentation.  No reals; everything here is closed under the global context. *)
From Coq Require Import List Arith Bool Lia.
Require Import ListFacts C17_Layout.
Import ListNotations.

Definition sum_nat (l : list nat) : nat := fold_right Nat.add 0 l.

Lemma input_size_cons c r : input_size (c :: r) = c_points c + input_size r.
Proof. reflexivity. Qed.
Lemma total_limbs_cons c r : total_limbs (c :: r) = length (c_limbs c) + total_limbs r.
Proof. reflexivity. Qed.
Lemma points_before_S c r ci : points_before (c :: r) (S ci) = c_points c + points_before r ci.
Proof. reflexivity. Qed.
Lemma limbs_before_S c r ci : limbs_before (c :: r) (S ci) = length (c_limbs c) + limbs_before r ci.
Proof. reflexivity. Qed.

Lemma limbs_from_length h : forall idx, length (limbs_from idx h) = total_limbs h.
Proof.
  induction h as [|c r IH]; intros idx; [reflexivity|].
  cbn [limbs_from]. rewrite app_length, map_length, IH. reflexivity.
Qed.
Lemma limb_points_length h : length (limb_points h) = total_limbs h.
Proof. apply limbs_from_length. Qed.

Lemma limbs_from_nth h : forall idx ci j dc,
  ci < length h -> j < length (c_limbs (nth ci h dc)) ->
  nth (limbs_before h ci + j) (limbs_from idx h) (0, 0) =
    (fst (nth j (c_limbs (nth ci h dc)) (0, 0)) + (idx + points_before h ci),
     snd (nth j (c_limbs (nth ci h dc)) (0, 0)) + (idx + points_before h ci)).
Proof.
  induction h as [|c r IH]; intros idx ci j dc Hci Hj; [cbn in Hci; lia|].
  cbn [limbs_from]. destruct ci as [|ci]; cbn [nth] in Hj |- *.
  - change (limbs_before (c :: r) 0 + j) with j. change (points_before (c :: r) 0) with 0.
    rewrite app_nth1 by (rewrite map_length; exact Hj).
    rewrite (nth_map_lt _ _ _ (0, 0)) by exact Hj. cbn [fst snd]. rewrite Nat.add_0_r. reflexivity.
  - cbn [length] in Hci. rewrite limbs_before_S, points_before_S, <- Nat.add_assoc.
    rewrite app_nth2; rewrite map_length; [|lia]. rewrite Nat.add_comm, Nat.add_sub.
    rewrite (IH (idx + c_points c) ci j dc) by lia. f_equal; lia.
Qed.
Lemma limb_points_nth h ci j dc :
  ci < length h -> j < length (c_limbs (nth ci h dc)) ->
  nth (limbs_before h ci + j) (limb_points h) (0, 0) =
    (fst (nth j (c_limbs (nth ci h dc)) (0, 0)) + points_before h ci,
     snd (nth j (c_limbs (nth ci h dc)) (0, 0)) + points_before h ci).
Proof. exact (limbs_from_nth h 0 ci j dc). Qed.
Lemma limbs_before_lt h : forall ci j dc, ci < length h -> j < length (c_limbs (nth ci h dc)) ->
  limbs_before h ci + j < total_limbs h.
Proof.
  induction h as [|c r IH]; intros ci j dc Hci Hj; [cbn in Hci; lia|]. rewrite total_limbs_cons.
  destruct ci as [|ci]; cbn [nth length] in *.
  - change (limbs_before (c :: r) 0) with 0. lia.
  - rewrite limbs_before_S. specialize (IH ci j dc). lia.
Qed.

Lemma limbs_from_range h : forall idx, wf_header h ->
  Forall (fun ab => fst ab < idx + input_size h /\ snd ab < idx + input_size h) (limbs_from idx h).
Proof.
  induction h as [|c r IH]; intros idx Hwf; [constructor|].
  inversion Hwf as [|c' r' Hc Hr]; subst. cbn [limbs_from]. rewrite input_size_cons. apply Forall_app; split.
  - apply Forall_map. eapply Forall_impl; [|exact Hc]. cbn [fst snd]. lia.
  - eapply Forall_impl; [|exact (IH (idx + c_points c) Hr)]. cbn beta. lia.
Qed.

Lemma chains_spec ls p1 p2 p3 : In (p1, p2, p3) (chains ls) <-> In (p1, p2) ls /\ In (p2, p3) ls.
Proof.
  unfold chains. rewrite in_flat_map. split.
  - intros [l1 [H1 H]]. rewrite in_flat_map in H. destruct H as [l2 [H2 H]].
    destruct (Nat.eqb_spec (snd l1) (fst l2)) as [E|NE]; [|contradiction].
    destruct H as [H|[]]. injection H as <- <- <-. split; [destruct l1; exact H1|].
    rewrite E. destruct l2; exact H2.
  - intros [H1 H2]. exists (p1, p2). split; [exact H1|]. rewrite in_flat_map. exists (p2, p3). split; [exact H2|].
    cbn [fst snd]. rewrite Nat.eqb_refl. left. reflexivity.
Qed.
Lemma chains_range ls (Q : nat -> Prop) : Forall (fun ab => Q (fst ab) /\ Q (snd ab)) ls ->
  Forall (fun x => Q (fst (fst x)) /\ Q (snd (fst x)) /\ Q (snd x)) (chains ls).
Proof.
  intros H. rewrite Forall_forall in *. intros [[p1 p2] p3] Hin. apply chains_spec in Hin. destruct Hin as [H1 H2].
  pose proof (H _ H1) as [A B]. pose proof (H _ H2) as [_ C]. cbn [fst snd] in *. tauto.
Qed.
Lemma chains_length_gen (outer ls : list (nat * nat)) :
  length (flat_map (fun l1 => flat_map (fun l2 => if snd l1 =? fst l2 then [(fst l1, snd l1, snd l2)] else []) ls) outer) =
  sum_nat (map (fun l1 => length (filter (fun l2 => snd l1 =? fst l2) ls)) outer).
Proof.
  induction outer as [|l1 r IH]; [reflexivity|].
  cbn [flat_map map sum_nat fold_right]. rewrite app_length. fold (sum_nat (map (fun l0 => length (filter (fun l2 => snd l0 =? fst l2) ls)) r)).
  rewrite <- IH. f_equal. clear. induction ls as [|l2 q IHq]; [reflexivity|].
  cbn [flat_map filter]. destruct (snd l1 =? fst l2); cbn [app length]; rewrite IHq; reflexivity.
Qed.
Lemma chains_length ls :
  length (chains ls) = sum_nat (map (fun l1 => length (filter (fun l2 => snd l1 =? fst l2) ls)) ls).
Proof. apply chains_length_gen. Qed.

Lemma in_range_map {A} n (g : A -> nat) l : Forall (fun x => g x < n) l -> in_range n (map g l) = true.
Proof.
  intros H. apply forallb_forall. intros i Hin. apply in_map_iff in Hin. destruct Hin as [x [<- Hx]].
  apply Nat.ltb_lt. exact (proj1 (Forall_forall _ _) H x Hx).
Qed.

Lemma mk_repr_inv h k1 k2 k3 r : mk_repr h k1 k2 k3 = Some r ->
  exists d, header_dims h = Some d /\ chains (limb_points h) <> [] /\
    r = mkRepr (input_size h) d (limb_points h) (chains (limb_points h)) k1 k2 k3.
Proof.
  unfold mk_repr. destruct (header_dims h) as [d|]; [|discriminate].
  destruct (limb_points h) as [|p l]; [discriminate|].
  destruct (chains (p :: l)) as [|x tr]; [discriminate|].
  intros [= <-]. exists d. repeat split. discriminate.
Qed.

Section Cat.
Variable Y : Type.
Variable dy : Y.
Definition total (es : list (embed Y)) : nat := sum_nat (map e_size es).

Lemma total_cons a es : total (a :: es) = e_size a + total es.
Proof. reflexivity. Qed.
Lemma total_app a b : total (a ++ b) = total a + total b.
Proof. induction a as [|x a IH]; [reflexivity|]. cbn [app]. rewrite !total_cons, IH. lia. Qed.
Lemma total_const es s : Forall (fun e => e_size e = s) es -> total es = length es * s.
Proof. induction 1 as [|x es Hx _ IH]; [reflexivity|]. rewrite total_cons, Hx, IH. reflexivity. Qed.
Lemma cat0_cons a es : cat0 Y dy (a :: es) = cat2 Y a (cat0 Y dy es).
Proof. reflexivity. Qed.
Lemma cat0_size es : e_size (cat0 Y dy es) = total es.
Proof. induction es as [|a r IH]; [reflexivity|]. rewrite cat0_cons, total_cons, <- IH. reflexivity. Qed.

(* feature e of the i-th member of a run [g] of embeds of one size s, wherever the run stands in the concatenation *)
Lemma cat0_block (a g c : list (embed Y)) s i e b l d0 :
  Forall (fun x => e_size x = s) g -> i < length g -> e < s ->
  e_at (cat0 Y dy (a ++ g ++ c)) (total a + i * s + e) b l = e_at (nth i g d0) e b l.
Proof.
  intros Hs Hi He. induction a as [|x a IH]; cbn [app].
  - change (total []) with 0. cbn [Nat.add]. revert i Hi.
    induction Hs as [|x g Hx _ IHg]; intros i Hi; cbn [length] in Hi; [lia|].
    cbn [app]. rewrite cat0_cons. unfold cat2 at 1. cbn [e_at]. rewrite Hx. destruct i as [|i]; cbn [nth Nat.mul Nat.add].
    + destruct (Nat.ltb_spec e s); [reflexivity|lia].
    + destruct (Nat.ltb_spec (s + i * s + e) s); [lia|].
      replace (s + i * s + e - s) with (i * s + e) by lia. apply IHg. lia.
  - rewrite cat0_cons, total_cons. unfold cat2 at 1. cbn [e_at].
    destruct (Nat.ltb_spec (e_size x + total a + i * s + e) (e_size x)); [lia|].
    replace (e_size x + total a + i * s + e - e_size x) with (total a + i * s + e) by lia. exact IH.
Qed.
End Cat.

Section CallProofs.
Variables X Y : Type.
Variable dy : Y.
Variable h : header.
Variable r : repr.
Variables (m1s : list (list X -> list Y)) (m2s : list (list X -> list X -> Y)) (m3s : list (list X -> list X -> list X -> Y)).
Hypothesis Hr : mk_repr h (length m1s) (length m2s) (length m3s) = Some r.
Variable D : nat.
Hypothesis HD : header_dims h = Some D.      (* one channel per letter of the point format *)
Variable src : t4 X.
Let P := input_size h.
Let NL := total_limbs h.
Let NT := length (chains (limb_points h)).
Let points := permute_2013 X src.
Let e1 := map (fun m => apply1 X Y dy P D m points) m1s.
Let e2 := map (fun m => apply2 X Y (length (map fst (r_limbs r))) m (get_points X points (map fst (r_limbs r)))
                               (get_points X points (map snd (r_limbs r)))) m2s.
Let e3 := map (fun m => apply3 X Y (length (map (fun x => fst (fst x)) (r_tris r))) m
                               (get_points X points (map (fun x => fst (fst x)) (r_tris r)))
                               (get_points X points (map (fun x => snd (fst x)) (r_tris r)))
                               (get_points X points (map snd (r_tris r)))) m3s.

Lemma r_eq : r = mkRepr P D (limb_points h) (chains (limb_points h)) (length m1s) (length m2s) (length m3s).
Proof. destruct (mk_repr_inv _ _ _ _ _ Hr) as (d & Hd & _ & E). rewrite HD in Hd. injection Hd as <-. exact E. Qed.
Lemma r_limbs_eq : r_limbs r = limb_points h.
Proof. rewrite r_eq. reflexivity. Qed.
Lemma r_tris_eq : r_tris r = chains (limb_points h).
Proof. rewrite r_eq. reflexivity. Qed.
Lemma e1_sizes : Forall (fun e => e_size e = P * D) e1.
Proof. apply Forall_map, Forall_forall. reflexivity. Qed.
Lemma e2_sizes : Forall (fun e => e_size e = NL) e2.
Proof.
  apply Forall_map, Forall_forall. intros m _. cbn [apply2 e_size].
  rewrite r_limbs_eq, map_length. apply limb_points_length.
Qed.
Lemma e3_sizes : Forall (fun e => e_size e = NT) e3.
Proof.
  apply Forall_map, Forall_forall. intros m _. cbn [apply3 e_size].
  rewrite r_tris_eq, map_length. reflexivity.
Qed.
Lemma total_e1 : total Y e1 = length m1s * (P * D).
Proof. rewrite (total_const Y e1 _ e1_sizes). unfold e1. now rewrite map_length. Qed.
Lemma total_e2 : total Y e2 = length m2s * NL.
Proof. rewrite (total_const Y e2 _ e2_sizes). unfold e2. now rewrite map_length. Qed.
Lemma total_e3 : total Y e3 = length m3s * NT.
Proof. rewrite (total_const Y e3 _ e3_sizes). unfold e3. now rewrite map_length. Qed.
Lemma total_e : total Y (e1 ++ e2 ++ e3) = length m1s * (P * D) + length m2s * NL + length m3s * NT.
Proof. rewrite !total_app, total_e1, total_e2, total_e3. apply Nat.add_assoc. Qed.

Lemma output_size_header :
  output_size r = length m1s * (input_size h * D) + length m2s * total_limbs h + length m3s * length (chains (limb_points h)).
Proof.
  rewrite r_eq. unfold output_size. cbn [r_k1 r_k2 r_k3 r_input r_dims r_limbs r_tris]. rewrite limb_points_length. reflexivity.
Qed.

Hypothesis Hwf : wf_header h.
Hypothesis Hmods : length m1s + length m2s + length m3s > 0.

Lemma limbs_in_range : in_range P (map fst (r_limbs r)) = true /\ in_range P (map snd (r_limbs r)) = true.
Proof.
  rewrite r_limbs_eq.
  split; apply in_range_map; (eapply Forall_impl; [|exact (limbs_from_range h 0 Hwf)]); intros ab [A B]; assumption.
Qed.
Lemma tris_in_range : in_range P (map (fun x => fst (fst x)) (r_tris r)) = true /\
  in_range P (map (fun x => snd (fst x)) (r_tris r)) = true /\ in_range P (map snd (r_tris r)) = true.
Proof.
  rewrite r_tris_eq.
  pose proof (chains_range _ (fun i => i < P) (limbs_from_range h 0 Hwf)) as H.
  repeat split; apply in_range_map; (eapply Forall_impl; [|exact H]); intros x (A & B & C); assumption.
Qed.

Lemma call_defined :
  call X Y dy r P D m1s m2s m3s src = Some (output_size r, group Y (cat0 Y dy (e1 ++ e2 ++ e3))).
Proof.
  unfold call. fold points. fold e1. fold e2. fold e3.
  destruct limbs_in_range as [L1 L2]. destruct tris_in_range as (T1 & T2 & T3). rewrite L1, L2, T1, T2, T3.
  assert (Hok : (match m2s with [] => true | _ :: _ => true && true end && match m3s with [] => true | _ :: _ => true && true && true end) = true)
    by (destruct m2s, m3s; reflexivity).
  rewrite Hok.
  destruct (e1 ++ e2 ++ e3) eqn:E.
  - exfalso. apply (f_equal (@length _)) in E. rewrite !app_length in E. unfold e1, e2, e3 in E. rewrite !map_length in E. cbn in E. lia.
  - rewrite <- E. rewrite cat0_size, total_e, output_size_header. reflexivity.
Qed.

Let out := group Y (cat0 Y dy (e1 ++ e2 ++ e3)).
Let d0 : embed Y := mkE 0 (fun _ _ _ => dy).

Lemma layout_points i p d b l dm : i < length m1s -> p < P -> d < D ->
  out b l (i * (P * D) + (p * D + d)) = nth d (nth i m1s dm (src b l p)) dy.
Proof.
  intros Hi Hp Hd. unfold out, group.
  refine (eq_trans (cat0_block Y dy [] e1 (e2 ++ e3) (P * D) i (p * D + d) b l d0 e1_sizes _ _) _);
    [unfold e1; rewrite map_length; exact Hi|nia|].
  unfold e1. rewrite (nth_map_lt _ _ _ dm) by exact Hi. cbn [apply1 e_at].
  rewrite Nat.div_add_l by lia. rewrite Nat.div_small by exact Hd.
  rewrite Nat.add_comm, Nat.mod_add by lia. rewrite Nat.mod_small by exact Hd. rewrite Nat.add_0_r. reflexivity.
Qed.

Lemma layout_limbs i ci j b l dm dc : i < length m2s -> ci < length h -> j < length (c_limbs (nth ci h dc)) ->
  let ab := nth j (c_limbs (nth ci h dc)) (0, 0) in
  out b l (length m1s * (P * D) + i * NL + (limbs_before h ci + j)) =
    nth i m2s dm (src b l (fst ab + points_before h ci)) (src b l (snd ab + points_before h ci)).
Proof.
  intros Hi Hci Hj ab. pose proof (limbs_before_lt h ci j dc Hci Hj) as Hq. unfold out, group.
  rewrite <- total_e1, (cat0_block Y dy e1 e2 e3 NL i _ b l d0 e2_sizes);
    [|unfold e2; rewrite map_length; exact Hi|exact Hq].
  unfold e2. rewrite (nth_map_lt _ _ _ dm) by exact Hi. cbn [apply2 e_at]. unfold get_points, points, permute_2013.
  rewrite r_limbs_eq, (nth_map_lt fst _ _ (0, 0)), (nth_map_lt snd _ _ (0, 0)) by (rewrite limb_points_length; exact Hq).
  rewrite (limb_points_nth h ci j dc Hci Hj). reflexivity.
Qed.

Lemma layout_triples i q b l dm : i < length m3s -> q < NT ->
  let x := nth q (chains (limb_points h)) (0, 0, 0) in
  out b l (length m1s * (P * D) + length m2s * NL + i * NT + q) =
    nth i m3s dm (src b l (fst (fst x))) (src b l (snd (fst x))) (src b l (snd x)).
Proof.
  intros Hi Hq x. unfold out, group.
  replace (e1 ++ e2 ++ e3) with ((e1 ++ e2) ++ e3 ++ []) by (rewrite app_nil_r, app_assoc; reflexivity).
  rewrite <- total_e1, <- total_e2, <- total_app, (cat0_block Y dy (e1 ++ e2) e3 [] NT i q b l d0 e3_sizes);
    [|unfold e3; rewrite map_length; exact Hi|exact Hq].
  unfold e3. rewrite (nth_map_lt _ _ _ dm) by exact Hi. cbn [apply3 e_at]. unfold get_points, points, permute_2013.
  rewrite r_tris_eq, (nth_map_lt (fun x : nat * nat * nat => fst (fst x)) _ _ (0, 0, 0)),
    (nth_map_lt (fun x : nat * nat * nat => snd (fst x)) _ _ (0, 0, 0)), (nth_map_lt (@snd (nat * nat) nat) _ _ (0, 0, 0)) by exact Hq.
  reflexivity.
Qed.
End CallProofs.
