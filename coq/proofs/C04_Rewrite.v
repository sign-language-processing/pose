(* Writing a decoded legacy pose: Pose.write accepts it, and the v0.2 bytes read back (C01) to the same header
   (version 0.2), frame rate, shape, values and missing-point mask. *)
From Coq Require Import ZArith NArith List Lia ZifyBool ZifyN ZifyNat Bool.
Require Import ListN Result Bytes Utf8 Utf8S F32 Prog Codec ProgLemmas CodecRT PoseRead PoseReadLemmas WindowLemmas
  C02_Content C02_F32RT C04_Legacy C04_Spec C04_SpecRT C04_V01 C04_V00.
Import ListNotations.
Open Scope N_scope.

(* the decoded pose as the argument of Pose.write: float32 arrays widen exactly; fps is the number decoded *)
Definition to_wcomp (c : component) : wcomponent :=
  {| wc_name := c_name c; wc_format := c_format c; wc_points := c_points c;
     wc_limbs := map (fun l => (Z.of_N (fst l), Z.of_N (snd l))) (c_limbs c);
     wc_colors := map (fun k => (Z.of_N (fst (fst k)), Z.of_N (snd (fst k)), Z.of_N (snd k))) (c_colors c) |}.
Definition to_wpose (p : pose) : wpose :=
  let h := p_header p in let b := p_body p in
  {| w_dims := (Z.of_N (fst (fst (h_dims h))), Z.of_N (snd (fst (h_dims h))), Z.of_N (snd (h_dims h)));
     w_comps := map to_wcomp (h_comps h);
     w_fps := f32_to_f64 (b_fps b);
     w_shape := b_shape b;
     w_data := map f32_to_f64 (b_data b);
     w_cshape := firstn 3 (b_shape b);
     w_conf := map f32_to_f64 (b_conf b) |}.
(* float32 -> Python float / float64 array -> float32 again *)
Definition rt32 (w : N) : N := f64_to_f32 (f32_to_f64 w).
Definition rewrite_view (p : pose) : pose :=
  let b := p_body p in
  {| p_header := {| h_version := version_word; h_dims := h_dims (p_header p); h_comps := h_comps (p_header p) |};
     p_body := {| b_fps := b_fps b; b_shape := b_shape b; b_data := map rt32 (b_data b); b_conf := map rt32 (b_conf b);
                  b_mask := map is_zero32 (map rt32 (b_conf b)) |} |}.

(* the frame rate of a legacy file survives Pose.write: the float32 of a 16-bit n is a finite binary32 value, and every
   such word, widened to a Python float and packed by struct '<f' again, is itself *)
Lemma fps_roundtrip n : u16 n -> pack_f32 (f32_to_f64 (f32_of_u16 n)) = Some (f32_of_u16 n).
Proof.
  intros Hn. unfold u16 in Hn. destruct n as [|p]; [reflexivity|].
  unfold f32_of_u16. change (Z.of_N (N.pos p)) with (Z.pos p). destruct (normalize_small p ltac:(lia)) as [m [e [-> HB]]].
  destruct (finite_word false m e HB) as [Hw Hnan].
  rewrite (f32_widen_pack _ Hw). unfold canon_nan32. now rewrite Hnan.
Qed.

(* what the rewrite uses of a decoded legacy pose *)
Definition legacy_pose_ok (p : pose) : Prop :=
  let h := p_header p in let b := p_body p in
  wf_header h /\ (exists n, u16 n /\ b_fps b = f32_of_u16 n) /\
  exists F P D, b_shape b = [F; P; total_points h; D] /\ num_dims h = Ok (Z.of_N D) /\ 1 <= D /\
                F < 4294967296 /\ u16 P /\
                lenN (b_data b) = F * (P * (total_points h * D)) /\ lenN (b_conf b) = F * (P * total_points h).

Lemma to_wpose_read p : to_wpose p = wpose_of_read p.
Proof. reflexivity. Qed.

Theorem rewrite_ok p : legacy_pose_ok p ->
  exists bs, write_pose (to_wpose p) = Ok bs /\
    forall legacy m, MemoOK m -> fst (read_bytes legacy m bs no_args) = Ok (rewrite_view p).
Proof.
  intros [Hh [[n [Hn Hfps]] [F [P [D [Hs [Hnd [HD [HF [HP [Hld Hlc]]]]]]]]]]].
  set (h := p_header p) in *. set (b := p_body p) in *.
  assert (Hfw : pack_f32 (f32_to_f64 (b_fps b)) = Some (b_fps b)) by (rewrite Hfps; now apply fps_roundtrip).
  pose proof (write_pose_of_read p F P D _ Hh Hs Hnd HF HP Hfw) as Hw. rewrite <- to_wpose_read in Hw. fold h b in Hw.
  eexists. split; [exact Hw|].
  intros legacy m Hm.
  assert (Hwf : wf_arrays (to_wpose p)).
  { unfold wf_arrays, to_wpose. fold h b. cbn [w_data w_shape w_conf w_cshape]. rewrite Hs. cbn [firstn prodN fold_right].
    unfold lenN in *. rewrite !map_length. lia. }
  assert (HD1 : 1 <= nth 3 (w_shape (to_wpose p)) 0) by (change (w_shape (to_wpose p)) with (b_shape b); rewrite Hs; exact HD).
  rewrite (read_bytes_written legacy m _ _ Hm Hw Hwf HD1).
  f_equal. unfold canon, rewrite_view, canon_header, canon_body, to_wpose. fold h b.
  cbn [w_dims w_comps w_fps w_shape w_data w_conf]. rewrite Hfw, !N2Z.id, !map_map.
  f_equal.
  - f_equal; [now destruct (h_dims h) as [[? ?] ?]|]. rewrite <- (map_id (h_comps h)) at 2. apply map_ext. apply canon_wcomp_of_read.
Qed.

Lemma window_len (F K : N) s0 e0 : (0 <= s0 <= e0)%Z -> (e0 <= Z.of_N F)%Z ->
  N.min (Z.to_N ((e0 - s0) * Z.of_N K)) (F * K - Z.to_N (s0 * Z.of_N K)) = Z.to_N (e0 - s0) * K.
Proof.
  intros Hse He.
  replace (Z.to_N ((e0 - s0) * Z.of_N K)) with (Z.to_N (e0 - s0) * K) by (rewrite Z2N.inj_mul by lia; now rewrite N2Z.id).
  replace (Z.to_N (s0 * Z.of_N K)) with (Z.to_N s0 * K) by (rewrite Z2N.inj_mul by lia; now rewrite N2Z.id).
  assert (H : Z.to_N (e0 - s0) * K <= (F - Z.to_N s0) * K) by (apply N.mul_le_mono_r; lia).
  rewrite N.mul_sub_distr_r in H. lia.
Qed.
Lemma v00_window_pose_ok c s0 e0 : wf00 c -> (0 <= s0 <= e0)%Z -> (e0 <= frames00 c)%Z ->
  legacy_pose_ok (v00_window_view c s0 e0).
Proof.
  intros Hwf Hse He. destruct (frame_lengths c Hwf) as [Hd Hc].
  destruct Hwf as [Hh [Hver [Hfps [HF [Hne [HL2 [HL Hfr]]]]]]].
  unfold legacy_pose_ok, v00_window_view, first_person_view, window_body, frames00 in *.
  cbn [p_header p_body b_fps b_shape b_data b_conf] in *.
  destruct (num_dims_spec _ Hne HL2) as [Hnd HD1]. set (h := k0_header c) in *.
  split; [exact Hh|]. split; [exists (k0_fps c); split; [exact Hfps|reflexivity]|].
  exists (Z.to_N (e0 - s0)), 1, (spec_dims h).
  change (spec_points h) with (total_points h).
  split; [reflexivity|]. split; [exact Hnd|].
  split; [exact HD1|]. split; [unfold u16 in HF; lia|]. split; [unfold u16; lia|].
  rewrite !lenN_takeN, !lenN_dropN.
  rewrite (lenN_flat_map_uniform _ _ _ Hd), (lenN_flat_map_uniform _ _ _ Hc).
  replace (Z.of_N (1 * total_points h) * Z.of_N (spec_dims h))%Z with (Z.of_N (total_points h * spec_dims h)) by lia.
  replace (1 * total_points h) with (total_points h) by lia. rewrite !N.mul_1_l.
  split; apply window_len; lia.
Qed.
Lemma v00_pose_ok c : wf00 c -> legacy_pose_ok (first_person_view c).
Proof.
  intros Hwf. rewrite <- (v00_window_full c Hwf). apply v00_window_pose_ok; [exact Hwf| |]; unfold frames00; lia.
Qed.

Lemma v01_pose_ok c s0 e0 : wf01 c -> (0 <= s0 <= e0)%Z -> (e0 <= frames01 c)%Z -> (e0 - s0 < 4294967296)%Z ->
  legacy_pose_ok (v01_view c (Z.to_N s0) (Z.to_N e0)).
Proof.
  intros Hwf Hse He0 Hbig. destruct (v01_counts c Hwf) as [Hne [Hnd HD1]].
  destruct Hwf as [Hh [Hver [Hfps [Hff [HP [HP1 [HT1 [HL [Hlen [HF53 [Hdat Hcnf]]]]]]]]]]].
  unfold legacy_pose_ok, v01_view. cbn [p_header p_body b_fps b_shape b_data b_conf].
  set (h := k1_header c) in *. unfold frames01 in *.
  assert (HlenN : lenN (k1_conf c) = lenN (k1_data c)) by (unfold lenN; now rewrite Hlen).
  split; [exact Hh|]. split; [exists (k1_fps c); split; [exact Hfps|reflexivity]|].
  exists (Z.to_N e0 - Z.to_N s0), (k1_people c), (spec_dims h).
  split; [reflexivity|]. split; [exact Hnd|]. split; [exact HD1|]. split; [lia|]. split; [exact HP|].
  change (spec_points h) with (total_points h) in *.
  destruct (Forall_and_inv _ _ Hdat) as [Hdl _]. destruct (Forall_and_inv _ _ Hcnf) as [Hcl _].
  rewrite (lenN_concat_uniform _ _ (Forall_takeN _ _ _ (Forall_dropN _ _ _ Hdl))).
  rewrite (lenN_concat_uniform _ _ (Forall_takeN _ _ _ (Forall_dropN _ _ _ Hcl))).
  rewrite !lenN_takeN, !lenN_dropN, HlenN.
  replace (N.min (Z.to_N e0 - Z.to_N s0) (lenN (k1_data c) - Z.to_N s0)) with (Z.to_N e0 - Z.to_N s0) by lia.
  split; lia.
Qed.

Theorem legacy_rewrite_v00_window c s0 e0 : wf00 c -> (0 <= s0 <= e0)%Z -> (e0 <= frames00 c)%Z ->
  exists bs, write_pose (to_wpose (v00_window_view c s0 e0)) = Ok bs /\
    forall legacy m, MemoOK m -> fst (read_bytes legacy m bs no_args) = Ok (rewrite_view (v00_window_view c s0 e0)).
Proof. intros H Hs He. apply rewrite_ok. now apply v00_window_pose_ok. Qed.
Theorem legacy_rewrite_v00 c : wf00 c ->
  exists bs, write_pose (to_wpose (first_person_view c)) = Ok bs /\
    forall legacy m, MemoOK m -> fst (read_bytes legacy m bs no_args) = Ok (rewrite_view (first_person_view c)).
Proof. intros H. apply rewrite_ok, v00_pose_ok, H. Qed.
Theorem legacy_rewrite_v01 c s0 e0 : wf01 c -> (0 <= s0 <= e0)%Z -> (e0 <= frames01 c)%Z -> (e0 - s0 < 4294967296)%Z ->
  exists bs, write_pose (to_wpose (v01_view c (Z.to_N s0) (Z.to_N e0))) = Ok bs /\
    forall legacy m, MemoOK m -> fst (read_bytes legacy m bs no_args) = Ok (rewrite_view (v01_view c (Z.to_N s0) (Z.to_N e0))).
Proof. intros H Hs He Hb. apply rewrite_ok. now apply v01_pose_ok. Qed.
