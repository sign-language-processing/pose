(* C17 - the source text the hand-written models (model/C17_Repr.v, model/C17_Layout.v) were transcribed from:
   statement sequences of the anchored functions as `ast.unparse` prints them (docstrings and comments
   dropped).  Definitions only.  The tie_* theorems of props/C17.v state that what harness/translate_c17.py regenerates
   from /repo on every run (coq/gen/Gen_C17.v) is equal to this text.
   The two repaired statements are recorded in their REPAIRED form:
     masked_zero_filled_kind = "Where"  (defect F9,  proposed-fixes/F9-zero-filled.diff)
     torch_points_flatten_kind = "Reshape" (defect F17, proposed-fixes/F17-points-view.diff) *)
From Coq Require Import String List.
Import ListNotations.
Open Scope string_scope.

Definition torch_distance_distance : list string :=
  [ "diff = p1s - p2s";
    "square = diff.pow_(2)";
    "sum_squares = square.sum(dim=-1)";
    "return MaskedTorch.sqrt(sum_squares)" ].

Definition torch_distance_forward : list string :=
  [ "return self.distance(p1s, p2s).zero_filled()" ].

Definition torch_angle_forward : list string :=
  [ "dims = p1s.shape[-1]";
    "d = p2s - p1s";
    "xs, ys = d.split([1] * dims, dim=3)[:2]";
    "slopes = ys.div(xs).fix_nan().zero_filled().squeeze(axis=3)";
    "return torch.atan(slopes)" ].

Definition torch_inner_vectors_norm : list string :=
  [ "square = MaskedTorch.square(vectors)";
    "summed = square.sum(dim=-1)";
    "v_mag = MaskedTorch.sqrt(summed)";
    "mag_stack = MaskedTorch.stack([v_mag] * vectors.shape[-1], dim=-1)";
    "return vectors.div(mag_stack)" ].

Definition torch_inner_forward : list string :=
  [ "v1 = p1s - p2s";
    "v2 = p3s - p2s";
    "v1_norm = get_vectors_norm(v1)";
    "v2_norm = get_vectors_norm(v2)";
    "slopes = (v1_norm * v2_norm).sum(dim=-1)";
    "angles = MaskedTorch.acos(slopes)";
    "angles = angles.zero_filled()";
    "angles[angles != angles] = 0";
    "return angles" ].

Definition torch_pld_init : list string :=
  [ "super(PointLineDistanceRepresentation, self).__init__()";
    "self.distance = DistanceRepresentation()" ].

Definition torch_pld_forward : list string :=
  [ "a = self.distance.distance(p1s, p2s)";
    "b = self.distance.distance(p2s, p3s)";
    "c = self.distance.distance(p1s, p3s)";
    "s: MaskedTensor = (a + b + c) / 2";
    "squared = s * (s - a) * (s - b) * (s - c)";
    "area = MaskedTorch.sqrt(squared)";
    "square_area: MaskedTensor = area * 2";
    "distance = square_area / b";
    "distance.fix_nan()";
    "return distance.zero_filled()" ].

Definition torch_points_forward_prefix : list string :=
  [ "p1s = p1s.zero_filled()";
    "p1s = p1s.transpose(1, 3)";
    "p1s = p1s.transpose(2, 3)";
    "shape = p1s.shape" ].

Definition torch_points_flatten_kind : string := "Reshape".

Definition tf_distance_distance : list string :=
  [ "diff = p1s - p2s";
    "square = tf.square(diff)";
    "sum_squares = tf.reduce_sum(square, axis=-1)";
    "return tf.sqrt(sum_squares)" ].

Definition tf_distance_call : list string :=
  [ "return self.distance(p1s, p2s)" ].

Definition tf_angle_call : list string :=
  [ "dims = p1s.shape[-1]";
    "d = p2s - p1s";
    "xs, ys = tf.split(d, [1] * dims, axis=3)[:2]";
    "slopes = tf.math.divide_no_nan(ys, xs)";
    "slopes = tf.squeeze(slopes, axis=3)";
    "return tf.math.atan(slopes)" ].

Definition tf_inner_vectors_norm : list string :=
  [ "transposed = tf.transpose(vectors)";
    "v_mag = tf.sqrt(tf.math.reduce_sum(transposed * transposed, axis=0))";
    "return tf.transpose(tf.math.divide_no_nan(transposed, v_mag))" ].

Definition tf_inner_call : list string :=
  [ "v1 = p1s - p2s";
    "v2 = p3s - p2s";
    "v1_norm = get_vectors_norm(v1)";
    "v2_norm = get_vectors_norm(v2)";
    "slopes = tf.reduce_sum(v1_norm * v2_norm, axis=3)";
    "angles = tf.acos(slopes)";
    "angles = tf.where(tf.math.is_nan(angles), 0.0, angles)";
    "return angles" ].

Definition tf_pld_init : list string :=
  [ "self.distance = DistanceRepresentation()" ].

Definition tf_pld_call : list string :=
  [ "a = self.distance.distance(p1s, p2s)";
    "b = self.distance.distance(p2s, p3s)";
    "c = self.distance.distance(p1s, p3s)";
    "s: tf.Tensor = (a + b + c) / 2";
    "squared = s * (s - a) * (s - b) * (s - c)";
    "area = tf.sqrt(squared)";
    "square_area: tf.Tensor = area * 2";
    "distance = tf.math.divide_no_nan(square_area, b)";
    "return distance" ].

Definition np_distance_distance : list string :=
  [ "diff = p1s - p2s";
    "square = ma.power(diff, 2)";
    "sum_squares = square.sum(axis=-1)";
    "sqrt = ma.sqrt(sum_squares).filled(0)";
    "return sqrt" ].

Definition np_distance_call : list string :=
  [ "return self.distance(p1s, p2s)" ].

Definition masked_arithmetic : list string :=
  [ "if isinstance(other, MaskedTensor):
    tensor = getattr(self.tensor, action)(other.tensor)
    mask = self.mask & other.mask
else:
    tensor = getattr(self.tensor, action)(other)
    mask = self.mask.expand(tensor.shape)";
    "return MaskedTensor(tensor=tensor, mask=mask)" ].

Definition masked_add : list string :=
  [ "return self.arithmetic('__add__', other)" ].

Definition masked_sub : list string :=
  [ "return self.arithmetic('__sub__', other)" ].

Definition masked_mul : list string :=
  [ "return self.arithmetic('__mul__', other)" ].

Definition masked_truediv : list string :=
  [ "return self.arithmetic('__truediv__', other)" ].

Definition masked_pow : list string :=
  [ "self.tensor.pow_(exponent)";
    "return self" ].

Definition masked_sum : list string :=
  [ "tensor = self.tensor.sum(dim=dim)";
    "mask = self.mask.prod(dim=dim).bool()";
    "return MaskedTensor(tensor=tensor, mask=mask)" ].

Definition masked_fix_nan : list string :=
  [ "self.tensor[self.tensor != self.tensor] = 0";
    "return self" ].

Definition masked_div : list string :=
  [ "tensor = torch.div(self.tensor, other.tensor, out=self.tensor if in_place else None)";
    "mask = self.mask & other.mask if update_mask else self.mask.expand(tensor.shape)";
    "return MaskedTensor(tensor, mask)" ].

Definition masked_getitem : list string :=
  [ "tensor = self.tensor[key]";
    "mask = self.mask[key]";
    "return MaskedTensor(tensor=tensor, mask=mask)" ].

Definition masked_permute : list string :=
  [ "tensor = self.tensor.permute(dims)";
    "mask = self.mask.permute(dims)";
    "return MaskedTensor(tensor=tensor, mask=mask)" ].

Definition masked_split : list string :=
  [ "tensors = torch.split(self.tensor, split_size_or_sections, dim)";
    "masks = torch.split(self.mask, split_size_or_sections, dim)";
    "return [MaskedTensor(tensor=tensor, mask=mask) for tensor, mask in zip(tensors, masks)]" ].

Definition masked_squeeze : list string :=
  [ "tensor = self.tensor.squeeze(dim)";
    "mask = self.mask.squeeze(dim)";
    "return MaskedTensor(tensor=tensor, mask=mask)" ].

Definition masked_transpose : list string :=
  [ "tensor = self.tensor.transpose(dim0, dim1)";
    "mask = self.mask.transpose(dim0, dim1)";
    "return MaskedTensor(tensor=tensor, mask=mask)" ].

Definition masked_zero_filled_kind : string := "Where".

Definition torch_fallback_getattr : list string :=
  [ "def func(*args, **kwargs):
    if len(args) > 0 and isinstance(args[0], MaskedTensor):
        args = list(args)
        mask = args[0].mask
        args[0] = args[0].tensor
        res = getattr(torch, attr)(*args, **kwargs)
        if attr in TorchFallback.doesnt_change_mask:
            return MaskedTensor(res, mask)
        else:
            return res
    else:
        return getattr(torch, attr)(*args, **kwargs)";
    "return func" ].

Definition masked_torch_stack : list string :=
  [ "tensor = torch.stack([t.tensor for t in tensors], dim=dim)";
    "mask = torch.stack([t.mask for t in tensors], dim=dim)";
    "return MaskedTensor(tensor=tensor, mask=mask)" ].

Definition repr_init : list string :=
  [ "self.header = header";
    "self.input_size = sum([len(c.points) for c in header.components])";
    "dims = len(header.components[0].format)";
    "self.rep_modules1 = rep_modules1";
    "self.rep_modules1_size = self.input_size * dims";
    "self.rep_modules2 = rep_modules2";
    "self.limb_pt1s, self.limb_pt2s = self.get_limbs_points()";
    "self.rep_modules2_size = len(self.limb_pt1s)";
    "self.rep_modules3 = rep_modules3";
    "self.triangle_pt1s, self.triangle_pt2s, self.triangle_pt3s = self.get_triangles_points()";
    "self.rep_modules3_size = len(self.triangle_pt1s)";
    "self.output_size = self.calc_output_size()" ].

Definition repr_calc_output_size : list string :=
  [ "return len(self.rep_modules1) * self.rep_modules1_size + len(self.rep_modules2) * self.rep_modules2_size + len(self.rep_modules3) * self.rep_modules3_size" ].

Definition repr_get_limbs_points : list string :=
  [ "pt1s = []";
    "pt2s = []";
    "idx = 0";
    "for component in self.header.components:
    for a, b in component.limbs:
        pt1s.append(a + idx)
        pt2s.append(b + idx)
    idx += len(component.points)";
    "return (pt1s, pt2s)" ].

Definition repr_get_triangles_points : list string :=
  [ "assert self.limb_pt1s";
    "assert self.limb_pt2s";
    "chains = [(p1, p2, p4) for p1, p2 in zip(self.limb_pt1s, self.limb_pt2s) for p3, p4 in zip(self.limb_pt1s, self.limb_pt2s) if p2 == p3]";
    "branches = []";
    "triangles = chains + branches";
    "return list(zip(*triangles))" ].

Definition repr_get_points : list string :=
  [ "return tensor[points]" ].

Definition repr_call : list string :=
  [ "points = self.permute(src, (2, 0, 1, 3))";
    "embeds = []";
    "if len(self.rep_modules1) > 0:
    embeds += [module(points) for module in self.rep_modules1]";
    "if len(self.rep_modules2) > 0:
    pt1s = self.get_points(points, self.limb_pt1s)
    pt2s = self.get_points(points, self.limb_pt2s)
    embeds += [module(p1s=pt1s, p2s=pt2s) for module in self.rep_modules2]";
    "if len(self.rep_modules3) > 0:
    pt1s = self.get_points(points, self.triangle_pt1s)
    pt2s = self.get_points(points, self.triangle_pt2s)
    pt3s = self.get_points(points, self.triangle_pt3s)
    embeds += [module(p1s=pt1s, p2s=pt2s, p3s=pt3s) for module in self.rep_modules3]";
    "return self.group_embeds(embeds)" ].

Definition torch_repr_init : list string :=
  [ "super(TorchPoseRepresentation, self).__init__(header, rep_modules1, rep_modules2, rep_modules3)";
    "self.limb_pt1s = torch.tensor(self.limb_pt1s, dtype=torch.long)";
    "self.limb_pt2s = torch.tensor(self.limb_pt2s, dtype=torch.long)";
    "self.triangle_pt1s = torch.tensor(self.triangle_pt1s, dtype=torch.long)";
    "self.triangle_pt2s = torch.tensor(self.triangle_pt2s, dtype=torch.long)";
    "self.triangle_pt3s = torch.tensor(self.triangle_pt3s, dtype=torch.long)" ].

Definition torch_repr_group_embeds : list string :=
  [ "group = torch.cat(embeds, dim=0)";
    "return group.permute(dims=[1, 2, 0])" ].

Definition torch_repr_permute : list string :=
  [ "return src.permute(shape)" ].

Definition tf_repr_group_embeds : list string :=
  [ "group = tf.concat(embeds, axis=0)";
    "return tf.transpose(group, perm=[1, 2, 0])" ].

Definition tf_repr_get_points : list string :=
  [ "return tf.gather(tensor, points)" ].

Definition tf_repr_permute : list string :=
  [ "return tf.transpose(src, perm=shape)" ].

