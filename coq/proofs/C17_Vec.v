(* C17 - vector algebra over lists of reals (dot products, Cauchy-Schwarz, the expansion of |u - t w|^2)
   used by the formula theorems of proofs/C17_Real.v. *)
From Coq Require Import Reals List Lra Lia.
Require Import Num C17_Repr C17_Spec.
Import ListNotations.
Local Open Scope R_scope.

Lemma list_ind2 {A B} (P : list A -> list B -> Prop) :
  P [] [] -> (forall x y a b, length a = length b -> P a b -> P (x :: a) (y :: b)) ->
  forall a b, length a = length b -> P a b.
Proof.
  intros H0 Hs a. induction a as [|x a IH]; intros [|y b] Hl; try discriminate; [exact H0|].
  apply Hs; [now injection Hl|]. apply IH. now injection Hl.
Qed.

Lemma map2_cons {A B C} (f : A -> B -> C) x y a b : map2 f (x :: a) (y :: b) = f x y :: map2 f a b.
Proof. reflexivity. Qed.
Lemma map2_nil_l {A B C} (f : A -> B -> C) b : map2 f [] b = [].
Proof. reflexivity. Qed.
Lemma map2_nil_r {A B C} (f : A -> B -> C) a : map2 f a [] = [].
Proof. destruct a; reflexivity. Qed.
Lemma map2_length {A B C} (f : A -> B -> C) a b : length a = length b -> length (map2 f a b) = length a.
Proof. intros H. unfold map2. rewrite map_length, combine_length, <- H. apply Nat.min_id. Qed.

Lemma dot_cons x y a b : dot (x :: a) (y :: b) = x * y + dot a b.
Proof. reflexivity. Qed.
Lemma dot_nil_l b : dot [] b = 0. Proof. reflexivity. Qed.
Lemma dot_nil_r a : dot a [] = 0. Proof. destruct a; reflexivity. Qed.
Lemma dot_comm a : forall b, dot a b = dot b a.
Proof.
  induction a as [|x a IH]; intros [|y b]; try reflexivity. rewrite !dot_cons, IH. ring.
Qed.
Lemma dot_self_nonneg a : 0 <= dot a a.
Proof. induction a as [|x a IH]; [unfold dot; cbn; lra|]. rewrite dot_cons. nra. Qed.

(* the model's "square then sum" is the dot product with itself *)
Lemma sum_sq_dot (v : vec) : sum R_ops (map (sq R_ops) v) = dot v v.
Proof. induction v as [|x v IH]; [reflexivity|]. cbn [map]. rewrite dot_cons, <- IH. reflexivity. Qed.
Lemma sum_map2_mul_dot (a b : vec) : sum R_ops (map2 Rmult a b) = dot a b.
Proof. reflexivity. Qed.

Lemma dot_axpy t : forall u w, length u = length w ->
  dot (vaxpy t u w) (vaxpy t u w) = dot u u - 2 * t * dot u w + t * t * dot w w.
Proof.
  apply list_ind2; [unfold vaxpy, dot; cbn; ring|].
  intros x y a b _ IH. unfold vaxpy in *. rewrite map2_cons, !dot_cons, IH. ring.
Qed.
Lemma dot_axpy_w t : forall u w, length u = length w -> dot (vaxpy t u w) w = dot u w - t * dot w w.
Proof.
  apply list_ind2; [unfold vaxpy, dot; cbn; ring|].
  intros x y a b _ IH. unfold vaxpy in *. rewrite map2_cons, !dot_cons, IH. ring.
Qed.
Lemma dot_vsub : forall u w, length u = length w ->
  dot (vsub u w) (vsub u w) = dot u u + dot w w - 2 * dot u w.
Proof.
  apply list_ind2; [unfold vsub, dot; cbn; ring|].
  intros x y a b _ IH. unfold vsub in *. rewrite map2_cons, !dot_cons, IH. ring.
Qed.
Lemma vsub_swap_dot : forall a b, dot (vsub a b) (vsub a b) = dot (vsub b a) (vsub b a).
Proof.
  induction a as [|x a IH]; intros [|y b]; try reflexivity. unfold vsub in *. rewrite !map2_cons, !dot_cons, IH. ring.
Qed.
Lemma vsub_via : forall p1 p2 p3, length p1 = length p2 -> length p2 = length p3 ->
  vsub p1 p3 = vsub (vsub p1 p2) (vsub p3 p2).
Proof.
  induction p1 as [|x a IH]; intros [|y b] [|z c] H1 H2; try discriminate; [reflexivity|].
  unfold vsub in *. rewrite !map2_cons. f_equal; [ring|]. apply IH; [now injection H1|now injection H2].
Qed.
Lemma vsub_length a b : length a = length b -> length (vsub a b) = length a.
Proof. apply map2_length. Qed.
Lemma vsub_lengths p1 p2 p3 : length p1 = length p2 -> length p2 = length p3 -> length (vsub p1 p2) = length (vsub p3 p2).
Proof. intros L1 L2. rewrite !vsub_length; congruence. Qed.

Lemma cauchy_schwarz u w : length u = length w -> dot u w * dot u w <= dot u u * dot w w.
Proof.
  intros Hl. set (A := dot u u). set (B := dot w w). set (G := dot u w).
  assert (Hpoly : forall t, 0 <= A - 2 * t * G + t * t * B).
  { intros t. unfold A, B, G. rewrite <- (dot_axpy t u w Hl). apply dot_self_nonneg. }
  pose proof (dot_self_nonneg w) as HB. fold B in HB.
  destruct (Req_dec B 0) as [E|NE].
  - (* B = 0: the polynomial is affine and non-negative, so G = 0 *)
    rewrite E in *. destruct (Req_dec G 0) as [EG|NG]; [rewrite EG; lra|].
    exfalso. specialize (Hpoly ((A + 1) / (2 * G))).
    replace (A - 2 * ((A + 1) / (2 * G)) * G + (A + 1) / (2 * G) * ((A + 1) / (2 * G)) * 0) with (-1) in Hpoly by (field; exact NG).
    lra.
  - specialize (Hpoly (G / B)).
    replace (A - 2 * (G / B) * G + G / B * (G / B) * B) with ((A * B - G * G) / B) in Hpoly by (field; exact NE).
    assert (HBpos : 0 < B) by lra.
    assert (0 <= (A * B - G * G) / B * B) by (apply Rmult_le_pos; lra).
    replace ((A * B - G * G) / B * B) with (A * B - G * G) in H by (field; exact NE). lra.
Qed.
Lemma dot_self_zero_eq : forall a b, length a = length b -> dot (vsub a b) (vsub a b) = 0 -> a = b.
Proof.
  apply (list_ind2 (fun a b => dot (vsub a b) (vsub a b) = 0 -> a = b)); [reflexivity|].
  intros x y a b _ IH H. unfold vsub in *. rewrite map2_cons, dot_cons in H.
  pose proof (dot_self_nonneg (map2 Rminus a b)) as Hn.
  pose proof (Rle_0_sqr (x - y)) as Hs. unfold Rsqr in Hs.
  assert (Hx : (x - y) * (x - y) = 0) by lra. assert (Hr : dot (map2 Rminus a b) (map2 Rminus a b) = 0) by lra.
  f_equal; [|apply IH; exact Hr]. apply Rmult_integral in Hx. lra.
Qed.
Lemma vsub_dot_nonzero a b : length a = length b -> a <> b -> dot (vsub b a) (vsub b a) <> 0.
Proof. intros L N E. apply N. symmetry. apply dot_self_zero_eq; [congruence|exact E]. Qed.
