(* int(a / b) of Python ints (C04_Legacy.py_int_truediv, i.e. SpecFloat's correctly rounded SFdiv followed by
   truncation) returns the exact quotient when b divides a and the quotient is below 2^53: the frame count of a
   v0.1 file whose payload is a whole number of frames. *)
From Coq Require Import ZArith NArith List Lia ZifyBool Bool SpecFloat.
Require Import Result SpecFloatLemmas C04_Legacy.
Open Scope Z_scope.

Lemma Zdigits2_log2 p : Zdigits2 (Z.pos p) = Z.log2 (Z.pos p) + 1.
Proof.
  cbn [Zdigits2]. rewrite digits2_size. destruct p as [p|p|]; cbn [Z.log2 Pos.size]; try lia. 
Qed.

Definition fexp64 := fexp 53 1024.
Lemma fexp64_eq e : fexp64 e = Z.max (e - 53) (-1074).
Proof. reflexivity. Qed.

(* SpecFloat.binary_round_aux (bra) on an exact value that already has 53 digits, or 54 digits and is even *)
Lemma bra_exact_53 sx (m : positive) e :
  Zdigits2 (Z.pos m) = 53 -> -1074 <= e <= 971 ->
  binary_round_aux 53 1024 sx (Z.pos m) e loc_Exact = S754_finite sx m e.
Proof.
  intros Hd He. unfold binary_round_aux, shr_fexp. rewrite Hd.
  replace (fexp 53 1024 (53 + e) - e) with 0 by (change (fexp 53 1024) with fexp64; rewrite fexp64_eq; lia).
  cbn [shr shr_record_of_loc shr_m loc_of_shr_record shr_r shr_s round_nearest_even].
  rewrite Hd.
  replace (fexp 53 1024 (53 + e) - e) with 0 by (change (fexp 53 1024) with fexp64; rewrite fexp64_eq; lia).
  cbn [shr shr_record_of_loc shr_m].
  destruct (Zle_bool e (1024 - 53)) eqn:E; [reflexivity|]. apply Z.leb_gt in E. lia.
Qed.
Lemma bra_exact_54 sx (m : positive) e :
  Zdigits2 (Z.pos m~0) = 54 -> -1075 <= e <= 970 ->
  binary_round_aux 53 1024 sx (Z.pos m~0) e loc_Exact = S754_finite sx m (e + 1).
Proof.
  intros Hd He.
  assert (Hd1 : Zdigits2 (Z.pos m) = 53).
  { cbn [Zdigits2 digits2_pos] in Hd |- *. lia. }
  unfold binary_round_aux, shr_fexp. rewrite Hd.
  replace (fexp 53 1024 (54 + e) - e) with 1 by (change (fexp 53 1024) with fexp64; rewrite fexp64_eq; lia).
  cbn [shr shr_record_of_loc iter_pos shr_1 orb shr_m loc_of_shr_record round_nearest_even].
  rewrite Hd1.
  replace (fexp 53 1024 (53 + (e + 1)) - (e + 1)) with 0 by (change (fexp 53 1024) with fexp64; rewrite fexp64_eq; lia).
  cbn [shr shr_record_of_loc shr_m].
  destruct (Zle_bool (e + 1) (1024 - 53)) eqn:E; [reflexivity|]. apply Z.leb_gt in E. lia.
Qed.

Lemma shift_match (a s : Z) : 0 <= s ->
  match s with Z.pos _ => Z.shiftl a s | Z0 => a | Z.neg _ => 0 end = a * 2 ^ s.
Proof. intros Hs. destruct s as [|p|p]; [cbn; lia| |lia]. now rewrite Z.shiftl_mul_pow2 by lia. Qed.

(* the quotient of f * b by b is computed exactly, scaled to 53 or 54 digits *)
Lemma div_core_exact (f b : positive) :
  Z.pos f < 2 ^ 53 ->
  exists s, (s = 52 - Z.log2 (Z.pos f) \/ s = 53 - Z.log2 (Z.pos f)) /\
    SFdiv_core_binary 53 1024 (Z.pos (f * b)) 0 (Z.pos b) 0 = (Z.pos f * 2 ^ s, - s, loc_Exact).
Proof.
  intros Hf. exists (53 - (Zdigits2 (Z.pos (f * b)) - Zdigits2 (Z.pos b))).
  set (s := 53 - (Zdigits2 (Z.pos (f * b)) - Zdigits2 (Z.pos b))).
  assert (Hlf : Z.log2 (Z.pos f) < 53) by (apply Z.log2_lt_pow2; lia).
  pose proof (Z.log2_mul_below (Z.pos f) (Z.pos b) ltac:(lia) ltac:(lia)) as Hlo.
  pose proof (Z.log2_mul_above (Z.pos f) (Z.pos b) ltac:(lia) ltac:(lia)) as Hhi.
  assert (Hcase : s = 52 - Z.log2 (Z.pos f) \/ s = 53 - Z.log2 (Z.pos f))
    by (unfold s; rewrite !Zdigits2_log2, Pos2Z.inj_mul; lia).
  split; [exact Hcase|]. clear Hlo Hhi.
  unfold SFdiv_core_binary.
  replace (Zdigits2 (Z.pos (f * b)) + 0 - (Zdigits2 (Z.pos b) + 0)) with (53 - s) by (unfold s; lia).
  replace (Z.min (fexp 53 1024 (53 - s)) (0 - 0)) with (- s)
    by (change (fexp 53 1024) with fexp64; rewrite fexp64_eq; pose proof (Z.log2_nonneg (Z.pos f)); lia).
  replace (0 - 0 - - s) with s by lia.
  rewrite shift_match by lia.
  assert (Hq : Z.div_eucl (Z.pos (f * b) * 2 ^ s) (Z.pos b) = (Z.pos f * 2 ^ s, 0)).
  { rewrite (surjective_pairing (Z.div_eucl _ _)).
    change (fst (Z.div_eucl ?x ?y)) with (x / y). change (snd (Z.div_eucl ?x ?y)) with (x mod y).
    replace (Z.pos (f * b) * 2 ^ s) with (Z.pos f * 2 ^ s * Z.pos b) by (rewrite Pos2Z.inj_mul; ring).
    now rewrite Z.div_mul, Z.mod_mul by lia. }
  rewrite Hq. unfold new_location, new_location_even, new_location_odd. cbn [Zeq_bool Z.compare].
  destruct (Z.even (Z.pos b)); reflexivity.
Qed.

Lemma trunc_scaled (m : positive) (F k : Z) : 0 <= k -> Z.pos m = F * 2 ^ k ->
  sf_trunc (S754_finite false m (- k)) = Some F.
Proof.
  intros Hk Hm. unfold sf_trunc.
  destruct k as [|p|p]; [|cbn [Z.opp]|lia].
  - cbn [Z.opp]. f_equal. rewrite Hm. cbn. lia.
  - f_equal. rewrite Hm. rewrite Z.pow_pos_fold. apply Z.div_mul. apply Z.pow_nonzero; lia.
Qed.

Theorem py_int_truediv_exact (F b : Z) : 0 <= F < 2 ^ 53 -> 0 < b -> py_int_truediv (F * b) b = Ok F.
Proof.
  intros HF Hb. unfold py_int_truediv.
  destruct (Z.eqb_spec b 0) as [|_]; [lia|].
  destruct b as [|pb|pb]; try lia.
  destruct F as [|pf|pf]; try lia.
  - reflexivity.
  - change (Z.pos pf * Z.pos pb) with (Z.pos (pf * pb)). cbn [sf_of_int SFdiv xorb].
    destruct (div_core_exact pf pb) as [s [Hcase ->]]; [lia|].
    assert (Hlf : Z.log2 (Z.pos pf) < 53) by (apply Z.log2_lt_pow2; lia).
    pose proof (Z.log2_nonneg (Z.pos pf)) as Hf0.
    assert (Hpow : 0 < 2 ^ s) by (apply Z.pow_pos_nonneg; lia).
    destruct (Z.pos pf * 2 ^ s) as [|q|q] eqn:Hq; try lia.
    assert (Hdq : Zdigits2 (Z.pos q) = Z.log2 (Z.pos pf) + 1 + s).
    { rewrite Zdigits2_log2, <- Hq, Z.log2_mul_pow2 by lia. lia. }
    destruct Hcase as [Hc|Hc].
    + rewrite bra_exact_53 by lia. rewrite (trunc_scaled q (Z.pos pf) s) by (lia || (symmetry; exact Hq)). reflexivity.
    + (* one digit too many: q is even *)
      assert (Hs1 : 1 <= s) by lia.
      assert (Hev : Z.pos q = 2 * (Z.pos pf * 2 ^ (s - 1))).
      { rewrite <- Hq. replace s with (1 + (s - 1)) at 1 by lia. rewrite Z.pow_add_r by lia. ring. }
      destruct q as [q'|q'|]; [lia| |lia].
      rewrite bra_exact_54 by lia.
      replace (- s + 1) with (- (s - 1)) by lia.
      rewrite (trunc_scaled q' (Z.pos pf) (s - 1)); [reflexivity|lia|lia].
Qed.
