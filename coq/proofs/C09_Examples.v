(* C09 - concrete witnesses (binary64 instance): two fillings of one pose that are stored differently and agree on
   what is visible. *)
From Coq Require Import List Arith Bool ZArith PrimFloat.
Require Import Tensor Num C09_Masked C09_Ops C09_Run.
Import ListNotations.

(* one frame, one person, two points, two coordinates; the second point is missing (confidence 0) and holds
   nan / +inf in one filling and 2^100 / -7 in the other *)
Definition ex_conf : tensor float := mkT [1; 1; 2] [1%float; 0%float].
Definition ex_raw : tensor float := mkT [1; 1; 2; 2] [3%float; 4%float; nan; infinity].
Definition ex_raw' : tensor float := mkT [1; 1; 2; 2] [3%float; 4%float; 0x1p100%float; (-7)%float].
Definition ex_np : body F_ops := np_ctor F_ops (of_plain F_ops ex_raw) ex_conf.
Definition ex_np' : body F_ops := np_ctor F_ops (of_plain F_ops ex_raw') ex_conf.
Definition ex_t : body F_ops := t_ctor_plain F_ops ex_raw ex_conf.
Definition ex_t' : body F_ops := t_ctor_plain F_ops ex_raw' ex_conf.
Definition ex_p : marr F_ops := mkT [1; 1; 1; 2] [(nan, true); (1%float, false)].
Definition ex_p' : marr F_ops := mkT [1; 1; 1; 2] [(5%float, true); (1%float, false)].

Lemma ex_same_pose : same_pose F_ops ex_raw ex_raw' ex_conf.
Proof. unfold same_pose. split; [reflexivity|]. split; [reflexivity|]. intros k Hk.
  destruct k as [|[|[|[|k]]]]; try reflexivity; vm_compute in Hk; discriminate. Qed.
Lemma ex_differ : bdat ex_np <> bdat ex_np'.
Proof. intros H. apply (f_equal (fun t => match nth 3 (data t) (0%float, true) with (x, _) => PrimFloat.eqb x (-7)%float end)) in H.
  vm_compute in H. discriminate. Qed.
Lemma ex_agree_np : agree_body F_ops ex_np ex_np'.
Proof. vm_compute. reflexivity. Qed.
Lemma ex_agree_t : agree_body F_ops ex_t ex_t'.
Proof. vm_compute. reflexivity. Qed.
Lemma ex_agree_p : agree F_ops ex_p ex_p'.
Proof. vm_compute. reflexivity. Qed.
(* the same on the TensorFlow body: the two fillings are stored differently, normalisation cannot tell *)
Lemma ex_differ_t : bdat ex_t <> bdat ex_t'.
Proof. intros H. apply (f_equal (fun t => match nth 3 (data t) (0%float, true) with (x, _) => PrimFloat.eqb x (-7)%float end)) in H.
  vm_compute in H. discriminate. Qed.

