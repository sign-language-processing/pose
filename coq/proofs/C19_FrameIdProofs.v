(* C19 - the frame-id rule: for a name  pre ++ [sep] ++ digits ++ "_keypoints.json"  (sep a non-digit other than 'n'),
   or  digits ++ "_keypoints.json", get_frame_id returns the value of [digits] whatever [pre] contains. *)
From Coq Require Import List Arith NArith Bool Lia.
Require Import Result C19_FrameId.
Import ListNotations.
Local Open Scope nat_scope.

Definition all_digits (ds : list N) : Prop := Forall (fun c => is_digit c = true) ds.

Lemma span_digits_app ds r : all_digits ds -> (match r with [] => True | c :: _ => is_digit c = false end) ->
  span_digits (ds ++ r) = (ds, r).
Proof.
  intros Hd Hr. induction Hd as [|c ds Hc Hds IH]; cbn [app span_digits].
  - destruct r as [|c r]; [reflexivity|]. cbn [span_digits]. now rewrite Hr.
  - rewrite Hc, IH. reflexivity.
Qed.
Lemma span_digits_spec s : forall ds r, span_digits s = (ds, r) ->
  s = ds ++ r /\ all_digits ds /\ match r with [] => True | c :: _ => is_digit c = false end.
Proof.
  induction s as [|c s IH]; intros ds r H; cbn [span_digits] in H.
  - injection H as <- <-. repeat split. constructor.
  - destruct (is_digit c) eqn:Ec.
    + destruct (span_digits s) as [a b]. injection H as <- <-. destruct (IH a b eq_refl) as (-> & Ha & Hb).
      repeat split; [constructor; assumption|assumption].
    + injection H as <- <-. repeat split; [constructor|assumption].
Qed.

Lemma tail_ok_suffix : tail_ok SUFFIX = Some [].
Proof. reflexivity. Qed.
Lemma match_body_final ds : all_digits ds -> ds <> [] -> match_body (ds ++ SUFFIX) = Some (ds, length ds + 15).
Proof.
  intros Hd Hne. unfold match_body. rewrite (span_digits_app ds SUFFIX Hd eq_refl).
  destruct ds; [contradiction|]. rewrite tail_ok_suffix. reflexivity.
Qed.

(* no match that starts earlier can reach into  sep :: digits ++ "_keypoints.json" *)
Lemma strip_prefix_spec pat : forall s r, strip_prefix pat s = Some r -> s = pat ++ r.
Proof.
  induction pat as [|a pat IH]; intros s r H; cbn [strip_prefix] in H; [now injection H as ->|].
  destruct s as [|b s]; [discriminate|]. destruct (N.eqb_spec a b) as [->|]; [|discriminate]. cbn [app]. f_equal. apply IH, H.
Qed.
Lemma tail_ok_spec s rest : tail_ok s = Some rest -> exists x, s = KEYPOINTS ++ x :: JSON ++ rest.
Proof.
  unfold tail_ok. destruct (strip_prefix KEYPOINTS s) as [[|x r]|] eqn:E; try discriminate.
  destruct (x =? 10)%N; [discriminate|]. intros H. exists x. rewrite (strip_prefix_spec _ _ _ E), (strip_prefix_spec _ _ _ H). reflexivity.
Qed.

(* q ++ G with |q| < 15 never carries the tail "_keypoints?json" when G = sep :: digits ++ SUFFIX: the separator would be the
   final 'n', or the digit after it a letter of the tail, or (under the wildcard) the character after that a 'j' *)
Lemma tail_not_across q sep d0 ds rest :
  length q < 15 -> is_digit sep = false -> sep <> 110%N -> is_digit d0 = true -> all_digits ds ->
  tail_ok (q ++ sep :: d0 :: ds ++ SUFFIX) = Some rest -> False.
Proof.
  intros Hq Hsep Hn Hd0 Hds H.
  assert (Hd1 : exists d1 r, ds ++ SUFFIX = d1 :: r /\ d1 <> 106%N).
  { destruct Hds as [|d1 ds' Hd1 _]; [exists 95%N; eexists; split; [reflexivity|discriminate]|].
    exists d1; eexists. split; [reflexivity|]. intros ->. discriminate Hd1. }
  destruct Hd1 as (d1 & r & Er & Hj). rewrite Er in H. apply tail_ok_spec in H as (x & E).
  do 15 (destruct q as [|? q]; [cbn in E; repeat (injection E as ? E); subst;
     first [now apply Hn | now apply Hj | discriminate Hd0 | discriminate Hsep] | cbn [length] in Hq]).
  lia.
Qed.

Lemma span_digits_barrier p sep R : is_digit sep = false ->
  span_digits (p ++ sep :: R) = (fst (span_digits p), snd (span_digits p) ++ sep :: R).
Proof.
  intros Hs. induction p as [|c p IH]; cbn [app span_digits].
  - now rewrite Hs.
  - destruct (is_digit c); [|reflexivity]. rewrite IH. destruct (span_digits p); reflexivity.
Qed.

Section Across.
Variables (sep d0 : N) (ds : list N).
Hypothesis Hsep : is_digit sep = false.
Hypothesis Hn : sep <> 110%N.
Hypothesis Hd0 : is_digit d0 = true.
Hypothesis Hds : all_digits ds.
Let G : list N := sep :: d0 :: ds ++ SUFFIX.

Lemma match_body_bound p dg n : match_body (p ++ G) = Some (dg, n) -> n <= length p.
Proof.
  unfold match_body, G. rewrite (span_digits_barrier p sep _ Hsep).
  destruct (span_digits p) as [a q] eqn:Es. cbn [fst snd].
  destruct (span_digits_spec p a q Es) as (-> & _ & _).
  destruct a as [|a0 a]; [discriminate|].
  destruct (tail_ok (q ++ sep :: d0 :: ds ++ SUFFIX)) as [rest|] eqn:Et; [|discriminate].
  intros H; injection H as _ <-.
  destruct (Nat.lt_ge_cases (length q) 15) as [Hlt|Hge].
  - exfalso. exact (tail_not_across q sep d0 ds rest Hlt Hsep Hn Hd0 Hds Et).
  - rewrite app_length. cbn [length]. lia.
Qed.
Lemma try_match_bound start p dg n : try_match start (p ++ G) = Some (dg, n) -> p <> [] -> n <= length p.
Proof.
  destruct p as [|y p]; [contradiction|]. intros H _. cbn [app try_match] in H.
  destruct (is_digit y).
  - destruct start; [|discriminate]. exact (match_body_bound (y :: p) dg n H).
  - destruct (match_body (p ++ G)) as [[dg' n']|] eqn:E; [|discriminate]. injection H as <- <-.
    apply match_body_bound in E. cbn [length]. lia.
Qed.
Lemma scan_pre : forall p start skip last, skip <= length p ->
  exists last', scan (p ++ G) start skip last = scan G (match p with [] => start | _ => false end) 0 last'.
Proof.
  induction p as [|y p IH]; intros start skip last Hk.
  - cbn [length] in Hk. assert (skip = 0) by lia. subst. exists last. reflexivity.
  - cbn [length] in Hk. change ((y :: p) ++ G) with (y :: (p ++ G)). cbn [scan]. destruct skip as [|k].
    + change (y :: (p ++ G)) with ((y :: p) ++ G).
      destruct (try_match start ((y :: p) ++ G)) as [[dg n]|] eqn:E.
      * apply try_match_bound in E; [|discriminate]. cbn [length] in E.
        destruct (IH false (Nat.pred n) (Some dg) ltac:(lia)) as [l' Hl']. exists l'. rewrite Hl'. destruct p; reflexivity.
      * destruct (IH false 0 last ltac:(lia)) as [l' Hl']. exists l'. rewrite Hl'. destruct p; reflexivity.
    + destruct (IH false k last ltac:(lia)) as [l' Hl']. exists l'. rewrite Hl'. destruct p; reflexivity.
Qed.
End Across.

Lemma scan_skip_all : forall s start skip last, length s <= skip -> scan s start skip last = last.
Proof.
  induction s as [|c s IH]; intros start skip last H; [reflexivity|]. cbn [length] in H. cbn [scan].
  destruct skip as [|k]; [lia|]. apply IH. lia.
Qed.
Lemma scan_final sep ds start last : is_digit sep = false -> all_digits ds -> ds <> [] ->
  scan (sep :: ds ++ SUFFIX) start 0 last = Some ds.
Proof.
  intros Hs Hd Hne. cbn [scan try_match]. rewrite Hs, (match_body_final ds Hd Hne). cbn [Nat.pred].
  apply scan_skip_all. rewrite app_length. cbn. lia.
Qed.

Definition frame_id_of (ds : list N) : result N :=
  if (N.of_nat (length ds) <=? MAX_STR_DIGITS)%N then Ok (digits_value ds) else Err Value.

Theorem frame_id_after_separator pre sep ds :
  is_digit sep = false -> sep <> 110%N -> all_digits ds -> ds <> [] ->
  get_frame_id (pre ++ sep :: ds ++ SUFFIX) = frame_id_of ds.
Proof.
  intros Hs Hn Hd Hne. destruct ds as [|d0 ds']; [contradiction|]. inversion Hd as [|? ? Hd0 Hds']; subst.
  unfold get_frame_id, frame_id_of.
  destruct (scan_pre sep d0 ds' Hs Hn Hd0 Hds' pre true 0 None ltac:(lia)) as [l' Hl'].
  change (sep :: (d0 :: ds') ++ SUFFIX) with (sep :: d0 :: ds' ++ SUFFIX). rewrite Hl'.
  change (sep :: d0 :: ds' ++ SUFFIX) with (sep :: (d0 :: ds') ++ SUFFIX).
  rewrite (scan_final sep (d0 :: ds') _ l' Hs Hd Hne). reflexivity.
Qed.
Theorem frame_id_bare ds : all_digits ds -> ds <> [] -> get_frame_id (ds ++ SUFFIX) = frame_id_of ds.
Proof.
  intros Hd Hne. unfold get_frame_id, frame_id_of. destruct ds as [|d0 ds']; [contradiction|].
  inversion Hd as [|? ? Hd0 Hds']; subst. change ((d0 :: ds') ++ SUFFIX) with (d0 :: (ds' ++ SUFFIX)).
  cbn [scan try_match]. rewrite Hd0. change (d0 :: (ds' ++ SUFFIX)) with ((d0 :: ds') ++ SUFFIX).
  rewrite (match_body_final (d0 :: ds') Hd Hne). cbn [Nat.pred length Nat.add].
  rewrite scan_skip_all; [reflexivity|]. rewrite app_length. cbn. lia.
Qed.
