(* v0.2 codec: Pose.write (pose.py:67-99, pose_header.py:96-127,208-229,345-359,
   numpy/pose_body.py:140-159) and the plain Pose.read path for v0.2 bodies
   (pose_header.py:71-94,189-206,311-343 miss path; pose_body.py:93-147,208-262;
   numpy/pose_body.py:44-53).  Definitions only. *)
From Coq Require Import ZArith NArith List Bool SpecFloat.
Require Import ListN Result Bytes Utf8 Utf8S F32 Prog.
Import ListNotations.
Open Scope N_scope.

Definition str := list N.                         (* code points *)

(* ---------- what is handed to Pose.write ---------- *)
Record wcomponent := { wc_name : str; wc_format : str; wc_points : list str;
                       wc_limbs : list (Z * Z); wc_colors : list (Z * Z * Z) }.
Record wpose := { w_dims : Z * Z * Z;              (* width, height, depth (ints after math.ceil) *)
                  w_comps : list wcomponent;
                  w_fps : N;                        (* binary64 word of the Python float *)
                  w_shape : list N;                 (* body.data.shape *)
                  w_data : list N;                  (* binary64 words, row-major *)
                  w_cshape : list N;                (* body.confidence.shape *)
                  w_conf : list N }.
(* ---------- what Pose.read returns ---------- *)
Record component := { c_name : str; c_format : str; c_points : list str;
                      c_limbs : list (N * N); c_colors : list (N * N * N) }.
Record header := { h_version : N;                 (* float32 word *)
                   h_dims : N * N * N; h_comps : list component }.
Record body := { b_fps : N;                        (* float32 word *)
                 b_shape : list N;                 (* (frames, people, points, dims) *)
                 b_data : list N;                  (* float32 words *)
                 b_conf : list N;                  (* float32 words, shape (frames, people, points) *)
                 b_mask : list bool }.             (* per (frame, person, point): missing? ; stacked over dims *)
Record pose := { p_header : header; p_body : body }.

Definition prodN (l : list N) : N := fold_right N.mul 1 l.
Definition sumN (l : list N) : N := fold_right N.add 0 l.
Definition u16_ok (z : Z) : bool := (0 <=? z)%Z && (z <? 65536)%Z.

(* ---------- writer ---------- *)
(* _write_str: struct.pack("<H%ds" % n, n, b) with b = bytes(s,'utf8'), n = len(b) *)
Definition write_str (s : str) : result bytes :=
  match enc_utf8 s with
  | None => Err Unicode
  | Some b => if lenN b <? 65536 then Ok (enc_u16 (lenN b) ++ b) else Err StructError
  end.
Definition pack_u16 (z : Z) : result bytes := if u16_ok z then Ok (enc_u16 (Z.to_N z)) else Err StructError.
Definition pack_u16s (l : list Z) : result bytes :=
  if forallb u16_ok l then Ok (flat_map (fun z => enc_u16 (Z.to_N z)) l) else Err StructError.
Fixpoint concat_r (l : list (result bytes)) : result bytes :=
  match l with
  | [] => Ok []
  | r :: rest => do a <- r; do b <- concat_r rest; Ok (a ++ b)
  end.
Definition write_component (c : wcomponent) : result bytes :=
  concat_r ([ write_str (wc_name c); write_str (wc_format c);
              pack_u16s [Z.of_N (lenN (wc_points c)); Z.of_N (lenN (wc_limbs c)); Z.of_N (lenN (wc_colors c))] ]
            ++ map write_str (wc_points c)
            ++ map (fun l => pack_u16s [fst l; snd l]) (wc_limbs c)
            ++ map (fun k => pack_u16s [fst (fst k); snd (fst k); snd k]) (wc_colors c)).
Definition version_word : N := 1045220557.         (* struct.pack('<f', 0.2) = cd cc 4c 3e *)
Definition write_dims (d : Z * Z * Z) : result bytes :=
  let '(w, h, dp) := d in
  if u16_ok w && u16_ok h && u16_ok dp then pack_u16s [w; h; dp] else Err Value.
Definition write_header (dims : Z * Z * Z) (comps : list wcomponent) : result bytes :=
  concat_r ([ Ok (enc_u32 version_word); write_dims dims; pack_u16s [Z.of_N (lenN comps)] ]
            ++ map write_component comps).
(* header.num_dims(): max(len(c.format)) - 1; ValueError on no components *)
Definition num_dims_of (fmts : list str) : result Z :=
  match fmts with
  | [] => Err Value
  | _ => Ok (fold_right Z.max 0%Z (map (fun f => Z.of_N (lenN f)) fmts) - 1)%Z
  end.
Definition total_points_w (comps : list wcomponent) : N := sumN (map (fun c => lenN (wc_points c)) comps).
Definition write_body (p : wpose) : result bytes :=
  match w_shape p with
  | [F; P; T; D] =>
      if 4294967295 <? F then Err Value else
      match pack_f32 (w_fps p) with
      | None => Err Overflow
      | Some fw =>
        if 65535 <? P then Err StructError else
        Ok (enc_u32 fw ++ enc_u32 F ++ enc_u16 P
            ++ flat_map (fun w => enc_u32 (f64_to_f32 w)) (w_data p)
            ++ flat_map (fun w => enc_u32 (f64_to_f32 w)) (w_conf p))
      end
  | _ => Err Value
  end.
Definition eq_shape (a b : list N) : bool :=
  (length a =? length b)%nat && forallb (fun xy => fst xy =? snd xy) (combine a b).
(* Pose.write: sanity checks, then header, then body *)
Definition write_pose (p : wpose) : result bytes :=
  match w_shape p with
  | [F; P; T; D] =>
      do hd <- num_dims_of (map wc_format (w_comps p));
      if negb (hd =? Z.of_N D)%Z then Err Value else
      if negb (total_points_w (w_comps p) =? T) then Err Value else
      if negb (eq_shape (w_cshape p) [F; P; T]) then Err Value else
      do h <- write_header (w_dims p) (w_comps p);
      do b <- write_body p;
      Ok (h ++ b)
  | _ => Err Value
  end.

(* ---------- reader (as programs over the reader interface) ---------- *)
Definition rd_u16 : prog N := Block 2 (fun b => Ret (dec_u16 b)).
Definition rd_u32 : prog N := Block 4 (fun b => Ret (dec_u32 b)).
Definition rd_u16x3 : prog (N * N * N) :=
  Block 6 (fun b => Ret (dec_u16 b, dec_u16 (dropN 2 b), dec_u16 (dropN 4 b))).
Definition rd_u16x2 : prog (N * N) := Block 4 (fun b => Ret (dec_u16 b, dec_u16 (dropN 2 b))).
Definition rd_str : prog str :=
  dop n <- rd_u16;
  Block n (fun b => match dec_utf8 b with Some s => Ret s | None => Fail Unicode end).
Fixpoint words16 (n : nat) (b : bytes) : list N :=
  match n with O => [] | S k => dec_u16 b :: words16 k (dropN 2 b) end.
Fixpoint words32 (n : nat) (b : bytes) : list N :=
  match n with O => [] | S k => dec_u32 b :: words32 k (dropN 4 b) end.
Fixpoint triples (l : list N) : list (N * N * N) :=
  match l with a :: b :: c :: r => (a, b, c) :: triples r | _ => [] end.
Definition rd_component : prog component :=
  dop name <- rd_str;
  dop fmt <- rd_str;
  dop cnt <- rd_u16x3;
  let '(np, nl, nc) := cnt in
  dop pts <- prep (N.to_nat np) rd_str;
  dop limbs <- prep (N.to_nat nl) rd_u16x2;
  dop cols <- Block (6 * nc) (fun b => Ret (triples (words16 (N.to_nat (3 * nc)) b)));
  Ret {| c_name := name; c_format := fmt; c_points := pts; c_limbs := limbs; c_colors := cols |}.
Definition rd_header : prog header :=
  dop v <- rd_u32;
  dop dims <- rd_u16x3;
  dop n <- rd_u16;
  dop comps <- prep (N.to_nat n) rd_component;
  Ret {| h_version := v; h_dims := dims; h_comps := comps |}.

Definition total_points (h : header) : N := sumN (map (fun c => lenN (c_points c)) (h_comps h)).
Definition num_dims (h : header) : result Z := num_dims_of (map c_format (h_comps h)).

(* read_v0_1_frames (pose_body.py:93-147) is [read_frames] below: [cells] = prod(shape) per frame *)
Definition zblock (n : Z) (k : bytes -> prog (list N)) : prog (list N) :=
  if (n <? 0)%Z then Fail Value else Block (Z.to_N n) k.
Definition read_frames (frames cells : Z) (s e : option Z) : prog (Z * list N) :=
  let started := match s with Some s' => (0 <? s')%Z | None => false end in
  let s' := match s with Some s' => s' | None => 0%Z end in
  if started && (frames <=? s')%Z then Fail Value else
  let f1 := if started then (frames - s')%Z else frames in
  let remove := match e with Some e' => Some (frames - Z.min e' frames)%Z | None => None end in
  let f2 := match remove with Some r => (f1 - r)%Z | None => f1 end in
  let rd := zblock (4 * f2 * cells) (fun b => Ret (words32 (Z.to_nat (f2 * cells)) b)) in
  let rd_sk := match remove with
               | Some r => dop t <- rd; Skip (Z.to_N (4 * r * cells)) (Ret (f2, t))
               | None => dop t <- rd; Ret (f2, t)
               end in
  if started then Skip (Z.to_N (4 * s' * cells)) rd_sk else rd_sk.

(* NumPyPoseBody.__init__ on a plain ndarray: mask = confidence == 0, stacked data.shape[-1] times
   (np.stack of an empty list raises) *)
Definition mk_body (fps : N) (F P T : N) (D : Z) (data conf : list N) : result body :=
  if (D <=? 0)%Z then Err Value else
  Ok {| b_fps := fps; b_shape := [F; P; T; Z.to_N D]; b_data := data; b_conf := conf;
        b_mask := map is_zero32 conf |}.

Inductive bound := NoBound | FrameB (k : Z) | TimeB (ms : Z).
(* start_time / 1000 * fps in binary64, then math.floor / math.ceil *)
Definition time_to_frame (ceil : bool) (ms : Z) (fps32 : N) : result Z :=
  let x := sf64_mul (sf64_div (sf64_of_Z ms) (sf64_of_Z 1000)) (sf_of_b64 (f32_to_f64 fps32)) in
  match (if ceil then sf_ceil x else sf_floor x) with Some z => Ok z | None => Err Value end.
Definition read_v0_2 (h : header) (sf st ef et : option Z) : prog body :=
  match sf, st with Some _, Some _ => Fail Value | _, _ =>
  match ef, et with Some _, Some _ => Fail Value | _, _ =>
  dop fps <- rd_u32;
  dop F <- rd_u32;
  dop P <- rd_u16;
  let T := total_points h in
  dop D <- plift (num_dims h);
  dop s <- plift (match st with Some ms => rmap Some (time_to_frame false ms fps) | None => Ok sf end);
  dop e <- plift (match et with Some ms => rmap Some (time_to_frame true ms fps) | None => Ok ef end);
  dop dat <- read_frames (Z.of_N F) (Z.of_N (P * T) * D) s e;
  dop cnf <- read_frames (Z.of_N F) (Z.of_N (P * T)) s e;
  plift (mk_body fps (Z.to_N (fst dat)) P T D (snd dat) (snd cnf))
  end end.

(* ---------- version dispatch (pose_body.py:62-69) ----------
   header.version == 0 ; round(version, 3) == 0.1 ; round(version, 3) == 0.2.  Python's round is
   correctly rounded, and no float32 is a decimal tie, so round(x,3) == 0.d  <=>  0.d - 0.0005 < x < 0.d + 0.0005,
   decided here in exact integer arithmetic on the float32 word. *)
Inductive vclass := V00 | V01 | V02 | VUnknown.
Definition rat_lt_mant (num den : Z) (m : positive) (e : Z) : bool :=   (* num/den < m * 2^e *)
  match e with
  | Z0 => (num <? Z.pos m * den)%Z
  | Zpos p => (num <? Z.pos m * Z.pow_pos 2 p * den)%Z
  | Zneg p => (num * Z.pow_pos 2 p <? Z.pos m * den)%Z
  end.
Definition mant_lt_rat (num den : Z) (m : positive) (e : Z) : bool :=   (* m * 2^e < num/den *)
  match e with
  | Z0 => (Z.pos m * den <? num)%Z
  | Zpos p => (Z.pos m * Z.pow_pos 2 p * den <? num)%Z
  | Zneg p => (Z.pos m * den <? num * Z.pow_pos 2 p)%Z
  end.
Definition version_class (w : N) : vclass :=
  match sf_of_b32 w with
  | S754_zero _ => V00
  | S754_finite false m e =>
      if rat_lt_mant 995 10000 m e && mant_lt_rat 1005 10000 m e then V01
      else if rat_lt_mant 1995 10000 m e && mant_lt_rat 2005 10000 m e then V02
      else VUnknown
  | _ => VUnknown
  end.

Record rargs := { a_sf : option Z; a_st : option Z; a_ef : option Z; a_et : option Z }.
Definition no_args : rargs := {| a_sf := None; a_st := None; a_ef := None; a_et := None |}.
