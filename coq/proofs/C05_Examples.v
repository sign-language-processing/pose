(* C05: concrete inputs - poses and legacy files that satisfy the hypotheses of the theorems, and the inputs outside them on
   which the JavaScript reader really differs from the Python reader.  What parsePose makes of each of them is read off the
   parse theorems in props/C05.v; here only the encoders are evaluated. *)
From Coq Require Import ZArith NArith List Lia Bool Arith.
Require Import ListN Result Bytes Utf8 Utf8S F32 Prog Tensor Codec ProgLemmas CodecRT C01_Examples
  C05_JsParser C05_Spec C05_View C05_Lemmas C05_Header C05_HeaderView C05_Body C05_Index C05_Cells C05_Main C05_V01 C05_V00.
Import ListNotations.
Open Scope N_scope.

(* C01's example pose: two components "e-acute euro" / "", formats XYC / XC, 1 frame, 2 people *)
Lemma ex_pose_plain : Forall wcomp_plain (w_comps ex_pose).
Proof. repeat constructor; cbn; lia. Qed.

(* v0.1: one component "ab" XYC with 2 points, 2 frames, 1 person *)
Definition ex_v01 : lpose :=
  {| l_dims := (3, 4, 0)%Z;
     l_comps := [ {| wc_name := [97; 98]; wc_format := [88; 89; 67]; wc_points := [[112]; [113]]; wc_limbs := [(0, 1)%Z]; wc_colors := [(1, 2, 3)%Z] |} ];
     l_fps := 25; l_F := 2; l_P := 1; l_T := 2; l_D := 2;
     l_data := [1065353216; 1073741824; 1077936128; 1082130432; 1084227584; 1086324736; 1088421888; 1090519040];
     l_conf := [1065353216; 0; 1056964608; 1048576000] |}.
Lemma ex_v01_hyps : (exists bs, spec_v01 ex_v01 = Ok bs) /\ wf_lpose ex_v01 /\ Forall wcomp_plain (l_comps ex_v01).
Proof.
  split; [eexists; vm_compute; reflexivity|]. split.
  - unfold wf_lpose, word32. cbn [ex_v01 l_fps l_F l_P l_T l_D l_data l_conf l_comps].
    repeat split; try reflexivity; try lia; repeat constructor.
  - repeat constructor; cbn; lia.
Qed.

(* v0.0: the same component; frame 0 has two people, frame 1 nobody *)
Definition ex_v00 : lpose0 :=
  {| z_dims := (3, 4, 0)%Z;
     z_comps := [ {| wc_name := [97; 98]; wc_format := [88; 89; 67]; wc_points := [[112]; [113]]; wc_limbs := []; wc_colors := [] |} ];
     z_fps := 24;
     z_frames := [ [ (7%Z, [[[1065353216; 1073741824; 1056964608]; [1077936128; 1082130432; 0]]]);
                     ((-1)%Z, [[[1084227584; 1086324736; 1048576000]; [1088421888; 1090519040; 1065353216]]]) ];
                   [] ] |}.
Lemma ex_v00_hyps : (exists bs, spec_v00 ex_v00 = Ok bs) /\ wf_lpose0 ex_v00 /\ Forall wcomp_plain (z_comps ex_v00).
Proof.
  split; [eexists; vm_compute; reflexivity|]. split.
  - unfold wf_lpose0, wf_person, word32. cbn [ex_v00 z_fps z_frames z_comps].
    split; [reflexivity|]. split; [reflexivity|].
    repeat (constructor || split || cbn [fst snd length wc_points wc_format] || lia).
  - repeat constructor; cbn; lia.
Qed.

(* a format whose confidence letter is not the last one ("CXY"), written by Pose.write *)
Definition ex_cxy : wpose :=
  {| w_dims := (1, 1, 1)%Z;
     w_comps := [ {| wc_name := [99]; wc_format := [67; 88; 89]; wc_points := [[97]; [98]]; wc_limbs := []; wc_colors := [] |} ];
     w_fps := 4607182418800017408;
     w_shape := [1; 1; 2; 2];
     w_data := [4607182418800017408; 4611686018427387904; 4613937818241073152; 4616189618054758400];   (* 1 2 / 3 4 *)
     w_cshape := [1; 1; 2];
     w_conf := [4602678819172646912; 4598175219545276416] |}.                                           (* 0.5 0.25 *)
Lemma ex_cxy_hyps : (exists bs, write_pose ex_cxy = Ok bs) /\ wf_arrays ex_cxy /\ 1 <= nth 3 (w_shape ex_cxy) 0 /\
  Forall wcomp_plain (w_comps ex_cxy).
Proof. split; [eexists; vm_compute; reflexivity|]. split; [split; reflexivity|]. split; [cbn; lia|]. repeat constructor; cbn; lia. Qed.

(* a name that starts with U+FEFF: TextDecoder drops it, bytes.decode('utf-8') keeps it *)
Definition ex_bom : wpose :=
  {| w_dims := (1, 1, 1)%Z;
     w_comps := [ {| wc_name := [65279; 97]; wc_format := [88; 67]; wc_points := [[112]]; wc_limbs := []; wc_colors := [] |} ];
     w_fps := 4607182418800017408; w_shape := [1; 1; 1; 1]; w_data := [4607182418800017408]; w_cshape := [1; 1; 1];
     w_conf := [4607182418800017408] |}.
(* the name is not plain, the format is: the body parsers do not depend on names *)
Lemma ex_bom_hyps : (exists bs, write_pose ex_bom = Ok bs) /\ wf_arrays ex_bom /\ 1 <= nth 3 (w_shape ex_bom) 0 /\
  Forall plain_format (w_comps ex_bom).
Proof. split; [eexists; vm_compute; reflexivity|]. split; [split; reflexivity|]. split; [cbn; lia|]. repeat constructor; cbn; lia. Qed.

(* two components with one name: the object keyed by name keeps only the last one *)
Definition ex_dup : wpose :=
  {| w_dims := (1, 1, 1)%Z;
     w_comps := [ {| wc_name := [97]; wc_format := [88; 67]; wc_points := [[112]]; wc_limbs := []; wc_colors := [] |};
                  {| wc_name := [97]; wc_format := [88; 67]; wc_points := [[113]]; wc_limbs := []; wc_colors := [] |} ];
     w_fps := 4607182418800017408; w_shape := [1; 1; 2; 1]; w_data := [4607182418800017408; 4611686018427387904];
     w_cshape := [1; 1; 2]; w_conf := [4607182418800017408; 4607182418800017408] |}.
Lemma ex_dup_hyps : (exists bs, write_pose ex_dup = Ok bs) /\ wf_arrays ex_dup /\ Forall plain_format (w_comps ex_dup).
Proof. split; [eexists; vm_compute; reflexivity|]. split; [split; reflexivity|]. repeat constructor; cbn; lia. Qed.
