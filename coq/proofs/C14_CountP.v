(* C14 - the new frame count: Python's round() is "nearest integer, ties to even" of the binary64 quotient.
   Discrete: integers and the kernel's primitive floats only (no real numbers). *)
From Coq Require Import ZArith Lia PrimFloat SpecFloat FloatOps List Bool.
Require Import Result Num C14_Count.
Local Open Scope Z_scope.
Ltac Zify.zify_post_hook ::= Z.div_mod_to_equations.
Set Warnings "-inexact-float".

(* n is the integer nearest to m * 2^e, the even one of the two when m * 2^e lies half way *)
Definition nearest_even (m : positive) (e : Z) (n : Z) : Prop :=
  match e with
  | Zneg k => let d := 2 ^ Zpos k in
              2 * Z.abs (n * d - Zpos m) <= d /\ (2 * Z.abs (n * d - Zpos m) = d -> Z.even n = true)
  | _ => n = Zpos m * 2 ^ e
  end.
Lemma rhe_pos_nearest_even m e : nearest_even m e (rhe_pos m e).
Proof. unfold nearest_even, rhe_pos. destruct e as [|p|k].
  - rewrite Z.pow_0_r. lia.
  - reflexivity.
  - cbv zeta. set (d := 2 ^ Zpos k).
    assert (Hd : 0 < d) by (unfold d; apply Z.pow_pos_nonneg; lia).
    pose proof (Z.div_mod (Zpos m) d ltac:(lia)) as Hdm.
    pose proof (Z.mod_pos_bound (Zpos m) d Hd) as Hr.
    set (q := Zpos m / d) in *. set (r := Zpos m mod d) in *.
    destruct (Z.ltb_spec (2 * r) d) as [H1|H1].
    + split; [|intros Ht]; lia.
    + destruct (Z.ltb_spec d (2 * r)) as [H2|H2].
      * split; [|intros Ht]; lia.
      * assert (E : 2 * r = d) by lia.
        destruct (Z.even q) eqn:Ev.
        -- split; [lia|intros _; exact Ev].
        -- split; [lia|intros _]. rewrite Z.even_add, Ev. reflexivity. Qed.

Lemma new_frame_count_ok F new old n : new_frame_count F new old = Ok n ->
  PrimFloat.eqb old 0 = false /\
  exists z, py_round (count_quotient F new old) = Ok z /\ 0 <= z /\ n = Z.to_nat z.
Proof. unfold new_frame_count. destruct (PrimFloat.eqb old 0); [discriminate|]. intros H. split; [reflexivity|].
  destruct (py_round (count_quotient F new old)) as [z|e]; cbn [rbind] in H; [|discriminate].
  destruct (Z.ltb_spec z 0); [discriminate|]. injection H as <-. exists z. repeat split; try reflexivity. lia. Qed.
Lemma py_round_finite f z : py_round f = Ok z ->
  match Prim2SF f with
  | S754_zero _ => z = 0
  | S754_finite s m e => exists n, nearest_even m e n /\ z = (if s then - n else n)
  | _ => False
  end.
Proof. unfold py_round, sf_round. destruct (Prim2SF f) as [s|s| |s m e]; intros H; try discriminate.
  - injection H as <-. reflexivity.
  - injection H as <-. exists (rhe_pos m e). split; [apply rhe_pos_nearest_even|reflexivity]. Qed.

(* the quotient as a function of the frame count in Z: the sweeps below never build a unary number *)
Definition quotientZ (F : Z) (new_fps old_fps : float) : float := PrimFloat.div (PrimFloat.mul (f_of_Z F) new_fps) old_fps.
(* a quotient is known to round to F from its mantissa alone: strictly less than half a unit from F *)
Definition rounds_to (F : Z) (q : float) : bool :=
  match Prim2SF q with
  | S754_finite false m (Zneg k) => let d := 2 ^ Zpos k in 2 * Z.abs (F * d - Zpos m) <? d
  | _ => false
  end.
Lemma rounds_to_count F new old : PrimFloat.eqb old 0 = false ->
  rounds_to (Z.of_nat F) (quotientZ (Z.of_nat F) new old) = true -> new_frame_count F new old = Ok F.
Proof.
  unfold rounds_to, new_frame_count, py_round. change (quotientZ (Z.of_nat F) new old) with (count_quotient F new old).
  intros -> H. destruct (Prim2SF _) as [| | |[|] m [| |k]]; try discriminate. cbv zeta in H. apply Z.ltb_lt in H.
  cbn [sf_round rbind]. pose proof (rhe_pos_nearest_even m (Zneg k)) as [Hn _]. cbv zeta in Hn.
  assert (E : rhe_pos m (Zneg k) = Z.of_nat F) by nia. rewrite E.
  destruct (Z.ltb_spec (Z.of_nat F) 0); [lia|]. now rewrite Nat2Z.id.
Qed.

(* unchanged rate: round(F * r / r) = F for every F in 2..1024 and the usual video rates, by evaluation: it rests on no axiom.
   C14_CountAll.same_rate_count_all proves it for every F below 2^50 and every rate in a wide range, by a rounding-error
   analysis that rests on the axioms tying the kernel's floats to Flocq's. *)
Definition usual_rates : list float :=
  (1 :: 5 :: 7.5 :: 10 :: 12 :: 12.5 :: 15 :: 20 :: 23.976 :: 24 :: 25 :: 29.97 :: 30 :: 48 :: 50 :: 59.94 :: 60 :: 90 :: 100 :: 120
   :: 240 :: 0.1 :: 0.3 :: 1000 :: nil)%float.
Lemma usual_rates_nonzero : forallb (fun r => negb (PrimFloat.eqb r 0)) usual_rates = true.
Proof. reflexivity. Qed.

(* z, z+1, ..., z+n-1 *)
Fixpoint upfrom (n : nat) (z : Z) : list Z :=
  match n with O => nil | S n' => z :: upfrom n' (z + 1) end.
Lemma In_upfrom n : forall z0 z, z0 <= z < z0 + Z.of_nat n -> In z (upfrom n z0).
Proof.
  induction n as [|n IH]; intros z0 z Hz; [lia|].
  destruct (Z.eq_dec z z0) as [->|]; [left; reflexivity|right; apply IH; lia].
Qed.
Definition counts : list Z := upfrom 1023 2.

(* Coq's independent checker re-runs the evaluation on a slow machine, where decoding a float (Prim2SF) is what costs.
   So the 24 quotients of one F are first identified, by an equation between floats that needs float operations only:
   each is F, F * below1 or F / below1 (the floats next to F, below1 being the float next below 1; that they are is not
   relied on).  Then these three floats are decoded for each F, not 24. *)
Definition below1 : float := 0x1.fffffffffffffp-1%float.
Definition near (F : Z) (q : float) : float :=
  let x := f_of_Z F in
  if PrimFloat.ltb q x then PrimFloat.mul x below1 else if PrimFloat.ltb x q then PrimFloat.div x below1 else x.
Lemma quotient_near_sweep :
  map (fun F => map (fun r => quotientZ F r r) usual_rates) counts =
  map (fun F => map (fun r => near F (quotientZ F r r)) usual_rates) counts.
Proof. vm_compute. reflexivity. Qed.
Lemma near_rounds_sweep :
  forallb (fun F => let x := f_of_Z F in
             rounds_to F (PrimFloat.mul x below1) && rounds_to F x && rounds_to F (PrimFloat.div x below1)) counts = true.
Proof. vm_compute. reflexivity. Qed.
Lemma same_rate_count F r : (2 <= F <= 1024)%nat -> In r usual_rates -> new_frame_count F r r = Ok F.
Proof.
  intros HF Hr. assert (Hin : In (Z.of_nat F) counts) by (apply In_upfrom; lia).
  apply rounds_to_count.
  - apply negb_true_iff. exact (proj1 (forallb_forall _ _) usual_rates_nonzero r Hr).
  - rewrite (ext_in_map (ext_in_map quotient_near_sweep _ Hin) r Hr).
    pose proof (proj1 (forallb_forall _ _) near_rounds_sweep _ Hin) as H. cbv zeta in H.
    apply andb_true_iff in H. destruct H as [H Hup]. apply andb_true_iff in H. destruct H as [Hdown Hx].
    unfold near. destruct (PrimFloat.ltb _ (f_of_Z _)); [exact Hdown|]. destruct (PrimFloat.ltb _ _); assumption.
Qed.
