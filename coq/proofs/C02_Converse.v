(* C02, reader direction: every file the independent encoder produces for a coherent content is read to that content
   (with the mask the reader derives), and writing the pose just read reproduces the file.
   The header bytes the encoder emits are those of the legacy specifications ([spec_encode_inv]): [spec_header],
   [spec_component], [spec_str] ... are model/C04_Spec.v's, [u16], [wf_header] and the read-back [spec_header_rt]
   proofs/C04_SpecRT.v's. *)
From Coq Require Import ZArith NArith List Lia ZifyBool ZifyN ZifyNat Bool.
Require Import ListN Result Bytes Utf8 Utf8S F32 Prog Codec ProgLemmas CodecRT PoseRead PoseReadLemmas
  C02_SpecV02 C02_SpecProofs C02_Content C02_F32RT C04_Spec C04_SpecRT.
Import ListNotations.
Ltac Zify.zify_post_hook ::= Z.div_mod_to_equations.
Open Scope N_scope.

(* what the encoder's success says: inversion of enc_fields *)
Lemma le2_inv n e : le_bytes 2 n = Some e -> n < 65536 /\ e = enc_u16 n.
Proof.
  destruct (N.lt_ge_cases n 65536) as [Hlt|Hge].
  - rewrite (le2 n Hlt). intros [= <-]. now split.
  - cbn [le_bytes]. destruct (N.eqb_spec (n / 256 / 256) 0) as [Hz|_]; [exfalso; lia|discriminate].
Qed.
Lemma le4_inv n e : le_bytes 4 n = Some e -> n < 4294967296 /\ e = enc_u32 n.
Proof.
  destruct (N.lt_ge_cases n 4294967296) as [Hlt|Hge].
  - rewrite (le4 n Hlt). intros [= <-]. now split.
  - cbn [le_bytes]. destruct (N.eqb_spec (n / 256 / 256 / 256 / 256) 0) as [Hz|_]; [exfalso; lia|discriminate].
Qed.
Lemma enc_fields_cons_inv f r e : enc_fields (f :: r) = Some e ->
  exists a b, enc_field f = Some a /\ enc_fields r = Some b /\ e = a ++ b.
Proof. cbn [enc_fields]. destruct (enc_field f) as [a|]; [|discriminate]. destruct (enc_fields r) as [b|]; [|discriminate].
  intros [= <-]. eauto. Qed.
Lemma enc_u16_inv n r e : enc_fields (FUShort n :: r) = Some e ->
  u16 n /\ exists b, enc_fields r = Some b /\ e = enc_u16 n ++ b.
Proof. intros H. apply enc_fields_cons_inv in H. destruct H as [a [b [Ha [Hb ->]]]]. cbn [enc_field] in Ha.
  apply le2_inv in Ha. destruct Ha as [Hn ->]. split; [exact Hn|eauto]. Qed.
Lemma enc_u32_inv n r e : enc_fields (FUInt n :: r) = Some e ->
  n < 4294967296 /\ exists b, enc_fields r = Some b /\ e = enc_u32 n ++ b.
Proof. intros H. apply enc_fields_cons_inv in H. destruct H as [a [b [Ha [Hb ->]]]]. cbn [enc_field] in Ha.
  apply le4_inv in Ha. destruct Ha as [Hn ->]. split; [exact Hn|eauto]. Qed.
Lemma enc_f32_inv n r e : enc_fields (FFloat n :: r) = Some e ->
  n < 4294967296 /\ exists b, enc_fields r = Some b /\ e = enc_u32 n ++ b.
Proof. intros H. apply enc_fields_cons_inv in H. destruct H as [a [b [Ha [Hb ->]]]]. cbn [enc_field] in Ha.
  apply le4_inv in Ha. destruct Ha as [Hn ->]. split; [exact Hn|eauto]. Qed.
Lemma enc_str_inv s r e : enc_fields (FString s :: r) = Some e ->
  wf_str s /\ exists b, enc_fields r = Some b /\ e = spec_str s ++ b.
Proof. intros H. apply enc_fields_cons_inv in H. destruct H as [a [b [Ha [Hb ->]]]]. cbn [enc_field] in Ha.
  unfold wf_str, spec_str. destruct (enc_utf8 s) as [u|]; [|discriminate].
  destruct (le_bytes 2 (lenN u)) as [l|] eqn:Hl; [|discriminate]. injection Ha as <-.
  apply le2_inv in Hl. destruct Hl as [Hn ->]. split; [exists u; now split|eauto]. Qed.

(* one item at a time: what the encoder's success says of each item of a mapped list, it says of the list *)
Lemma enc_fields_map_inv {X} (g : X -> field) (ok : X -> Prop) (enc : X -> bytes) :
  (forall x r e, enc_fields (g x :: r) = Some e -> ok x /\ exists b, enc_fields r = Some b /\ e = enc x ++ b) ->
  forall xs e, enc_fields (map g xs) = Some e -> Forall ok xs /\ e = flat_map enc xs.
Proof.
  intros Hg xs. induction xs as [|x xs IH]; intros e H; cbn [map] in H.
  - injection H as <-. split; [constructor|reflexivity].
  - apply Hg in H. destruct H as [Hx [b [Hb ->]]]. destruct (IH _ Hb) as [HF ->]. split; [now constructor|reflexivity].
Qed.
Lemma enc_fields_flat_map_inv {X} (f : X -> list field) (ok : X -> Prop) (enc : X -> bytes) :
  (forall x e, enc_fields (f x) = Some e -> ok x /\ e = enc x) ->
  forall xs e, enc_fields (flat_map f xs) = Some e -> Forall ok xs /\ e = concat (map enc xs).
Proof.
  intros Hf xs. induction xs as [|x xs IH]; intros e H; cbn [flat_map] in H.
  - injection H as <-. split; [constructor|reflexivity].
  - apply enc_fields_app_inv in H. destruct H as [a [b [Ha [Hb ->]]]]. apply Hf in Ha. destruct Ha as [Hx ->].
    destruct (IH _ Hb) as [HF ->]. split; [now constructor|reflexivity].
Qed.

Lemma enc_limb_inv (l : N * N) e : enc_fields [FUShort (fst l); FUShort (snd l)] = Some e ->
  (u16 (fst l) /\ u16 (snd l)) /\ e = spec_limb l.
Proof. intros H. apply enc_u16_inv in H. destruct H as [H1 [b1 [H ->]]]. apply enc_u16_inv in H. destruct H as [H2 [b2 [H ->]]].
  injection H as <-. unfold spec_limb. now rewrite app_nil_r. Qed.
Lemma enc_color_inv (k : N * N * N) e : enc_fields [FUShort (fst (fst k)); FUShort (snd (fst k)); FUShort (snd k)] = Some e ->
  (u16 (fst (fst k)) /\ u16 (snd (fst k)) /\ u16 (snd k)) /\ e = spec_color k.
Proof. intros H. apply enc_u16_inv in H. destruct H as [H1 [b1 [H ->]]]. apply enc_u16_inv in H. destruct H as [H2 [b2 [H ->]]].
  apply enc_u16_inv in H. destruct H as [H3 [b3 [H ->]]]. injection H as <-. unfold spec_color. now rewrite app_nil_r. Qed.

Lemma enc_component_inv c e : enc_fields (component_fields c) = Some e -> wf_component c /\ e = spec_component c.
Proof.
  unfold component_fields. cbn [app]. intros H.
  apply enc_str_inv in H. destruct H as [Hn [b1 [H ->]]]. apply enc_str_inv in H. destruct H as [Hf [b2 [H ->]]].
  apply enc_u16_inv in H. destruct H as [Hnp [b3 [H ->]]]. apply enc_u16_inv in H. destruct H as [Hnl [b4 [H ->]]].
  apply enc_u16_inv in H. destruct H as [Hnc [b5 [H ->]]].
  apply enc_fields_app_inv in H. destruct H as [e1 [r1 [H1 [H ->]]]].
  apply enc_fields_app_inv in H. destruct H as [e2 [e3 [H2 [H3 ->]]]].
  apply (enc_fields_map_inv _ _ _ enc_str_inv) in H1. destruct H1 as [Hp ->].
  apply (enc_fields_flat_map_inv _ _ _ enc_limb_inv) in H2. destruct H2 as [Hl ->].
  apply (enc_fields_flat_map_inv _ _ _ enc_color_inv) in H3. destruct H3 as [Hc ->].
  split; [repeat split; assumption|now rewrite flat_map_concat_map].
Qed.
Lemma enc_header_inv h e : enc_fields (header_fields h) = Some e -> wf_header h /\ e = spec_header h.
Proof.
  unfold header_fields, wf_header, spec_header. destruct (h_dims h) as [[w hh] d]. cbn [app fst snd]. intros H.
  apply enc_f32_inv in H. destruct H as [Hv [b1 [H ->]]]. apply enc_u16_inv in H. destruct H as [Hw [b2 [H ->]]].
  apply enc_u16_inv in H. destruct H as [Hh [b3 [H ->]]]. apply enc_u16_inv in H. destruct H as [Hd [b4 [H ->]]].
  apply enc_u16_inv in H. destruct H as [Hn [b5 [H ->]]]. apply (enc_fields_flat_map_inv _ _ _ enc_component_inv) in H. destruct H as [Hc ->].
  split; [repeat split; assumption|reflexivity].
Qed.

Definition spec_body_bytes (b : body) : bytes :=
  enc_u32 (b_fps b) ++ enc_u32 (nth 0 (b_shape b) 0) ++ enc_u16 (nth 1 (b_shape b) 0) ++
  flat_map enc_u32 (b_data b) ++ flat_map enc_u32 (b_conf b).
Definition all_words (l : list N) : Prop := Forall (fun n => n < 4294967296) l.
Lemma enc_body_inv b e : enc_fields (body_fields b) = Some e ->
  b_fps b < 4294967296 /\ nth 0 (b_shape b) 0 < 4294967296 /\ u16 (nth 1 (b_shape b) 0) /\
  all_words (b_data b) /\ all_words (b_conf b) /\ e = spec_body_bytes b.
Proof.
  unfold body_fields, spec_body_bytes. cbn [app]. intros H.
  apply enc_f32_inv in H. destruct H as [Hfps [b1 [H ->]]]. apply enc_u32_inv in H. destruct H as [HF [b2 [H ->]]].
  apply enc_u16_inv in H. destruct H as [HP [b3 [H ->]]].
  apply enc_fields_app_inv in H. destruct H as [e1 [e2 [H1 [H2 ->]]]].
  apply (enc_fields_map_inv _ _ _ enc_f32_inv) in H1. destruct H1 as [Hd ->].
  apply (enc_fields_map_inv _ _ _ enc_f32_inv) in H2. destruct H2 as [Hc ->].
  repeat split; assumption.
Qed.
Theorem spec_encode_inv c sb : spec_encode c = Some sb ->
  wf_header (p_header c) /\ b_fps (p_body c) < 4294967296 /\ nth 0 (b_shape (p_body c)) 0 < 4294967296 /\
  u16 (nth 1 (b_shape (p_body c)) 0) /\ all_words (b_data (p_body c)) /\ all_words (b_conf (p_body c)) /\
  sb = spec_header (p_header c) ++ spec_body_bytes (p_body c).
Proof.
  unfold spec_encode. intros H. apply enc_fields_app_inv in H. destruct H as [a [b [Ha [Hb ->]]]].
  apply enc_header_inv in Ha. destruct Ha as [Hh ->]. apply enc_body_inv in Hb.
  destruct Hb as [H1 [H2 [H3 [H4 [H5 ->]]]]]. split; [exact Hh|]. repeat split; assumption.
Qed.

Lemma coherent_inv c : coherent c = true ->
  version_class (h_version (p_header c)) = V02 /\
  exists F P D, b_shape (p_body c) = [F; P; total_points (p_header c); D] /\
    num_dims (p_header c) = Ok (Z.of_N D) /\ 1 <= D /\
    lenN (b_data (p_body c)) = F * (P * (total_points (p_header c) * D)) /\
    lenN (b_conf (p_body c)) = F * (P * total_points (p_header c)).
Proof.
  unfold coherent. cbv zeta. destruct (version_class (h_version (p_header c))); try discriminate.
  destruct (num_dims (p_header c)) as [d|]; try discriminate.
  destruct (b_shape (p_body c)) as [|F [|P [|T [|D [|? ?]]]]]; try discriminate.
  intros H. repeat (apply andb_true_iff in H; destruct H as [H ?]).
  split; [reflexivity|]. exists F, P, D.
  assert (HT : T = total_points (p_header c)) by lia. subst T.
  split; [reflexivity|]. split; [f_equal; lia|]. split; [lia|]. split; lia.
Qed.

Section WithLegacy.
Variable legacy : vclass -> header -> rargs -> prog body.

(* the converse of the writer direction: whatever file the independent encoder produces for a coherent content, and
   whatever follows it, and whatever the memo holds, Pose.read returns the content with the derived mask *)
Theorem reader_reads_spec_trailing m c sb x : MemoOK m -> coherent c = true -> spec_encode c = Some sb ->
  fst (read_bytes legacy m (sb ++ x) no_args) = Ok (with_derived_mask c).
Proof.
  intros Hm Hco Hsp.
  destruct (spec_encode_inv c sb Hsp) as [Hwf [Hfps [HF [HP [Hdw [Hcw ->]]]]]].
  destruct (coherent_inv c Hco) as [Hver [F [P [D [Hs [Hnd [HD [Hld Hlc]]]]]]]].
  unfold spec_body_bytes, with_derived_mask. rewrite Hs in *. cbn [nth] in *.
  set (h := p_header c) in *. set (b := p_body c) in *. rewrite <- app_assoc.
  rewrite (read_bytes_at_header legacy m _ _ _ _ Hm (RTp_start _ _ _ _ (spec_header_rt h Hwf))). cbn [fst].
  replace (read_body legacy h no_args) with (read_v0_2 h None None None None)
    by (unfold read_body, read_body_with; now rewrite Hver).
  pose proof (read_v0_2_rt h _ F P D _ _ Hnd HD Hfps HF HP Hdw Hcw Hld Hlc (spec_header h) x) as Hbody.
  now rewrite Hbody.
Qed.
Theorem reader_reads_spec m c sb : MemoOK m -> coherent c = true -> spec_encode c = Some sb ->
  fst (read_bytes legacy m sb no_args) = Ok (with_derived_mask c).
Proof. intros. rewrite <- (app_nil_r sb). now apply reader_reads_spec_trailing. Qed.
End WithLegacy.

Lemma map_widen_narrow l : all_words l -> map f64_to_f32 (map f32_to_f64 l) = map canon_nan32 l.
Proof. intros H. rewrite map_map. induction H as [|w l Hw _ IH]; [reflexivity|]. cbn [map]. now rewrite (f32_widen_narrow w Hw), IH. Qed.

(* the independent encoder looks at the header, the frame rate, the two counts and the two blocks only *)
Lemma spec_encode_ext c1 c2 : p_header c1 = p_header c2 -> b_fps (p_body c1) = b_fps (p_body c2) ->
  b_shape (p_body c1) = b_shape (p_body c2) -> b_data (p_body c1) = b_data (p_body c2) ->
  b_conf (p_body c1) = b_conf (p_body c2) -> spec_encode c1 = spec_encode c2.
Proof. intros H1 H2 H3 H4 H5. unfold spec_encode, body_fields. now rewrite H1, H2, H3, H4, H5. Qed.

(* the content of the pose handed to the writer is the content that was read, version 0.2, NaNs canonical *)
Lemma canon_of_read c : b_fps (p_body c) < 4294967296 -> all_words (b_data (p_body c)) -> all_words (b_conf (p_body c)) ->
  spec_encode (canon (wpose_of_read (with_derived_mask c))) = spec_encode (rewritten c).
Proof.
  intros Hfps Hd Hc. apply spec_encode_ext.
  - unfold canon, canon_header, wpose_of_read, with_derived_mask, rewritten. cbn [p_header p_body w_dims w_comps].
    rewrite !N2Z.id, map_map. f_equal; [now destruct (h_dims (p_header c)) as [[? ?] ?]|].
    rewrite <- (map_id (h_comps (p_header c))) at 2. apply map_ext. apply canon_wcomp_of_read.
  - unfold canon, canon_body, wpose_of_read, with_derived_mask, rewritten. cbn [p_body b_fps w_fps].
    now rewrite (f32_widen_pack _ Hfps).
  - reflexivity.
  - unfold canon, canon_body, wpose_of_read, with_derived_mask, rewritten. cbn [p_body b_data w_data]. now apply map_widen_narrow.
  - unfold canon, canon_body, wpose_of_read, with_derived_mask, rewritten. cbn [p_body b_conf w_conf]. now apply map_widen_narrow.
Qed.

Theorem rewrite_of_read c sb : coherent c = true -> spec_encode c = Some sb ->
  exists sb', write_pose (wpose_of_read (with_derived_mask c)) = Ok sb' /\ spec_encode (rewritten c) = Some sb'.
Proof.
  intros Hco Hsp.
  destruct (spec_encode_inv c sb Hsp) as [Hwf [Hfps [HF [HP [Hdw [Hcw Hsb]]]]]].
  destruct (coherent_inv c Hco) as [Hver [F [P [D [Hs [Hnd [HD [Hld Hlc]]]]]]]].
  rewrite Hs in HF, HP. cbn [nth] in HF, HP.
  (* Pose.write accepts the pose that was read *)
  pose proof (write_pose_of_read (with_derived_mask c) F P D _ Hwf Hs Hnd HF HP (f32_widen_pack _ Hfps)) as Hw.
  eexists. split; [exact Hw|].
  rewrite <- (canon_of_read c Hfps Hdw Hcw). now apply writer_matches_spec.
Qed.

(* when the content carries the writer's version word and no non-canonical NaN, re-writing changes nothing *)
Lemma canon_nans_id l : forallb (fun w => canon_nan32 w =? w) l = true -> map canon_nan32 l = l.
Proof. induction l as [|w l IH]; [reflexivity|]. cbn [forallb map]. intros H. apply andb_true_iff in H. destruct H as [Hw Hl].
  apply N.eqb_eq in Hw. now rewrite Hw, IH. Qed.
Lemma rewritten_same c : h_version (p_header c) = version_word -> nans_canonical c = true ->
  spec_encode (rewritten c) = spec_encode c.
Proof.
  intros Hv Hn. unfold nans_canonical in Hn. cbn [forallb] in Hn. apply andb_true_iff in Hn. destruct Hn as [Hf Hn].
  rewrite forallb_app in Hn. apply andb_true_iff in Hn. destruct Hn as [Hd Hc]. apply N.eqb_eq in Hf.
  apply spec_encode_ext; unfold rewritten; cbn [p_header p_body b_fps b_shape b_data b_conf].
  - rewrite <- Hv. now destruct (p_header c).
  - exact Hf.
  - reflexivity.
  - now apply canon_nans_id.
  - now apply canon_nans_id.
Qed.

Section WithLegacy2.
Variable legacy : vclass -> header -> rargs -> prog body.
(* re-writing a pose just read: in general the file with version word 0.2 and canonical NaNs ... *)
Theorem rewrite_canonical m c sb q : MemoOK m -> coherent c = true -> spec_encode c = Some sb ->
  fst (read_bytes legacy m sb no_args) = Ok q ->
  exists sb', write_pose (wpose_of_read q) = Ok sb' /\ spec_encode (rewritten c) = Some sb'.
Proof. intros Hm Hco Hsp Hr. rewrite (reader_reads_spec legacy m c sb Hm Hco Hsp) in Hr. apply Ok_inj in Hr. subst q.
  now apply (rewrite_of_read c sb). Qed.
(* ... and therefore the file itself, byte for byte, when it carries version word 0.2 and only canonical NaNs *)
Theorem rewrite_identity m c sb q : MemoOK m -> coherent c = true ->
  h_version (p_header c) = version_word -> nans_canonical c = true -> spec_encode c = Some sb ->
  fst (read_bytes legacy m sb no_args) = Ok q -> write_pose (wpose_of_read q) = Ok sb.
Proof. intros Hm Hco Hv Hn Hsp Hr. destruct (rewrite_canonical m c sb q Hm Hco Hsp Hr) as [sb' [Hw Hs']].
  rewrite (rewritten_same c Hv Hn), Hsp in Hs'. injection Hs' as <-. exact Hw. Qed.
End WithLegacy2.
