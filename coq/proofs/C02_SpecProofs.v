(* C02: the implementation model's writer produces exactly what the independent spec encoder produces. *)
From Coq Require Import ZArith NArith List Lia ZifyBool ZifyN ZifyNat Bool.
Require Import ListN Result Bytes F32 Prog Codec ProgLemmas CodecRT C02_SpecV02.
Import ListNotations.
Ltac Zify.zify_post_hook ::= Z.div_mod_to_equations.
Open Scope N_scope.

Lemma le2 n : n < 65536 -> le_bytes 2 n = Some (enc_u16 n).
Proof. intros H. cbn [le_bytes]. destruct (N.eqb_spec (n / 256 / 256) 0) as [_|Hne]; [reflexivity|]. exfalso. apply Hne. lia. Qed.
Lemma le4 n : n < 4294967296 -> le_bytes 4 n = Some (enc_u32 n).
Proof. intros H. cbn [le_bytes]. destruct (N.eqb_spec (n / 256 / 256 / 256 / 256) 0) as [_|Hne].
  - unfold enc_u32. rewrite !N.div_div by lia. reflexivity.
  - exfalso. apply Hne. lia. Qed.
Lemma enc_fields_app_eq l1 l2 : enc_fields (l1 ++ l2) =
  match enc_fields l1, enc_fields l2 with Some a, Some b => Some (a ++ b) | _, _ => None end.
Proof. induction l1 as [|f l1 IH]; cbn [enc_fields app].
  - now destruct (enc_fields l2).
  - rewrite IH. destruct (enc_field f), (enc_fields l1), (enc_fields l2); try reflexivity. now rewrite app_assoc. Qed.
Lemma enc_fields_app l1 l2 a b : enc_fields l1 = Some a -> enc_fields l2 = Some b -> enc_fields (l1 ++ l2) = Some (a ++ b).
Proof. intros H1 H2. now rewrite enc_fields_app_eq, H1, H2. Qed.
Lemma enc_fields_app_inv l1 l2 e : enc_fields (l1 ++ l2) = Some e ->
  exists a b, enc_fields l1 = Some a /\ enc_fields l2 = Some b /\ e = a ++ b.
Proof. rewrite enc_fields_app_eq. destruct (enc_fields l1) as [a|]; [|discriminate]. destruct (enc_fields l2) as [b|]; [|discriminate].
  intros [= <-]. eauto. Qed.
Lemma enc_fields_one f e : enc_field f = Some e -> enc_fields [f] = Some e.
Proof. intros H. cbn. rewrite H. now rewrite app_nil_r. Qed.

Lemma spec_string s e : write_str s = Ok e -> enc_field (FString s) = Some e.
Proof. intros H. apply write_str_ok in H. destruct H as [b [Hb [Hl ->]]]. cbn [enc_field]. rewrite Hb, (le2 _ Hl). reflexivity. Qed.
Lemma spec_strings ss es : Forall2 (fun s e' => write_str s = Ok e') ss es -> enc_fields (map FString ss) = Some (concat es).
Proof. induction 1 as [|s e ss es Hs _ IH]; [reflexivity|]. cbn [map enc_fields concat]. now rewrite (spec_string _ _ Hs), IH. Qed.
Lemma spec_u16s (l : list Z) e : pack_u16s l = Ok e -> enc_fields (map (fun z => FUShort (Z.to_N z)) l) = Some e.
Proof. intros H. apply pack_u16s_ok in H. destruct H as [HF ->].
  induction HF as [|z l Hz _ IH]; [reflexivity|]. cbn [map enc_fields flat_map enc_field]. now rewrite (le2 _ Hz), IH. Qed.
Lemma spec_limbs (limbs : list (Z * Z)) es :
  Forall2 (fun l e' => pack_u16s [fst l; snd l] = Ok e') limbs es ->
  enc_fields (flat_map (fun l => [FUShort (fst l); FUShort (snd l)]) (map limbN limbs)) = Some (concat es).
Proof. induction 1 as [|l e limbs es Hl _ IH]; [reflexivity|]. cbn [map flat_map concat limbN fst snd].
  apply (enc_fields_app [_; _]); [|exact IH]. exact (spec_u16s [fst l; snd l] e Hl). Qed.
Lemma spec_colors (cols : list (Z * Z * Z)) es :
  Forall2 (fun k e' => pack_u16s [fst (fst k); snd (fst k); snd k] = Ok e') cols es ->
  enc_fields (flat_map (fun k => [FUShort (fst (fst k)); FUShort (snd (fst k)); FUShort (snd k)]) (map colorN cols)) = Some (concat es).
Proof. induction 1 as [|k e cols es Hk _ IH]; [reflexivity|]. cbn [map flat_map concat colorN fst snd].
  apply (enc_fields_app [_; _; _]); [|exact IH]. exact (spec_u16s [fst (fst k); snd (fst k); snd k] e Hk). Qed.

Lemma spec_component c e : write_component c = Ok e -> enc_fields (component_fields (canon_comp c)) = Some e.
Proof.
  intros H. destruct (write_component_inv c e H) as [e1 [e2 [e3 [es4 [es5 [es6 [H1 [H2 [H3 [HF4 [HF5 [HF6 ->]]]]]]]]]]]].
  unfold component_fields, canon_comp. cbn [c_name c_format c_points c_limbs c_colors].
  apply (enc_fields_app [_]); [apply enc_fields_one, spec_string, H1|].
  apply (enc_fields_app [_]); [apply enc_fields_one, spec_string, H2|].
  apply (enc_fields_app [_; _; _]).
  { pose proof (spec_u16s _ _ H3) as H0. cbn [map] in H0. rewrite !ZN_lenN in H0.
    unfold lenN in *. rewrite !map_length. exact H0. }
  apply enc_fields_app; [now apply spec_strings|].
  apply enc_fields_app; [now apply spec_limbs|now apply spec_colors].
Qed.
Lemma spec_components comps es : Forall2 (fun c e' => write_component c = Ok e') comps es ->
  enc_fields (flat_map component_fields (map canon_comp comps)) = Some (concat es).
Proof. induction 1 as [|c e comps es Hc _ IH]; [reflexivity|]. cbn [map flat_map concat].
  apply enc_fields_app; [now apply spec_component|exact IH]. Qed.

Lemma spec_header p h : write_header (w_dims p) (w_comps p) = Ok h -> enc_fields (header_fields (canon_header p)) = Some h.
Proof.
  intros H. destruct (write_header_inv _ _ _ H) as [e2 [e3 [es [H2 [H3 [HF ->]]]]]].
  unfold canon_header. destruct (w_dims p) as [[w hh] d]. cbn [fst snd] in H2.
  unfold header_fields. cbn [h_dims h_version h_comps].
  apply (enc_fields_app [_]); [apply enc_fields_one; cbn [enc_field]; apply le4, version_word_lt|].
  apply (enc_fields_app [_; _; _]); [exact (spec_u16s [w; hh; d] e2 H2)|].
  apply (enc_fields_app [_]).
  { pose proof (spec_u16s _ _ H3) as H0. cbn [map] in H0. rewrite ZN_lenN in H0. unfold lenN in *. rewrite map_length. exact H0. }
  now apply spec_components.
Qed.

Lemma spec_floats ws : Forall (fun n => n < 4294967296) ws -> enc_fields (map FFloat ws) = Some (flat_map enc_u32 ws).
Proof. induction 1 as [|w ws Hw _ IH]; [reflexivity|]. cbn [map enc_fields flat_map enc_field]. now rewrite (le4 _ Hw), IH. Qed.

Lemma spec_body p b F P T D : w_shape p = [F; P; T; D] -> write_body p = Ok b -> enc_fields (body_fields (canon_body p)) = Some b.
Proof.
  intros Hs H. destruct (write_body_inv p b F P T D Hs H) as [fw [Hfps [HF [HP ->]]]].
  unfold body_fields, canon_body. cbn [b_fps b_shape b_data b_conf]. rewrite Hfps, Hs. cbn [nth].
  apply (enc_fields_app [_]); [apply enc_fields_one; cbn [enc_field]; apply le4; now apply pack_f32_lt in Hfps|].
  apply (enc_fields_app [_]); [apply enc_fields_one; cbn [enc_field]; now apply le4|].
  apply (enc_fields_app [_]); [apply enc_fields_one; cbn [enc_field]; now apply le2|].
  apply enc_fields_app; apply spec_floats, words_lt.
Qed.

Theorem writer_matches_spec p bs : write_pose p = Ok bs -> spec_encode (canon p) = Some bs.
Proof.
  intros H. destruct (write_pose_ok _ _ H) as [F [P [T [D [h [b [Hs [Hcs [Hnd [Htp [Hh [Hb ->]]]]]]]]]]]].
  unfold spec_encode, canon. cbn [p_header p_body].
  apply enc_fields_app; [now apply spec_header|now apply (spec_body p b F P T D)].
Qed.
