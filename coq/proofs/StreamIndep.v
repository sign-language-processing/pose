(* What a windowed stream read returns does not depend on how much of the stream happens to be buffered ahead of the read
   position - hence not on the header memo, which only sets the length of the first prefetch and may save the header parse.
   Stated up to the kind of exception (EOFError versus struct.error when the bytes run out depends on whether the retained
   buffer is empty): the same pose, or both raise. *)
From Coq Require Import ZArith NArith List Lia ZifyBool ZifyN ZifyNat Bool.
Require Import ListN Result Bytes Prog Codec ProgLemmas PoseRead PoseReadLemmas StreamLemmas StreamRead StreamBack.
Import ListNotations.
Open Scope N_scope.

Definition same_outcome {A} (r1 r2 : result A) : Prop :=
  match r1, r2 with
  | Ok a, Ok b => a = b
  | Err _, Err _ => True
  | _, _ => False
  end.
Lemma same_outcome_refl {A} (r : result A) : same_outcome r r.
Proof. destruct r; cbn; auto. Qed.

(* two readers of the same stream at the same position, whatever they hold beyond it *)
Definition Twin (q : bytes) (s1 s2 : sreader) : Prop :=
  Inv q s1 /\ Inv q s2 /\ off s1 = off s2 /\ skipped s1 = skipped s2.

Definition twin_result {A} q (r1 r2 : result (A * sreader)) : Prop :=
  match r1, r2 with
  | Ok (a, s1'), Ok (b, s2') => a = b /\ Twin q s1' s2'
  | Err _, Err _ => True
  | _, _ => False
  end.

Theorem amount_indep {A} q (p : prog A) : v2prog p -> forall s1 s2, Twin q s1 s2 ->
  twin_result q (run_stream q p s1) (run_stream q p s2).
Proof.
  induction p as [a|n k IH|n k IH|n k IH|k IH|e]; intros Hv s1 s2 [H1 [H2 [Ho Hs]]];
    cbn [run_stream v2prog twin_result] in *; try contradiction; try exact I.
  - split; [reflexivity|]. exact (conj H1 (conj H2 (conj Ho Hs))).
  - (* both readers serve the block iff it lies inside the stream, and then with the stream's bytes *)
    pose proof (inv_block q s1 n H1) as E1. pose proof (inv_block q s2 n H2) as E2. rewrite <- Ho in E2.
    destruct (expect q n s1) as [r1|e1]; [destruct E1 as [O1 [S1 [_ [_ E1]]]]|];
      (destruct (expect q n s2) as [r2|e2]; [destruct E2 as [O2 [S2 [_ [_ E2]]]]|]).
    + destruct (off r1 - skipped r1 + n <=? lenN (buf r1)); destruct (off r2 - skipped r2 + n <=? lenN (buf r2));
        [|exfalso; tauto|exfalso; tauto|exact I].
      destruct E1 as [_ [I1 D1]]. destruct E2 as [_ [I2 D2]]. rewrite (D1 []), (D2 []).
      apply (IH _ (Hv _)). split; [exact I1|]. split; [exact I2|]. cbn [off skipped]. split; lia.
    + destruct (off r1 - skipped r1 + n <=? lenN (buf r1)); [exfalso; tauto|exact I].
    + destruct (off r2 - skipped r2 + n <=? lenN (buf r2)); [exfalso; tauto|exact I].
    + exact I.
  - apply (IH Hv). split; [apply inv_skip; exact H1|]. split; [apply inv_skip; exact H2|]. cbn [sskip off skipped]. split; lia.
Qed.

Section WithLegacy.
Variable legacy : vclass -> header -> rargs -> prog body.

Lemma prefetch_fails q m :
  expect q (prefetch_len m) {| buf := []; off := 0; skipped := 0; pulled := 0 |} = Err EOF \/
  exists r1, expect q (prefetch_len m) {| buf := []; off := 0; skipped := 0; pulled := 0 |} = Ok r1.
Proof.
  rewrite expect_init by (pose proof (prefetch_len_ge m); lia).
  destruct (takeN (prefetch_len m) q); [left; reflexivity|right; eexists; reflexivity].
Qed.

(* without a header both reads raise; with one, both body decoders start at its end *)
Theorem read_stream_memo_independent m q a :
  MemoOK m -> any_arg a = true -> (forall h, v2prog (read_body legacy h a)) ->
  same_outcome (fst (fst (read_stream legacy m q a))) (fst (fst (read_stream legacy None q a))).
Proof.
  intros Hm Ha Hv.
  destruct (run_plain rd_header {| pbuf := q; poff := 0 |}) as [[h [b o]]|e] eqn:Hh.
  - apply run_plain_buf in Hh as Hb. cbn [pbuf] in Hb. subst b.
    destruct (stream_handoff legacy m q a h o Hm Ha Hh) as [s1 [P1 [O1 [L1 [_ ->]]]]].
    destruct (stream_handoff legacy None q a h o I Ha Hh) as [s0 [P0 [O0 [L0 [_ ->]]]]].
    assert (HT : Twin q s1 s0).
    { split; [apply pre_inv; [exact P1|lia]|]. split; [apply pre_inv; [exact P0|lia]|]. destruct P1, P0. split; lia. }
    pose proof (amount_indep q _ (Hv h) s1 s0 HT) as Hb.
    destruct (run_stream q (read_body legacy h a) s1) as [[b1 s1']|e1];
      destruct (run_stream q (read_body legacy h a) s0) as [[b0 s0']|e0]; cbn [twin_result] in Hb; cbn [fst same_outcome]; try contradiction; try exact I.
    destruct Hb as [-> _]. reflexivity.
  - destruct (read_stream_no_header legacy m q a e Hm Ha Hh) as [e1 ->].
    destruct (read_stream_no_header legacy None q a e I Ha Hh) as [e0 ->]. exact I.
Qed.

(* the library's own v0.2 / unknown-version decoders satisfy the hypothesis *)
Lemma v2prog_no_legacy h a : v2prog (read_body no_legacy h a).
Proof.
  unfold read_body, read_body_with. destruct (version_class (h_version h)); try exact I; try apply v2prog_read_v0_2.
Qed.
End WithLegacy.
