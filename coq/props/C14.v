(* C14 - Interpolation resamples time faithfully and never invents observations.
   Model: model/C14_Count.v, C14_Interp.v (NumPyPoseBody.interpolate).
   Theorems over exact reals (Num.R_ops) for every body, person, point, rate and kind; the frame count over the
   kernel's binary64 floats.  SciPy's quadratic / cubic interp1d is any function sp with [spline_ok sp]
   (one value per column; interpolates its nodes; reproduces polynomials of degree <= k, k = 2, 3): the claim
   for those kinds is PARTIAL in that sense.  Rounding of the binary64 execution is not modelled. *)
From Coq Require Import Reals List Arith Bool ZArith PrimFloat SpecFloat FloatOps Sorted Lia Lra.
Require Import Num RealFacts Result C14_Count C14_Interp C14_Index C14_Grid C14_Lerp C14_Eval C14_Obs C14_Track C14_Body C14_CountP
               C14_CountAll C14_Main C14_Witness C14_Examples C14_GenTie Gen_C14.
Import ListNotations.
Set Warnings "-inexact-float".

Theorem frame_count : forall sp (b : bodyR) new_fps k (o : outR), interpolate R_ops sp b new_fps k = Ok o ->
  exists n, new_frame_count (frames_of b) (target b new_fps) (b_fps R_ops b) = Ok n /\
    o_fps R_ops o = target b new_fps /\
    length (o_data R_ops o) = n /\ length (o_conf R_ops o) = n /\ length (o_mask R_ops o) = n /\
    (forall j, j < n -> length (nth j (o_data R_ops o) []) = b_people R_ops b /\ length (nth j (o_conf R_ops o) []) = b_people R_ops b /\
       forall p, p < b_people R_ops b -> length (nth p (nth j (o_data R_ops o) []) []) = b_points R_ops b /\
                                         length (nth p (nth j (o_conf R_ops o) []) []) = b_points R_ops b).
Proof. exact interpolate_shape. Qed.
Print Assumptions frame_count.
(* the count is the integer nearest to the binary64 value of frames * new / old, the even one at a tie *)
Theorem frame_count_is_round_half_even : forall F new old n, new_frame_count F new old = Ok n ->
  PrimFloat.eqb old 0 = false /\
  match Prim2SF (count_quotient F new old) with
  | S754_zero _ => n = 0
  | S754_finite s m e => exists z, nearest_even m e z /\ Z.of_nat n = (if s then - z else z)%Z
  | _ => False
  end.
Proof. intros F new old n H. destruct (new_frame_count_ok F new old n H) as [H0 [z [Hr [Hz ->]]]]. split; [exact H0|].
  pose proof (py_round_finite _ z Hr) as Hf. destruct (Prim2SF (count_quotient F new old)); try contradiction.
  - subst z. reflexivity.
  - destruct Hf as [z' [Hn Ez]]. exists z'. split; [exact Hn|]. rewrite Z2Nat.id by exact Hz. exact Ez. Qed.
Print Assumptions frame_count_is_round_half_even.
(* 8 frames at 10 fps -> 15 fps gives round(12.0) = 12 frames *)
Example frame_count_example :
  exists o, interpolate R_ops wit ex_body (Some 15%float) Cubic = Ok o /\ length (o_data R_ops o) = 12.
Proof. destruct (ex_interpolated (Some 15%float) Cubic 12 ex_count15) as [o [_ [Ho Hn]]]. exists o. split; [exact Ho|].
  destruct (frame_count wit ex_body _ _ o Ho) as [n [Hn' [_ [Hl _]]]].
  rewrite Hn in Hn'. injection Hn' as <-. exact Hl. Qed.
Print Assumptions frame_count_example.
(* 7.5 -> 8 and 4.5 -> 4: exact .5 quotients go to the even side; 7 * 24 / 29.97 = 5.6.. -> 6 *)
Example frame_count_ties_and_non_integer_ratio :
  new_frame_count 5 15%float 10%float = Ok 8 /\ new_frame_count 3 15%float 10%float = Ok 4 /\
  new_frame_count 7 24%float 29.97%float = Ok 6.
Proof. vm_compute. repeat split. Qed.
Print Assumptions frame_count_ties_and_non_integer_ratio.
(* interpolate returns a result on every well-formed body with frames <> 1, people, points > 0 and a defined count *)
Theorem interpolate_total : forall sp, spline_shape sp -> forall (b : bodyR) new_fps k, wf_body b -> forall n,
  frames_of b <> 1 -> 0 < b_people R_ops b -> 0 < b_points R_ops b ->
  new_frame_count (frames_of b) (target b new_fps) (b_fps R_ops b) = Ok n ->
  exists o, interpolate R_ops sp b new_fps k = Ok o.
Proof. intros sp Hs b new_fps k Hw n. exact (interpolate_defined sp b new_fps k Hw n). Qed.
Print Assumptions interpolate_total.

Theorem ends_aligned_times : forall F n, 2 <= F -> 2 <= n ->
  (t_new n 0 = t_old F 0 /\ t_new n (n - 1) = t_old F (F - 1) /\ t_new n 0 = 0 /\ t_new n (n - 1) = 1)%R.
Proof. exact t_ends. Qed.
Print Assumptions ends_aligned_times.
Theorem ends_aligned : forall sp, spline_ok sp -> forall b new_fps k o n, interpolated sp b new_fps k o n ->
  forall p t, in_body b p t -> 2 <= frames_of b ->
  (1 <= n -> seen b 0 p t -> out_row o 0 p t = in_row b 0 p t /\ out_mask o 0 p t = false) /\
  (2 <= n -> seen b (frames_of b - 1) p t ->
     out_row o (n - 1) p t = in_row b (frames_of b - 1) p t /\ out_mask o (n - 1) p t = false).
Proof. intros sp Hsp b new_fps k o n Hi p t Hpt HF.
  split; intros Hn Hs; (apply (node_body sp Hsp b new_fps k o n Hi p t Hpt); [lia|exact Hs|]); unfold t_new, t_old.
  - rewrite !grid_first by lia. reflexivity.
  - rewrite !grid_last by lia. reflexivity. Qed.
Print Assumptions ends_aligned.
(* point 0 is observed at frame 0, point 1 at frame 7 *)
Example ends_aligned_example : seen ex_body 0 0 0 /\ seen ex_body (frames_of ex_body - 1) 0 1.
Proof. split; [apply ex_seen0; lia|apply ex_seen1; cbn; lia]. Qed.
Print Assumptions ends_aligned_example.

Theorem identity_rate : forall sp, spline_ok sp -> forall b new_fps k o n, interpolated sp b new_fps k o n ->
  forall p t, in_body b p t -> forall i, n = frames_of b -> seen b i p t ->
  out_row o i p t = in_row b i p t /\ out_mask o i p t = false.
Proof. intros sp Hsp b new_fps k o n Hi p t Hpt i En Hs.
  apply (node_body sp Hsp b new_fps k o n Hi p t Hpt); [destruct Hs; lia|exact Hs|]. rewrite En. reflexivity. Qed.
Print Assumptions identity_rate.
(* identity_rate takes "the count is F" as its hypothesis; at an unchanged rate the count IS F:
   (i) closed proof by computation for F = 2..1024 and 24 usual rates; *)
Theorem identity_rate_count_partial : forall F r, 2 <= F <= 1024 -> In r usual_rates -> new_frame_count F r r = Ok F.
Proof. exact same_rate_count. Qed.
Print Assumptions identity_rate_count_partial.
(* (ii) for EVERY F below 2^50 and every positive finite rate r = m * 2^e, m < 2^53, -553 <= e <= 447 (2^-553 <= r < 2^500;
   [rate_ok] is that boolean test): round(F * r / r) = F in binary64, by a rounding-error analysis over the reals - the kernel's
   primitive floats connected to Flocq's correctly rounded operations (standard library FloatAxioms, real-number axioms, excluded
   middle: see Print Assumptions) *)
Theorem identity_rate_count : forall (F : nat) (r : float),
  1 <= F -> (Z.of_nat F < 2 ^ 50)%Z -> rate_ok r = true -> new_frame_count F r r = Ok F.
Proof. exact same_rate_count_all. Qed.
Print Assumptions identity_rate_count.
Example identity_rate_count_usual_rates : forallb rate_ok usual_rates = true.
Proof. vm_compute. reflexivity. Qed.
Print Assumptions identity_rate_count_usual_rates.
Example identity_rate_count_example :
  new_frame_count (Z.to_nat 123456789) 29.97%float 29.97%float = Ok (Z.to_nat 123456789).
Proof. exact same_rate_count_all_example. Qed.
Print Assumptions identity_rate_count_example.
Example identity_rate_example :
  exists o, interpolated wit ex_body None Quadratic o 8 /\ 8 = frames_of ex_body /\ seen ex_body 3 0 0.
Proof. destruct (ex_interpolated None Quadratic 8 ex_count10) as [o H]. exists o. split; [exact H|]. split; [reflexivity|apply ex_seen0; lia]. Qed.
Print Assumptions identity_rate_example.
(* more generally, a new frame that coincides in time with an observed frame returns it (every kind) *)
Theorem observed_frame_reproduced : forall sp, spline_ok sp -> forall b new_fps k o n, interpolated sp b new_fps k o n ->
  forall p t, in_body b p t -> forall j i, j < n -> seen b i p t -> t_new n j = t_old (frames_of b) i ->
  out_row o j p t = in_row b i p t /\ out_mask o j p t = false.
Proof. exact node_body. Qed.
Print Assumptions observed_frame_reproduced.

(* affine trajectories are reproduced exactly by every kind *)
Theorem affine_reproduced : forall sp, spline_ok sp -> forall b new_fps k o n, interpolated sp b new_fps k o n ->
  forall p t, in_body b p t -> forall c (a b0 : R) j i1 i2, c < width b -> j < n ->
  (forall i, seen b i p t -> col c (in_row b i p t) = a * t_old (frames_of b) i + b0)%R ->
  seen b i1 p t -> (t_old (frames_of b) i1 <= t_new n j)%R ->
  seen b i2 p t -> (t_new n j <= t_old (frames_of b) i2)%R ->
  (col c (out_row o j p t) = a * t_new n j + b0)%R.
Proof. intros sp Hsp b new_fps k o n Hi p t Hpt c a b0 j i1 i2 Hc Hj Ha [Hi1 Ho1] H1 [Hi2 Ho2] H2.
  destruct (row_eq sp Hsp b new_fps k o n Hi p t Hpt j Hj) as [-> _].
  apply (track_affine sp (proj2 (proj2 Hsp)) k (width b) (frames_of b) n _ (rows_wf sp b new_fps k o n Hi p t Hpt) c a b0 j i1 i2);
    try assumption.
  intros i Hi' Ho. apply Ha. split; assumption. Qed.
Print Assumptions affine_reproduced.
(* x = 2 * frame + 1 = 14 * t + 1 on the observed frames; new frame 3 (t = 3/11) lies between frames 1 and 3 *)
Example affine_reproduced_example :
  (forall i, seen ex_body i 0 0 -> col 0 (in_row ex_body i 0 0) = 14 * t_old 8 i + 1)%R /\
  seen ex_body 1 0 0 /\ (t_old 8 1 <= t_new 12 3)%R /\ seen ex_body 3 0 0 /\ (t_new 12 3 <= t_old 8 3)%R.
Proof. split; [|split; [apply ex_seen0; lia|split; [|split; [apply ex_seen0; lia|]]]].
  - intros i Hs. apply ex_seen0 in Hs. rewrite ex_row0, t_old8 by lia. unfold col. cbn [nth]. field.
  - rewrite t_old8, t_new12 by lia. cbn; lra.
  - rewrite t_old8, t_new12 by lia. cbn; lra. Qed.
Print Assumptions affine_reproduced_example.

(* support: nothing before the first / after the last observation, nothing for unobserved points *)
Theorem support : forall sp, spline_ok sp -> forall b new_fps k o n, interpolated sp b new_fps k o n ->
  forall p t, in_body b p t -> forall j, j < n ->
  (forall i, seen b i p t -> t_new n j < t_old (frames_of b) i)%R \/
  (forall i, seen b i p t -> t_old (frames_of b) i < t_new n j)%R ->
  out_row o j p t = zrow (width b) /\ out_conf o j p t = 0%R /\ out_mask o j p t = true.
Proof. intros sp Hsp b new_fps k o n Hi p t Hpt j Hj Hside.
  destruct (row_eq sp Hsp b new_fps k o n Hi p t Hpt j Hj) as [Er Em].
  assert (Ez : out_row o j p t = zrow (width b)).
  { rewrite Er. apply (track_support sp k (width b) (frames_of b) n _ (rows_wf sp b new_fps k o n Hi p t Hpt) j Hj).
    destruct Hside as [H|H]; [left|right]; intros i Hi' Ho; apply H; split; assumption. }
  assert (Ec : out_conf o j p t = 0%R) by (rewrite <- (conf_of_out_row o p t), Ez; apply zrow_conf).
  split; [exact Ez|]. split; [exact Ec|]. rewrite Em, Ec. apply Reqb_true. reflexivity. Qed.
Print Assumptions support.
(* point 0 is last seen at frame 6 (t = 6/7) - the last new frame (t = 1) lies after it;
   point 1 is first seen at frame 2 (t = 2/7) - the first new frame (t = 0) lies before it *)
Example support_example :
  (forall i, seen ex_body i 0 0 -> t_old 8 i < t_new 12 11)%R /\ seen ex_body 6 0 0 /\
  (forall i, seen ex_body i 0 1 -> t_new 12 0 < t_old 8 i)%R /\ seen ex_body 2 0 1.
Proof. split; [|split; [apply ex_seen0; lia|split; [|apply ex_seen1; lia]]].
  - intros i Hs. apply ex_seen0 in Hs. rewrite t_old8, t_new12 by lia.
    destruct Hs as [->|[->|[->|[->| ->]]]]; cbn; lra.
  - intros i Hs. apply ex_seen1 in Hs. rewrite t_old8, t_new12 by lia.
    destruct Hs as [->| ->]; cbn; lra. Qed.
Print Assumptions support_example.
(* the index searches and the zero padding, for arbitrary tests that stay true once true (no real numbers) *)
Theorem support_index_logic : forall (A B : Type) (pf pl : A -> bool) (l : list A) (z : B),
  mono_along pf l -> mono_along pl l -> (forall x, pl x = true -> pf x = true) ->
  forall (g : A -> B) (d : A) (j : nat), j < length l ->
  nth j (padded pf pl l z (map g)) z = (if inside pf pl (nth j l d) then g (nth j l d) else z).
Proof. exact @padded_map_nth. Qed.
Print Assumptions support_index_logic.
Theorem support_index_logic_one_observation : forall (A B : Type) (pf pl : A -> bool) (l : list A) (z : B),
  mono_along pf l -> mono_along pl l -> (forall x, pl x = true -> pf x = true) ->
  (forall i j d, i < length l -> j < length l -> inside pf pl (nth i l d) = true -> inside pf pl (nth j l d) = true -> i = j) ->
  forall (y : B) (d : A) (j : nat), j < length l ->
  nth j (padded pf pl l z (fun _ => [y])) z = (if inside pf pl (nth j l d) then y else z).
Proof. exact @padded_const_nth. Qed.
Print Assumptions support_index_logic_one_observation.
(* interp1d is only evaluated inside [first, last]: its bounds error needs no branch in the model *)
Theorem interp1d_never_out_of_bounds : forall w F n rows, wf_rows w F rows -> 1 <= length (compress R_ops (gridR F) rows) ->
  let obs := compress R_ops (gridR F) rows in
  forall x, In x (slice (first_index R_ops (first_x obs) (gridR n)) (last_index R_ops (last_x obs) (gridR n)) (gridR n)) ->
    (first_x obs <= x <= last_x obs)%R.
Proof. intros w F n rows Hwf Hl obs x Hin.
  apply (no_bounds_error (gridR n) (grid_sorted n) obs (obs_sorted w F rows Hwf) Hl x Hin). Qed.
Print Assumptions interp1d_never_out_of_bounds.

(* linear interpolation stays within the neighbouring observations (coordinates and confidence) *)
Theorem linear_in_range : forall sp, spline_ok sp -> forall b new_fps k o n, interpolated sp b new_fps k o n ->
  forall p t, in_body b p t -> forall c j i1' i2', k = Linear -> c < width b -> j < n ->
  seen b i1' p t -> (t_old (frames_of b) i1' <= t_new n j)%R -> seen b i2' p t -> (t_new n j <= t_old (frames_of b) i2')%R ->
  exists i1 i2, seen b i1 p t /\ seen b i2 p t /\
    (forall i, i1 < i < i2 -> observedR (in_row b i p t) = false) /\
    (t_old (frames_of b) i1 <= t_new n j <= t_old (frames_of b) i2)%R /\
    (Rmin (col c (in_row b i1 p t)) (col c (in_row b i2 p t)) <= col c (out_row o j p t)
       <= Rmax (col c (in_row b i1 p t)) (col c (in_row b i2 p t)))%R.
Proof. intros sp Hsp b new_fps k o n Hi p t Hpt c j i1' i2' Hk Hc Hj [Hi1 Ho1] H1 [Hi2 Ho2] H2.
  destruct (row_eq sp Hsp b new_fps k o n Hi p t Hpt j Hj) as [-> _].
  destruct (track_linear_in_range sp k (width b) (frames_of b) n _ (rows_wf sp b new_fps k o n Hi p t Hpt)
              c j i1' i2' Hk Hc Hj Hi1 Ho1 H1 Hi2 Ho2 H2) as [i1 [i2 [A1 [A2 [A3 [A4 [A5 [[A6 A6'] [A7 A7']]]]]]]]].
  exists i1, i2. unfold seen, in_row. repeat split; assumption. Qed.
Print Assumptions linear_in_range.
Example linear_in_range_example :
  (exists o, interpolated wit ex_body (Some 15%float) Linear o 12) /\
  seen ex_body 1 0 0 /\ (t_old 8 1 <= t_new 12 3)%R /\ seen ex_body 3 0 0 /\ (t_new 12 3 <= t_old 8 3)%R.
Proof. split; [exact (ex_interpolated (Some 15%float) Linear 12 ex_count15)|exact (proj2 affine_reproduced_example)]. Qed.
Print Assumptions linear_in_range_example.

(* the assumptions about SciPy's splines are satisfiable (non-vacuity of every theorem above) *)
Theorem spline_hypotheses_satisfiable : exists sp : spline_t, spline_shape sp /\ spline_nodes sp /\ spline_poly sp.
Proof. exact C14_Witness.spline_hypotheses_satisfiable. Qed.
Print Assumptions spline_hypotheses_satisfiable.

(* ties to the source regenerated on this run (gen/Gen_C14.v) *)
Theorem frame_count_tie : forall frames new old, new_frame_count frames new old = ccount frame_count_expr frames new old.
Proof. exact C14_GenTie.frame_count_tie. Qed.
Print Assumptions frame_count_tie.
Theorem first_search_tie : forall O a l, first_index O a l = search O first_search a l.
Proof. exact C14_GenTie.first_search_tie. Qed.
Print Assumptions first_search_tie.
Theorem last_search_tie : forall O a l, last_index O a l = search O last_search a l.
Proof. exact C14_GenTie.last_search_tie. Qed.
Print Assumptions last_search_tie.
Theorem kind_rule_tie : forall k c, this_kind k c = kind_by_rule kind_rule k c.
Proof. exact C14_GenTie.kind_rule_tie. Qed.
Print Assumptions kind_rule_tie.
Theorem mask_rule_tie : forall O row, observed O row = negb (cmp_b O (fst confidence_mask_rule) (conf_of O row) (zero O)).
Proof. exact C14_GenTie.observed_tie. Qed.
Print Assumptions mask_rule_tie.
(* literal facts (grid end points 0 and 1, mask rule confidence == 0, full-range test, single-frame guard,
   interp1d arguments, result expression) and the statement list of interpolate / __init__: proofs/C14_GenTie.v *)
Theorem source_facts_tie : C14_GenTie.source_facts.
Proof. exact (conj (proj1 grid_tie) (conj (proj2 grid_tie) (conj (proj1 C14_GenTie.mask_rule_tie) (conj (proj2 C14_GenTie.mask_rule_tie)
    (conj full_range_test_tie (conj single_frame_guard_tie (conj interp1d_arguments_tie result_tie))))))). Qed.
Print Assumptions source_facts_tie.
Theorem source_statements_tie : C14_GenTie.source_statements.
Proof. exact (conj interpolate_statements_tie (conj constructor_tie padding_tie)). Qed.
Print Assumptions source_statements_tie.

(* class structure of the current source: overrides and attribute hooks (proofs/ClassesTie.v) *)
Require Import ClassesTie.
Theorem C14_tie_class_numpy_body : over_numpy_body = Some exp_over_numpy_body.
Proof. exact over_numpy_body_tie. Qed.
Print Assumptions C14_tie_class_numpy_body.
Theorem C14_tie_class_attr_hooks : Gen_Classes.attr_hooks = exp_attr_hooks.
Proof. exact attr_hooks_tie. Qed.
Print Assumptions C14_tie_class_attr_hooks.

