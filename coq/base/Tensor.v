(* Row-major tensors and generic re-indexing (DESIGN section 4).  Every structural operation of the
   body / masked-tensor models (index, slice, gather, permute, reshape, squeeze, cat, stack ...) is an
   instance of [reindex]; the two generic lemmas [reindex_map] and [reindex_zip] give "values and
   validity move together" for all of them at once. *)
From Coq Require Import List Arith Lia Bool.
Require Import ListFacts.
Import ListNotations.

Record tensor (X : Type) := mkT { shape : list nat; data : list X }.
Arguments mkT {X}. Arguments shape {X}. Arguments data {X}.
Definition prod (s : list nat) : nat := fold_right Nat.mul 1 s.
Definition wf {X} (t : tensor X) : Prop := length (data t) = prod (shape t).
Definition wfb {X} (t : tensor X) : bool := Nat.eqb (length (data t)) (prod (shape t)).
(* row-major: flat index <-> multi-index *)
Fixpoint unravel (s : list nat) (i : nat) : list nat :=
  match s with [] => [] | d :: s' => (i / prod s') :: unravel s' (i mod prod s') end.
Fixpoint ravel (s : list nat) (ix : list nat) : nat :=
  match s, ix with d :: s', i :: ix' => i * prod s' + ravel s' ix' | _, _ => 0 end.
(* new tensor of shape ns whose cell at multi-index j is the old cell at (f j) *)
Definition reindex {X} (dflt : X) (ns : list nat) (f : list nat -> list nat) (t : tensor X) : tensor X :=
  mkT ns (map (fun k => nth (ravel (shape t) (f (unravel ns k))) (data t) dflt) (seq 0 (prod ns))).
Definition tzip {A B} (a : tensor A) (b : tensor B) : tensor (A * B) := mkT (shape a) (combine (data a) (data b)).
Definition tmap {X Y} (g : X -> Y) (t : tensor X) : tensor Y := mkT (shape t) (map g (data t)).
Definition tget {X} (dflt : X) (t : tensor X) (ix : list nat) : X := nth (ravel (shape t) ix) (data t) dflt.

Lemma reindex_wf {X} (d : X) ns f t : wf (reindex d ns f t).
Proof. unfold wf, reindex; cbn. now rewrite map_length, seq_length. Qed.
Lemma reindex_shape {X} (d : X) ns f t : shape (reindex d ns f t) = ns.
Proof. reflexivity. Qed.
Lemma reindex_map {X Y} (g : X -> Y) d ns f (t : tensor X) :
  tmap g (reindex d ns f t) = reindex (g d) ns f (tmap g t).
Proof. unfold tmap, reindex; cbn. f_equal. rewrite map_map. apply map_ext. intros k. now rewrite map_nth. Qed.
Lemma reindex_zip {A B} (da : A) (db : B) ns f (a : tensor A) (b : tensor B) :
  shape a = shape b -> length (data a) = length (data b) ->
  reindex (da, db) ns f (tzip a b) = tzip (reindex da ns f a) (reindex db ns f b).
Proof. intros Hs Hl. unfold reindex, tzip; cbn. f_equal. rewrite Hs.
  induction (seq 0 (prod ns)) as [|k l IH]; cbn; [reflexivity|]. rewrite IH. f_equal.
  apply combine_nth. exact Hl. Qed.
Lemma tmap_wf {X Y} (g : X -> Y) t : wf t -> wf (tmap g t).
Proof. unfold wf, tmap; cbn. now rewrite map_length. Qed.
Lemma reindex_nth {X} (d : X) ns f t k : k < prod ns ->
  nth k (data (reindex d ns f t)) d = nth (ravel (shape t) (f (unravel ns k))) (data t) d.
Proof. intros Hk. unfold reindex; cbn [data]. now rewrite nth_map_seq. Qed.

Definition in_range (s ix : list nat) : Prop := Forall2 (fun i d => i < d) ix s.
Lemma ravel_lt s : forall ix, in_range s ix -> ravel s ix < prod s.
Proof. induction s as [|d s IH]; intros ix H; inversion H as [|i d' ix' s' Hi Hr]; subst; cbn [ravel prod fold_right]; [lia|].
  specialize (IH _ Hr). fold (prod s).
  assert (Hm : S i * prod s <= d * prod s) by (apply Nat.mul_le_mono_r; lia).
  rewrite Nat.mul_succ_l in Hm. lia. Qed.
Lemma unravel_ravel s : forall ix, in_range s ix -> unravel s (ravel s ix) = ix.
Proof. induction s as [|d s IH]; intros ix H; inversion H as [|i d' ix' s' Hi Hr]; subst; cbn [ravel unravel]; [reflexivity|].
  pose proof (ravel_lt s _ Hr) as Hlt. f_equal.
  - rewrite Nat.div_add_l by lia. rewrite Nat.div_small by exact Hlt. lia.
  - rewrite Nat.add_comm, Nat.mod_add by lia. rewrite Nat.mod_small by exact Hlt. now apply IH. Qed.
Lemma ravel_unravel s : forall k, k < prod s -> ravel s (unravel s k) = k.
Proof. induction s as [|d s IH]; intros k Hk; cbn [ravel unravel prod fold_right] in *; [lia|]. fold (prod s) in *.
  destruct (Nat.eq_dec (prod s) 0) as [E|NE]; [rewrite E in Hk; lia|].
  rewrite IH by (apply Nat.mod_upper_bound; exact NE).
  rewrite Nat.mul_comm. symmetry. apply Nat.div_mod. exact NE. Qed.
Lemma unravel_in_range s : forall k, k < prod s -> in_range s (unravel s k).
Proof. induction s as [|d s IH]; intros k Hk; cbn [unravel]; [constructor|].
  cbn [prod fold_right] in Hk. fold (prod s) in Hk.
  assert (Hp : prod s <> 0) by (intros E; rewrite E in Hk; lia).
  constructor.
  - apply Nat.div_lt_upper_bound; [exact Hp|]. lia.
  - apply IH. now apply Nat.mod_upper_bound. Qed.
Lemma tget_unravel {X} (d : X) ns (g : list nat -> X) ix : in_range ns ix ->
  tget d (mkT ns (map (fun k => g (unravel ns k)) (seq 0 (prod ns)))) ix = g ix.
Proof.
  intros Hr. unfold tget; cbn [shape data].
  rewrite nth_map_seq by (apply ravel_lt; exact Hr).
  now rewrite unravel_ravel.
Qed.
