(* C01: exactly which poses Pose.write accepts.  [representable] is a boolean test on the pose handed to the writer; the writer
   succeeds iff it holds - so every pose outside it is refused with an exception (the "or the write fails loudly" clause made
   explicit), and for every pose inside it the round-trip theorem applies. *)
From Coq Require Import ZArith NArith List Bool Lia ZifyBool ZifyN ZifyNat.
Require Import ListN Result Bytes Utf8 Utf8S F32 Prog Codec.
Import ListNotations.
Open Scope N_scope.

Definition str_ok (s : str) : bool :=
  match enc_utf8 s with Some b => lenN b <? 65536 | None => false end.
Definition comp_ok (c : wcomponent) : bool :=
  str_ok (wc_name c) && str_ok (wc_format c) &&
  forallb u16_ok [Z.of_N (lenN (wc_points c)); Z.of_N (lenN (wc_limbs c)); Z.of_N (lenN (wc_colors c))] &&
  forallb str_ok (wc_points c) &&
  forallb (fun l => forallb u16_ok [fst l; snd l]) (wc_limbs c) &&
  forallb (fun k => forallb u16_ok [fst (fst k); snd (fst k); snd k]) (wc_colors c).
Definition dims_ok (d : Z * Z * Z) : bool := let '(w, h, dp) := d in u16_ok w && u16_ok h && u16_ok dp.
Definition header_ok (dims : Z * Z * Z) (comps : list wcomponent) : bool :=
  dims_ok dims && forallb u16_ok [Z.of_N (lenN comps)] && forallb comp_ok comps.
Definition body_ok (p : wpose) : bool :=
  match w_shape p with
  | [F; P; T; D] => negb (4294967295 <? F) && (match pack_f32 (w_fps p) with Some _ => true | None => false end) && negb (65535 <? P)
  | _ => false
  end.
Definition representable (p : wpose) : bool :=
  match w_shape p with
  | [F; P; T; D] =>
      match num_dims_of (map wc_format (w_comps p)) with
      | Ok hd => (hd =? Z.of_N D)%Z && (total_points_w (w_comps p) =? T) && eq_shape (w_cshape p) [F; P; T]
                 && header_ok (w_dims p) (w_comps p) && body_ok p
      | Err _ => false
      end
  | _ => false
  end.

Lemma is_ok_bind {A B} (r : result A) (k : A -> result B) : is_ok (rbind r k) = match r with Ok a => is_ok (k a) | Err _ => false end.
Proof. destruct r; reflexivity. Qed.
Lemma concat_r_ok l : is_ok (concat_r l) = forallb is_ok l.
Proof.
  induction l as [|r l IH]; [reflexivity|]. cbn [concat_r forallb]. rewrite is_ok_bind. destruct r as [a|e]; [|reflexivity].
  cbn [is_ok andb]. rewrite is_ok_bind. rewrite <- IH. destruct (concat_r l); reflexivity.
Qed.
Lemma write_str_ok_b s : is_ok (write_str s) = str_ok s.
Proof. unfold write_str, str_ok. destruct (enc_utf8 s) as [b|]; [|reflexivity]. destruct (lenN b <? 65536); reflexivity. Qed.
Lemma pack_u16s_ok_b l : is_ok (pack_u16s l) = forallb u16_ok l.
Proof. unfold pack_u16s. destruct (forallb u16_ok l); reflexivity. Qed.
Lemma forallb_map_ext {X Y} (f : X -> Y) (g : Y -> bool) (h : X -> bool) l :
  (forall x, g (f x) = h x) -> forallb g (map f l) = forallb h l.
Proof. intros H. induction l as [|x l IH]; [reflexivity|]. cbn [map forallb]. now rewrite H, IH. Qed.

Lemma write_component_ok_b c : is_ok (write_component c) = comp_ok c.
Proof.
  unfold write_component, comp_ok. rewrite concat_r_ok. rewrite !forallb_app. cbn [forallb].
  rewrite !write_str_ok_b, pack_u16s_ok_b.
  rewrite (forallb_map_ext write_str is_ok str_ok) by apply write_str_ok_b.
  rewrite (forallb_map_ext _ is_ok (fun l => forallb u16_ok [fst l; snd l])) by (intros; apply pack_u16s_ok_b).
  rewrite (forallb_map_ext _ is_ok (fun k => forallb u16_ok [fst (fst k); snd (fst k); snd k])) by (intros; apply pack_u16s_ok_b).
  cbn [forallb]. rewrite ?andb_true_r. rewrite ?andb_assoc. reflexivity.
Qed.
Lemma write_dims_ok_b d : is_ok (write_dims d) = dims_ok d.
Proof.
  unfold write_dims, dims_ok. destruct d as [[w h] dp]. destruct (u16_ok w && u16_ok h && u16_ok dp) eqn:E; [|reflexivity].
  rewrite pack_u16s_ok_b. cbn [forallb]. now rewrite andb_true_r, andb_assoc.
Qed.
Lemma write_header_ok_b dims comps : is_ok (write_header dims comps) = header_ok dims comps.
Proof.
  unfold write_header, header_ok. rewrite concat_r_ok, forallb_app. cbn [forallb is_ok]. rewrite write_dims_ok_b, pack_u16s_ok_b.
  rewrite (forallb_map_ext write_component is_ok comp_ok) by apply write_component_ok_b.
  cbn [forallb andb]. rewrite ?andb_true_r. rewrite ?andb_assoc. reflexivity.
Qed.
Lemma write_body_ok_b p : is_ok (write_body p) = body_ok p.
Proof.
  unfold write_body, body_ok. destruct (w_shape p) as [|F [|P [|T [|D [|? ?]]]]]; try reflexivity.
  destruct (4294967295 <? F); [reflexivity|]. destruct (pack_f32 (w_fps p)); [|reflexivity]. destruct (65535 <? P); reflexivity.
Qed.

Theorem write_accepts_iff p : is_ok (write_pose p) = representable p.
Proof.
  unfold write_pose, representable. destruct (w_shape p) as [|F [|P [|T [|D [|? ?]]]]] eqn:Es; try reflexivity.
  rewrite is_ok_bind. destruct (num_dims_of (map wc_format (w_comps p))) as [hd|e]; [|reflexivity].
  destruct (hd =? Z.of_N D)%Z; [|reflexivity]. destruct (total_points_w (w_comps p) =? T); [|reflexivity].
  destruct (eq_shape (w_cshape p) [F; P; T]); [|reflexivity]. cbn [negb andb].
  rewrite is_ok_bind. rewrite <- write_header_ok_b, <- write_body_ok_b.
  destruct (write_header (w_dims p) (w_comps p)) as [h|e]; [|reflexivity]. cbn [is_ok andb].
  rewrite is_ok_bind. destruct (write_body p); reflexivity.
Qed.
Corollary write_accepts p : representable p = true -> exists bs, write_pose p = Ok bs.
Proof. intros H. pose proof (write_accepts_iff p) as E. rewrite H in E. destruct (write_pose p) as [b|e]; [|discriminate]. now exists b. Qed.

(* non-vacuity, both ways *)
Require Import C01_Examples.
Example representable_examples :
  representable ex_pose = true /\ representable ex_empty = true /\
  representable {| w_dims := (65536, 1, 0)%Z; w_comps := w_comps ex_empty; w_fps := 0; w_shape := [0; 0; 0; 3]; w_data := [];
                   w_cshape := [0; 0; 0]; w_conf := [] |} = false /\
  representable {| w_dims := (1, 1, 0)%Z;
                   w_comps := [ {| wc_name := [65]; wc_format := [88; 67]; wc_points := [[97]]; wc_limbs := [(0, 65536)%Z]; wc_colors := [] |} ];
                   w_fps := 0; w_shape := [1; 1; 1; 1]; w_data := [0]; w_cshape := [1; 1; 1]; w_conf := [0] |} = false.
Proof. repeat split; vm_compute; reflexivity. Qed.
