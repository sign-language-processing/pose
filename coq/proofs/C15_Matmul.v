(* C15 - matmul: linear, identity, keeps confidences and the missing pattern. *)
From Coq Require Import Reals ZArith List Bool Lia Lra.
Require Import Result Num RealFacts ListFacts C15_Spatial C15_Real C15_Lemmas C15_Flip.
Import ListNotations.
Local Open Scope R_scope.

Lemma dotp_nil_l c : dotp R_ops [] c = 0.
Proof. reflexivity. Qed.
Lemma dotp_nil_r x : dotp R_ops x [] = 0.
Proof. destruct x; reflexivity. Qed.
Lemma dotp_cons x xs c cs : dotp R_ops (x :: xs) (c :: cs) = x * c + dotp R_ops xs cs.
Proof. reflexivity. Qed.
Lemma dotp_zeros {X} (xs : list R) (l : list X) : dotp R_ops xs (map (fun _ => 0) l) = 0.
Proof. revert l; induction xs as [|x xs IH]; intros [|y l]; cbn [map]; try reflexivity.
  rewrite dotp_cons, IH. (rsimp; ring). Qed.
Lemma dotp_lin a b (xs ys c : list R) : length xs = length ys ->
  dotp R_ops (zipw (fun x y => a * x + b * y) xs ys) c = a * dotp R_ops xs c + b * dotp R_ops ys c.
Proof. revert ys c; induction xs as [|x xs IH]; intros [|y ys] c H; cbn [length] in H; try discriminate.
  - cbn [zipw]. rewrite !dotp_nil_l. (rsimp; ring).
  - destruct c as [|c0 c]; cbn [zipw]; [rewrite !dotp_nil_r; (rsimp; ring)|].
    rewrite !dotp_cons, IH by (now injection H). (rsimp; ring). Qed.
(* product with the j-th unit vector, laid over positions s, s+1, ...: the coordinate at j, if there is one *)
Lemma dotp_unit (xs : list R) : forall s j,
  dotp R_ops xs (map (fun i => if Nat.eqb i j then 1 else 0) (seq s (length xs))) = if Nat.leb s j then nth (j - s) xs 0 else 0.
Proof. induction xs as [|x xs IH]; intros s j; cbn [length seq map].
  - rewrite dotp_nil_l. destruct (Nat.leb s j); [now destruct (j - s)%nat | reflexivity].
  - rewrite dotp_cons, IH. destruct (Nat.eqb_spec s j) as [->|Hne].
    + rewrite Nat.leb_refl, Nat.sub_diag, (proj2 (Nat.leb_gt _ _)) by lia. cbn [nth]. (rsimp; ring).
    + destruct (Nat.leb_spec s j) as [Hle|Hgt].
      * rewrite (proj2 (Nat.leb_le (S s) j)) by lia. replace (j - s)%nat with (S (j - S s)) by lia. cbn [nth]. (rsimp; ring).
      * rewrite (proj2 (Nat.leb_gt (S s) j)) by lia. (rsimp; ring). Qed.
Lemma map_nth_seq {X} (l : list X) d s : map (fun j => nth (j - s) l d) (seq s (length l)) = l.
Proof. revert s; induction l as [|x l IH]; intros s; cbn [length seq map]; [reflexivity|].
  rewrite Nat.sub_diag. cbn [nth]. f_equal. rewrite <- (IH (S s)) at 2. apply map_ext_in.
  intros j Hj. apply in_seq in Hj. replace (j - s)%nat with (S (j - S s)) by lia. reflexivity. Qed.
Lemma col_of_entries (g : nat -> nat -> R) n m j : (j < m)%nat ->
  col R_ops j (map (fun i => map (fun j' => g i j') (seq 0 m)) (seq 0 n)) = map (fun i => g i j) (seq 0 n).
Proof. intros H. unfold col. rewrite map_map. apply map_ext. intros i. rsimp. now apply nth_map_seq. Qed.

Lemma vecmat_eye (x : list R) : vecmat R_ops (length x) x (eye R_ops (length x)) = x.
Proof. unfold vecmat, eye. rsimp. transitivity (map (fun j => nth (j - 0) x 0) (seq 0 (length x))); [|apply map_nth_seq].
  apply map_ext_in.
  intros j Hj. apply in_seq in Hj. rewrite (col_of_entries (fun i j' => if Nat.eqb i j' then 1 else 0)) by lia.
  now rewrite dotp_unit. Qed.
Lemma matrix_ok_entries (g : nat -> nat -> R) n m :
  matrix_ok R_ops n m (map (fun i => map (fun j' => g i j') (seq 0 m)) (seq 0 n)) = true.
Proof. unfold matrix_ok. rewrite map_length, seq_length, Nat.eqb_refl. cbn [andb].
  apply forallb_forall. intros row Hrow. apply in_map_iff in Hrow as [i [<- _]].
  now rewrite map_length, seq_length, Nat.eqb_refl. Qed.

Lemma matmul_point_pcs K M (p : rpoint) : (pc p = 0 -> missing p = true) ->
  pcs (matmul_point R_ops K M p) = map (fun v => (v, missing p)) (vecmat R_ops K (filled R_ops p) M).
Proof. intros Hinv. unfold matmul_point, reinit. cbn [pcs pc]. rsimp. rewrite map_map. apply map_ext. intros v.
  cbn [fst snd]. f_equal. unfold missing. destruct (allmasked R_ops p) eqn:E; [reflexivity|].
  cbn [orb]. apply Reqb_false. intros H0. specialize (Hinv H0). unfold missing in Hinv. congruence. Qed.
Lemma vecmat_length K (x : list R) (M : list (list R)) : length (vecmat R_ops K x M) = K.
Proof. unfold vecmat. now rewrite map_length, seq_length. Qed.
Lemma matmul_point_masks D K M (p : rpoint) : wf_point D p -> masks (matmul_point R_ops K M p) = repeat (missing p) K.
Proof. intros Hwf. unfold masks. rewrite matmul_point_pcs by (exact (proj2 (proj2 Hwf))). rewrite map_map. cbn [snd].
  now rewrite map_const, vecmat_length. Qed.
Lemma matmul_point_wf D K M (p : rpoint) : wf_point D p -> wf_point K (matmul_point R_ops K M p).
Proof. intros Hwf. apply wf_point_uniform with (m := missing p).
  - cbn [pcs matmul_point reinit]. now rewrite !map_length, vecmat_length.
  - exact (matmul_point_masks D K M p Hwf).
  - exact (proj2 (proj2 Hwf)). Qed.
Lemma matmul_point_keeps D M (p : rpoint) : wf_point D p -> same_conf_mask p (matmul_point R_ops D M p).
Proof. intros Hwf. split; [reflexivity|]. rewrite (matmul_point_masks D D M p Hwf). symmetry. now apply wf_masks. Qed.
Lemma wf_observed_filled D (p : rpoint) : wf_point D p -> missing p = false -> filled R_ops p = coords p.
Proof. intros Hwf Hm. unfold filled, coords. apply map_ext_in. intros c Hc.
  rewrite (masks_uniform_mask D p c Hwf Hc), Hm. reflexivity. Qed.
Lemma matmul_point_coords D K M (p : rpoint) : wf_point D p -> missing p = false ->
  coords (matmul_point R_ops K M p) = vecmat R_ops K (coords p) M.
Proof. intros Hwf Hm. unfold coords at 1. rewrite matmul_point_pcs by (exact (proj2 (proj2 Hwf))). rewrite map_map. cbn [fst].
  now rewrite map_id, (wf_observed_filled D p Hwf Hm). Qed.
Lemma coords_length D (p : rpoint) : wf_point D p -> length (coords p) = D.
Proof. intros H. unfold coords. rewrite map_length. exact (proj1 H). Qed.
Lemma observes_iff (p : rpoint) k x : observes p k x <-> nth_error (coords p) k = Some x /\ nth_error (masks p) k = Some false.
Proof. unfold observes, coords, masks. rewrite !nth_error_map. destruct (nth_error (pcs p) k) as [[y m]|]; cbn [option_map fst snd].
  - split; [intros [= -> ->]; now split | intros [[= ->] [= ->]]; reflexivity].
  - split; [discriminate | intros [H _]; discriminate]. Qed.
Lemma same_observed_of_coords D (p p' : rpoint) :
  wf_point D p -> same_conf_mask p p' -> (missing p = false -> coords p' = coords p) -> same_observed p p'.
Proof. intros Hwf Hs Hc. split; [exact Hs|]. intros k x Hk. specialize (Hc (observes_not_missing D p k x Hwf Hk)).
  apply observes_iff in Hk. apply observes_iff. now rewrite Hc, (proj2 Hs). Qed.

Lemma matmul_point_identity D (p : rpoint) : wf_point D p -> same_observed p (matmul_point R_ops D (eye R_ops D) p).
Proof. intros Hwf. apply (same_observed_of_coords D); [exact Hwf | now apply matmul_point_keeps |].
  intros Hm. rewrite (matmul_point_coords D D _ p Hwf Hm), <- (coords_length D p Hwf). apply vecmat_eye. Qed.

Lemma map_eq_Forall2 {A B C} (f : A -> C) (g : B -> C) l1 l2 : map f l1 = map g l2 -> Forall2 (fun x y => f x = g y) l1 l2.
Proof. revert l2; induction l1 as [|x l1 IH]; intros [|y l2] H; cbn [map] in H; try discriminate; constructor.
  - now injection H. - apply IH. now injection H. Qed.
Definition lin_compat D (p q : rpoint) : Prop := wf_point D p /\ wf_point D q /\ masks p = masks q /\ pc p = pc q.
Lemma lin_point_filled a b D (p q : rpoint) : lin_compat D p q ->
  filled R_ops (lin_point a p b q) = zipw (fun x y => a * x + b * y) (filled R_ops p) (filled R_ops q).
Proof. intros [_ [_ [Hm _]]]. unfold filled, lin_point. cbn [pcs]. rsimp. rewrite map_zipw, zipw_map_l, zipw_map_r.
  apply (zipw_rel_ext (fun c c' : R * bool => snd c = snd c')); [now apply map_eq_Forall2|].
  intros [x m] [y m'] E. cbn [fst snd] in *. subst m'. destruct m; (rsimp; ring). Qed.
Lemma lin_point_missing a b D (p q : rpoint) : lin_compat D p q -> missing (lin_point a p b q) = missing p.
Proof. intros [Hp [Hq [Hm _]]]. rewrite !allmasked_masks. f_equal. unfold masks, lin_point. cbn [pcs]. rsimp.
  rewrite map_zipw. cbn [snd]. apply zipw_fst_only. apply Nat.eq_le_incl. transitivity D; [exact (proj1 Hp) | symmetry; exact (proj1 Hq)]. Qed.
Lemma matmul_point_linear a b D K M (p q : rpoint) : lin_compat D p q ->
  matmul_point R_ops K M (lin_point a p b q) = lin_point a (matmul_point R_ops K M p) b (matmul_point R_ops K M q).
Proof. intros Hc. pose proof Hc as [Hp [Hq [Hm Hpc]]]. apply point_ext; [|reflexivity].
  rewrite matmul_point_pcs.
  2:{ rewrite (lin_point_missing a b D p q Hc). exact (proj2 (proj2 Hp)). }
  rewrite (lin_point_missing a b D p q Hc), (lin_point_filled a b D p q Hc).
  unfold lin_point. cbn [pcs]. rewrite !matmul_point_pcs by (first [exact (proj2 (proj2 Hp)) | exact (proj2 (proj2 Hq))]).
  unfold vecmat. rewrite !map_map. rewrite zipw_map_same. apply map_ext. intros j. cbn [fst snd]. f_equal.
  apply dotp_lin. unfold filled. rewrite !map_length. transitivity D; [exact (proj1 Hp) | symmetry; exact (proj1 Hq)]. Qed.

Lemma matmul_ok D K M (b : rframes) : matrix_ok R_ops D K M = true ->
  matmul R_ops D D K M b = Ok (map3 R_ops (matmul_point R_ops K M) b).
Proof. intros H. unfold matmul. now rewrite Nat.eqb_refl, H. Qed.

Lemma matmul_linear D K M a b (X Y : rframes) :
  wf_body D X -> wf_body D Y -> rel3 same_conf_mask X Y -> matrix_ok R_ops D K M = true ->
  exists RX RY, matmul R_ops D D K M X = Ok RX /\ matmul R_ops D D K M Y = Ok RY /\
                matmul R_ops D D K M (lin a X b Y) = Ok (lin a RX b RY).
Proof. intros HX HY Hs HM. rewrite !(matmul_ok D K M) by exact HM.
  eexists. eexists. split; [reflexivity|]. split; [reflexivity|]. f_equal.
  unfold lin. rewrite map3_zip3, zip3_map3.
  apply (zip3_rel_ext (lin_compat D)); [|intros p q Hc; now apply (matmul_point_linear a b D)].
  apply (rel3_impl_all3 _ _ _ _ _ _ HX HY Hs). intros p q Hp Hq [Hpc Hm].
  split; [exact Hp|]. split; [exact Hq|]. split; symmetry; assumption. Qed.

Lemma matmul_identity D (b : rframes) :
  wf_body D b -> exists b', matmul R_ops D D D (eye R_ops D) b = Ok b' /\ rel3 same_observed b b'.
Proof. intros Hwf. rewrite matmul_ok by (apply (matrix_ok_entries (fun i j' => if Nat.eqb i j' then 1 else 0))).
  eexists. split; [reflexivity|]. apply (all3_rel3_map3 (wf_point D)); [exact Hwf|].
  intros p Hp. now apply matmul_point_identity. Qed.

Definition matmul_mask_spec (K : nat) (p p' : rpoint) : Prop := pc p' = pc p /\ masks p' = repeat (missing p) K.
Lemma matmul_keeps_conf_mask D R' K M (b b' : rframes) :
  wf_body D b -> matmul R_ops D R' K M b = Ok b' -> rel3 (matmul_mask_spec K) b b' /\ wf_body K b'.
Proof. intros Hwf H. unfold matmul in H. destruct (_ && _); [|discriminate]. injection H as <-. split.
  - apply (all3_rel3_map3 (wf_point D)); [exact Hwf|]. intros p Hp. split; [reflexivity | now apply (matmul_point_masks D)].
  - apply (all3_map3 (wf_point D)); [exact Hwf|]. intros p. apply matmul_point_wf. Qed.
