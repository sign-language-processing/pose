(* Non-vacuity witnesses of C04: concrete files, windows and refused arguments.  The hypotheses of the theorems are
   decided by evaluation; what the reads return then follows from the theorems. *)
From Coq Require Import ZArith NArith List Lia ZifyBool ZifyN ZifyNat Bool.
Require Import ListN ListFacts Result Bytes Utf8 Utf8S F32 Prog Codec PoseRead PoseReadLemmas WindowLemmas
  C04_Legacy C04_Spec C04_SpecRT C04_V01 C04_V00 C04_Rewrite.
Import ListNotations.
Open Scope N_scope.

Definition s_ (l : list N) : str := l.
Definition ex_comp : component :=
  {| c_name := [112; 111; 115; 101]; c_format := [88; 89; 67]; c_points := [[97]; [98]]; c_limbs := [(0, 1)]; c_colors := [(255, 0, 0)] |}.
Definition ex_comp2 : component :=
  {| c_name := [104; 233]; c_format := [88; 89; 67]; c_points := [[8364]]; c_limbs := []; c_colors := [] |}.
Definition hdr (v : N) : header := {| h_version := v; h_dims := (640, 480, 0); h_comps := [ex_comp; ex_comp2] |}.
(* float32 words: 1.0, 2.0, 0.5, -1.0, NaN *)
Definition f1 := 1065353216. Definition f2 := 1073741824. Definition fh := 1056964608. Definition fm1 := 3212836864. Definition fnan := 2143289344.

Ltac conjs := repeat match goal with |- _ /\ _ => split end.
(* closed side conditions: never vm_compute a goal in which a word is still bound (Pos.compare_cont recurses on its literal
   second argument and the normal form explodes); decompose with constructors first *)
Ltac wf_strs := repeat constructor; try (eexists; split; [reflexivity|vm_compute; reflexivity]).
Lemma hdr_wf v : v < 4294967296 -> wf_header (hdr v).
Proof. intros Hv. unfold wf_header, hdr. cbn [h_version h_dims h_comps]. split; [exact Hv|]. wf_strs. Qed.

(* v0.0: three frames with 2, 0 and 1 people; negative and NaN confidences *)
Definition ex_person (id : Z) (a b c d e f ca cb cc : N) : person00 :=
  {| ps_id := id; ps_comps := [[([a; b], ca); ([c; d], cb)]; [([e; f], cc)]] |}.
Definition ex00 : content00 :=
  {| k0_header := hdr 0; k0_fps := 30;
     k0_frames := [ [ex_person 5 f1 f2 f1 f1 f2 f2 f1 0 fm1; ex_person (-1) fh fh fh fh fh fh f1 f1 f1];
                    [];
                    [ex_person 0 f2 f1 fh fh f1 f1 fnan fh f1] ] |}.
Lemma hdr_wf00 frames : u16 (lenN frames) ->
  Forall (fun people => u16 (lenN people) /\ Forall (wf_person (hdr 0) (spec_floats_per_point (hdr 0))) people) frames ->
  wf00 {| k0_header := hdr 0; k0_fps := 30; k0_frames := frames |}.
Proof.
  intros HF Hfr. unfold wf00. cbn [k0_header k0_fps k0_frames].
  split; [apply hdr_wf; reflexivity|]. split; [vm_compute; reflexivity|]. split; [vm_compute; reflexivity|].
  split; [exact HF|]. split; [discriminate|]. split; [vm_compute; discriminate|]. split; [repeat constructor|exact Hfr].
Qed.
Lemma ex00_wf : wf00 ex00 /\ k0_frames ex00 <> [].
Proof.
  split; [|discriminate]. apply hdr_wf00; [vm_compute; reflexivity|]. repeat constructor; try (vm_compute; reflexivity).
Qed.

(* a frame window: frames [1,2) of the three - the frame without people: zeros, every point missing *)
Definition ex_win : rargs := {| a_sf := Some 1%Z; a_st := None; a_ef := Some 2%Z; a_et := None |}.
(* the same window in milliseconds at 30 fps: floor (34 / 1000 * 30) = 1, ceil (66 / 1000 * 30) = 2 *)
Definition ex_time00 : rargs := {| a_sf := None; a_st := Some 34%Z; a_ef := None; a_et := Some 66%Z |}.
(* frames [2, 3): start by frame, end by time: ceil (100 / 1000 * 30) = 3 *)
Definition ex_mixed00 : rargs := {| a_sf := Some 2%Z; a_st := None; a_ef := None; a_et := Some 100%Z |}.
(* a window whose time bounds have been converted (the binary64 conversions are evaluated once, in ex00_times / ex01_times) *)
Lemma window_of_times fps F a s e : conflict (a_sf a) (a_st a) || conflict (a_ef a) (a_et a) = false ->
  resolve_start fps (a_sf a) (a_st a) = Ok s -> resolve_end fps (a_ef a) (a_et a) = Ok e ->
  window_of fps F a = Ok (start0 s, end0 e F).
Proof. unfold window_of. intros -> -> ->. reflexivity. Qed.
Lemma ex00_times :
  time_to_frame false 34 (fps_value (k0_fps ex00)) = Ok 1%Z /\ time_to_frame true 66 (fps_value (k0_fps ex00)) = Ok 2%Z /\
  time_to_frame true 100 (fps_value (k0_fps ex00)) = Ok 3%Z /\ time_to_frame false 100 (fps_value (k0_fps ex00)) = Ok 3%Z.
Proof. conjs; vm_compute; reflexivity. Qed.
Lemma ex00_window :
  window00 ex00 ex_win = Ok (1, 2)%Z /\ window00 ex00 ex_time00 = Ok (1, 2)%Z /\ window00 ex00 ex_mixed00 = Ok (2, 3)%Z /\
  time_to_frame true 100 (fps_value (k0_fps ex00)) = Ok 3%Z /\
  valid_window (frames00 ex00) 1 2 /\ valid_window (frames00 ex00) 2 3 /\
  fst (read_bytes c04_legacy None (spec00 ex00) ex_win) = Ok (v00_window_view ex00 1 2) /\
  fst (fst (read_stream4 c04_legacy None (spec00 ex00) ex_win)) = Ok (v00_window_view ex00 1 2) /\
  fst (read_bytes c04_legacy None (spec00 ex00) ex_time00) = Ok (v00_window_view ex00 1 2) /\
  fst (fst (read_stream4 c04_legacy None (spec00 ex00) ex_time00)) = Ok (v00_window_view ex00 1 2) /\
  fst (fst (read_stream4 c04_legacy None (spec00 ex00) ex_mixed00)) = Ok (v00_window_view ex00 2 3) /\
  b_shape (p_body (v00_window_view ex00 1 2)) = [1; 1; 3; 2] /\
  b_data (p_body (v00_window_view ex00 1 2)) = [0; 0; 0; 0; 0; 0] /\
  b_mask (p_body (v00_window_view ex00 1 2)) = [true; true; true] /\
  b_data (p_body (v00_window_view ex00 2 3)) = [f2; f1; fh; fh; f1; f1] /\
  b_conf (p_body (v00_window_view ex00 2 3)) = [fnan; fh; f1].
Proof.
  destruct ex00_wf as [Hw _]. destruct ex00_times as [T34 [T66 [T100 _]]].
  assert (W1 : window00 ex00 ex_win = Ok (1, 2)%Z) by reflexivity.
  assert (W2 : window00 ex00 ex_time00 = Ok (1, 2)%Z)
    by exact (window_of_times _ _ ex_time00 _ _ eq_refl (f_equal (rmap Some) T34) (f_equal (rmap Some) T66)).
  assert (W3 : window00 ex00 ex_mixed00 = Ok (2, 3)%Z)
    by exact (window_of_times _ _ ex_mixed00 (Some 2%Z) _ eq_refl eq_refl (f_equal (rmap Some) T100)).
  assert (V1 : valid_window (frames00 ex00) 1 2) by (split; [right|]; vm_compute; [reflexivity|discriminate]).
  assert (V2 : valid_window (frames00 ex00) 2 3) by (split; [right|]; vm_compute; [reflexivity|discriminate]).
  destruct (v00_read_window ex00 None ex_win [] 1 2 Hw I W1 V1) as [B1 S1].
  destruct (v00_read_window ex00 None ex_time00 [] 1 2 Hw I W2 V1) as [B2 S2].
  destruct (v00_read_window ex00 None ex_mixed00 [] 2 3 Hw I W3 V2) as [_ S3].
  rewrite app_nil_r in B1, S1, B2, S2, S3.
  conjs; try assumption; vm_compute; reflexivity.
Qed.
(* refused: a start at the frame count (by frame, and by time: floor (100 / 1000 * 30) = 3), a frame and a time bound for
   the same end *)
Definition ex_beyond00 : rargs := {| a_sf := Some 3%Z; a_st := None; a_ef := None; a_et := None |}.
Definition ex_beyond_time00 : rargs := {| a_sf := None; a_st := Some 100%Z; a_ef := Some 7%Z; a_et := None |}.
Definition ex_conflict : rargs := {| a_sf := Some 1%Z; a_st := Some 34%Z; a_ef := None; a_et := None |}.
Definition ex_conflict_end : rargs := {| a_sf := None; a_st := None; a_ef := Some 2%Z; a_et := Some 66%Z |}.
Lemma ex00_rejected :
  window00 ex00 ex_beyond00 = Ok (3, 3)%Z /\ window00 ex00 ex_beyond_time00 = Ok (3, 3)%Z /\ frames00 ex00 = 3%Z /\
  fst (read_bytes c04_legacy None (spec00 ex00) ex_beyond00) = Err Value /\
  fst (fst (read_stream4 c04_legacy None (spec00 ex00) ex_beyond_time00)) = Err Value /\
  conflict (a_sf ex_conflict) (a_st ex_conflict) || conflict (a_ef ex_conflict) (a_et ex_conflict) = true /\
  conflict (a_sf ex_conflict_end) (a_st ex_conflict_end) || conflict (a_ef ex_conflict_end) (a_et ex_conflict_end) = true /\
  fst (read_bytes c04_legacy None (spec00 ex00) ex_conflict) = Err Value /\
  fst (fst (read_stream4 c04_legacy None (spec00 ex00) ex_conflict_end)) = Err Value.
Proof.
  destruct ex00_wf as [Hw _]. destruct ex00_times as [_ [_ [_ T100]]].
  assert (W1 : window00 ex00 ex_beyond00 = Ok (3, 3)%Z) by reflexivity.
  assert (W2 : window00 ex00 ex_beyond_time00 = Ok (3, 3)%Z)
    by exact (window_of_times _ _ ex_beyond_time00 _ (Some 7%Z) eq_refl (f_equal (rmap Some) T100) eq_refl).
  destruct (v00_read_beyond ex00 None ex_beyond00 [] 3 3 Hw I W1 eq_refl (Z.le_refl 3)) as [B1 _].
  destruct (v00_read_beyond ex00 None ex_beyond_time00 [] 3 3 Hw I W2 eq_refl (Z.le_refl 3)) as [_ S2].
  destruct (v00_read_conflict ex00 None ex_conflict [] Hw I eq_refl) as [B3 _].
  destruct (v00_read_conflict ex00 None ex_conflict_end [] Hw I eq_refl) as [_ S4].
  rewrite app_nil_r in B1, S2, B3, S4. conjs; try assumption; reflexivity.
Qed.
Definition ex00_empty : content00 := {| k0_header := hdr 0; k0_fps := 30; k0_frames := [] |}.
Lemma ex00_empty_wf : wf00 ex00_empty /\ k0_frames ex00_empty = [].
Proof. split; [|reflexivity]. apply hdr_wf00; [vm_compute; reflexivity|constructor]. Qed.

Definition v01w : N := 1036831949.                (* float32 0.1 *)
Definition ex01 : content01 :=
  {| k1_header := hdr v01w; k1_fps := 25; k1_frames_field := 3; k1_people := 1;
     k1_data := [[f1; f2; f1; f1; f2; f2]; [fh; fh; fh; fh; fh; fh]; [f2; f1; f2; f1; f2; f1]];
     k1_conf := [[f1; 0; fm1]; [f1; f1; f1]; [fnan; fh; 0]] |}.
Lemma ex01_wf : wf01 ex01.
Proof.
  unfold wf01. cbn [k1_header k1_fps k1_frames_field k1_people k1_data k1_conf ex01].
  split; [apply hdr_wf; reflexivity|]. conjs.
  all: try (repeat constructor; vm_compute; reflexivity).
  all: vm_compute; discriminate.
Qed.
Definition ex_win01 : rargs := {| a_sf := Some 1%Z; a_st := None; a_ef := Some 2%Z; a_et := None |}.
Lemma ex01_window :
  window01 ex01 ex_win01 = Ok (1, 2)%Z /\ valid_window (frames01 ex01) 1 2 /\
  window01 ex01 no_args = Ok (0, 3)%Z /\ valid_window (frames01 ex01) 0 3 /\
  b_shape (p_body (v01_view ex01 1 2)) = [1; 1; 3; 2] /\
  b_data (p_body (v01_view ex01 1 2)) = [fh; fh; fh; fh; fh; fh] /\
  b_shape (p_body (v01_view ex01 0 3)) = [3; 1; 3; 2].
Proof.
  unfold valid_window. conjs; try (vm_compute; reflexivity).
  - right. vm_compute. reflexivity.
  - vm_compute. discriminate.
  - left. reflexivity.
  - vm_compute. discriminate.
Qed.

(* a recording of 70 000 frames: the 16-bit field holds 70000 mod 65536 = 4464 *)
Definition ex01_long : content01 :=
  {| k1_header := {| h_version := v01w; h_dims := (640, 480, 0); h_comps := [ex_comp2] |};
     k1_fps := 25; k1_frames_field := 4464; k1_people := 1;
     k1_data := repeat [f1; f2] (N.to_nat 70000); k1_conf := repeat [fh] (N.to_nat 70000) |}.
Lemma ex01_long_wf : wf01 ex01_long /\ frames01 ex01_long = 70000%Z /\ (65535 < frames01 ex01_long)%Z.
Proof.
  assert (Hl : lenN (k1_data ex01_long) = 70000) by (cbn [k1_data ex01_long]; rewrite lenN_repeat; lia).
  split; [|unfold frames01; rewrite Hl; split; [reflexivity|reflexivity]].
  unfold wf01. rewrite Hl. cbn [k1_header k1_fps k1_frames_field k1_people k1_data k1_conf ex01_long].
  split.
  { unfold wf_header. cbn [h_version h_dims h_comps]. split; [reflexivity|]. wf_strs. }
  split; [vm_compute; reflexivity|].
  do 3 (split; [vm_compute; reflexivity|]). do 3 (split; [vm_compute; discriminate|]).
  split; [now rewrite !repeat_length|]. split; [reflexivity|].
  split; apply Forall_repeat; (split; [vm_compute; reflexivity|repeat constructor; vm_compute; reflexivity]).
Qed.

(* a time window: [40 ms, 80 ms) at 25 fps is frames [1,2) *)
Definition ex_time01 : rargs := {| a_sf := None; a_st := Some 40%Z; a_ef := None; a_et := Some 80%Z |}.
Lemma ex01_times :
  time_to_frame false 40 (fps_value (k1_fps ex01)) = Ok 1%Z /\ time_to_frame true 80 (fps_value (k1_fps ex01)) = Ok 2%Z /\
  time_to_frame false 120 (fps_value (k1_fps ex01)) = Ok 3%Z.
Proof. conjs; vm_compute; reflexivity. Qed.
Lemma ex01_time_window :
  time_to_frame false 40 (fps_value (k1_fps ex01)) = Ok 1%Z /\ time_to_frame true 80 (fps_value (k1_fps ex01)) = Ok 2%Z /\
  window01 ex01 ex_time01 = Ok (1, 2)%Z /\
  fst (read_bytes c04_legacy None (spec01 ex01) ex_time01) = Ok (v01_view ex01 1 2) /\
  fst (fst (read_stream4 c04_legacy None (spec01 ex01) ex_time01)) = Ok (v01_view ex01 1 2) /\
  b_shape (p_body (v01_view ex01 1 2)) = [1; 1; 3; 2] /\
  b_conf (p_body (v01_view ex01 1 2)) = [f1; f1; f1].
Proof.
  destruct ex01_times as [T40 [T80 _]].
  assert (W : window01 ex01 ex_time01 = Ok (1, 2)%Z)
    by exact (window_of_times _ _ ex_time01 _ _ eq_refl (f_equal (rmap Some) T40) (f_equal (rmap Some) T80)).
  assert (V : valid_window (frames01 ex01) 1 2) by (split; [right|]; vm_compute; [reflexivity|discriminate]).
  destruct (v01_read_window ex01 None ex_time01 1 2 ex01_wf I W V) as [B S].
  conjs; [exact T40|exact T80|exact W|exact B|exact S|reflexivity|reflexivity].
Qed.
(* refused: a start at the frame count by frame and by time (floor (120 / 1000 * 25) = 3), a frame and a time bound for the
   same end *)
Definition ex_beyond01 : rargs := {| a_sf := Some 3%Z; a_st := None; a_ef := Some 5%Z; a_et := None |}.
Definition ex_beyond_time01 : rargs := {| a_sf := None; a_st := Some 120%Z; a_ef := None; a_et := None |}.
Lemma ex01_rejected :
  window01 ex01 ex_beyond01 = Ok (3, 3)%Z /\ window01 ex01 ex_beyond_time01 = Ok (3, 3)%Z /\ frames01 ex01 = 3%Z /\
  fst (read_bytes c04_legacy None (spec01 ex01) ex_beyond01) = Err Value /\
  fst (fst (read_stream4 c04_legacy None (spec01 ex01) ex_beyond_time01)) = Err Value /\
  fst (read_bytes c04_legacy None (spec01 ex01) ex_conflict) = Err Value /\
  fst (fst (read_stream4 c04_legacy None (spec01 ex01) ex_conflict_end)) = Err Value.
Proof.
  destruct ex01_times as [_ [_ T120]].
  assert (W1 : window01 ex01 ex_beyond01 = Ok (3, 3)%Z) by reflexivity.
  assert (W2 : window01 ex01 ex_beyond_time01 = Ok (3, 3)%Z)
    by exact (window_of_times _ _ ex_beyond_time01 _ None eq_refl (f_equal (rmap Some) T120) eq_refl).
  destruct (v01_read_beyond ex01 None ex_beyond01 3 3 ex01_wf I W1 eq_refl (Z.le_refl 3)) as [B1 _].
  destruct (v01_read_beyond ex01 None ex_beyond_time01 3 3 ex01_wf I W2 eq_refl (Z.le_refl 3)) as [_ S2].
  destruct (v01_read_conflict ex01 None ex_conflict ex01_wf I eq_refl) as [B3 _].
  destruct (v01_read_conflict ex01 None ex_conflict_end ex01_wf I eq_refl) as [_ S4].
  conjs; try assumption; reflexivity.
Qed.

Lemma ex_rewrite :
  (exists bs, write_pose (to_wpose (first_person_view ex00)) = Ok bs /\ lenN bs = 184) /\
  b_mask (p_body (rewrite_view (first_person_view ex00))) = b_mask (p_body (first_person_view ex00)) /\
  b_conf (p_body (rewrite_view (first_person_view ex00))) = b_conf (p_body (first_person_view ex00)).
Proof.
  (* the float32 -> float64 -> float32 trips of the nine confidences, evaluated once *)
  assert (H : map rt32 (b_conf (p_body (first_person_view ex00))) = b_conf (p_body (first_person_view ex00)))
    by (vm_compute; reflexivity).
  split; [eexists; split; [vm_compute; reflexivity|reflexivity]|].
  unfold rewrite_view. cbn [p_body b_mask b_conf]. rewrite H. split; reflexivity.
Qed.
