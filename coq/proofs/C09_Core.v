(* C09 - non-interference of the masked-array primitives: whatever is stored under the mask cannot be seen
   through them.  Everything is generic in the numeric instance (no law of the operations is used). *)
From Coq Require Import List Arith Bool Lia.
Require Import Tensor Num C09_Masked.
Import ListNotations.

Section Core.
Variable O : ops.
Variable E : ext O.
Notation T := (Num.T O).
Notation cell := (cell O).
Notation vis1 := (vis1 O).
Notation rd := (rd O).
Notation dcell := (dcell O).

Lemma vis1_eq (c c' : cell) :
  vis1 c = vis1 c' <-> snd c = snd c' /\ (snd c = false -> fst c = fst c').
Proof.
  destruct c as [v m], c' as [v' m']; unfold C09_Masked.vis1; cbn [fst snd]. split.
  - intros H. destruct m, m'; inversion H; subst; split; auto; intros; discriminate.
  - intros [Hm Hv]. subst m'. destruct m; [reflexivity|]. now rewrite Hv.
Qed.
Lemma vis1_idem (c : cell) : vis1 (vis1 c) = vis1 c.
Proof. destruct c as [v m]; unfold C09_Masked.vis1; cbn [fst snd]. now destruct m. Qed.
Lemma vis1_snd (c c' : cell) : vis1 c = vis1 c' -> snd c = snd c'.
Proof. intros H. now apply vis1_eq in H. Qed.
Lemma vis1_fst (c c' : cell) : vis1 c = vis1 c' -> snd c = false -> fst c = fst c'.
Proof. intros H. apply vis1_eq in H. tauto. Qed.
Lemma vis1_masked (c : cell) : snd c = true -> vis1 c = dcell.
Proof. destruct c as [v m]; cbn [snd]. now intros ->. Qed.
Lemma vis1_unmasked (c c' : cell) : vis1 c = vis1 c' -> snd c = false -> c = c'.
Proof. intros H Hm. rewrite (surjective_pairing c), (surjective_pairing c'), <- (vis1_snd _ _ H), <- (vis1_fst _ _ H Hm).
  reflexivity. Qed.

(* respecting the observation: unary, binary, to a plain value *)
Definition VC1 (g : cell -> cell) := forall c c', vis1 c = vis1 c' -> vis1 (g c) = vis1 (g c').
Definition VC2 (g : cell -> cell -> cell) :=
  forall a a' b b', vis1 a = vis1 a' -> vis1 b = vis1 b' -> vis1 (g a b) = vis1 (g a' b').
Definition VI1 {X} (h : cell -> X) := forall c c', vis1 c = vis1 c' -> h c = h c'.
Definition VCL (red : list cell -> cell) := forall l l', agree_l O l l' -> vis1 (red l) = vis1 (red l').
Definition VIL {X} (red : list cell -> X) := forall l l', agree_l O l l' -> red l = red l'.

(* An operation whose result is masked whenever an operand is respects the observation: with a masked operand
   both results are masked, and unmasked operands that look the same are the same.  Every cell operation of
   numpy.ma and of MaskedTensor is of this kind. *)
Lemma VC1_strict g : (forall a, snd a = true -> snd (g a) = true) -> VC1 g.
Proof. intros Hg c c' H. destruct (snd c) eqn:M.
  - rewrite (vis1_masked _ (Hg c M)). rewrite (vis1_snd _ _ H) in M. now rewrite (vis1_masked _ (Hg c' M)).
  - now rewrite (vis1_unmasked _ _ H M). Qed.
Lemma VC2_strict g : (forall a b, snd a || snd b = true -> snd (g a b) = true) -> VC2 g.
Proof. intros Hg a a' b b' Ha Hb. destruct (snd a || snd b) eqn:M.
  - rewrite (vis1_masked _ (Hg a b M)). rewrite (vis1_snd _ _ Ha), (vis1_snd _ _ Hb) in M. now rewrite (vis1_masked _ (Hg a' b' M)).
  - apply orb_false_iff in M. destruct M as [Ma Mb]. now rewrite (vis1_unmasked _ _ Ha Ma), (vis1_unmasked _ _ Hb Mb). Qed.

Lemma VC2_mbin f : VC2 (mbin O f).
Proof. apply VC2_strict. intros a b M. exact M. Qed.
Lemma VC2_mdiv : VC2 (mdiv O E).
Proof. apply VC2_strict. intros a b M. unfold mdiv; cbn [snd]. rewrite <- !orb_assoc, (orb_assoc (snd a)), M. apply orb_true_r. Qed.
Lemma VC2_misub : VC2 (misub O).
Proof. apply VC2_strict. intros a b M. exact M. Qed.
Lemma VC2_mimul : VC2 (mimul O).
Proof. apply VC2_strict. intros a b M. exact M. Qed.
Lemma VC2_tbin f : VC2 (tbin O f).
Proof. apply VC2_strict. intros a b M. exact M. Qed.
Lemma VC1_mpow pw : VC1 (mpow O E pw).
Proof. apply VC1_strict. intros a M. unfold mpow; cbn [snd]. now rewrite M. Qed.
Lemma VC1_msqrt : VC1 (msqrt O).
Proof. apply VC1_strict. intros a M. unfold msqrt; cbn [snd]. rewrite M. apply orb_true_r. Qed.
Lemma VC1_tun f : VC1 (tun O f).
Proof. apply VC1_strict. intros a M. exact M. Qed.
Lemma VC1_tfixnan : VC1 (tfixnan O).
Proof. apply VC1_strict. intros a M. exact M. Qed.
Lemma VC1_vis_filled : VC1 (fun x => (filled O (zero O) x, snd x)).
Proof. apply VC1_strict. intros a M. exact M. Qed.
Lemma VC1_diag g : VC2 g -> VC1 (fun c => g c c).
Proof. intros H c c' Hc. now apply H. Qed.
Lemma VC1_left g b : VC2 g -> VC1 (fun c => g c b).
Proof. intros H c c' Hc. now apply H. Qed.
(* a plain value read through the zero-filled view *)
Lemma VI1_vis {X} (h : cell -> X) : (forall c, h c = h (vis1 c)) -> VI1 h.
Proof. intros Hh c c' H. now rewrite (Hh c), (Hh c'), H. Qed.
Lemma VI1_filled c0 : VI1 (filled O c0).
Proof. apply VI1_vis. intros [v []]; reflexivity. Qed.
Lemma VI1_tzero : VI1 (tzero O).
Proof. apply VI1_vis. intros [v []]; reflexivity. Qed.
Lemma VI1_snd : VI1 (fun c : cell => snd c).
Proof. intros c c' H. now apply vis1_snd. Qed.

Lemma tab_ext {X} n (f g : nat -> X) : (forall k, f k = g k) -> tab n f = tab n g.
Proof. intros H. unfold tab. apply map_ext. exact H. Qed.
Lemma tab_ext_lt {X} n (f g : nat -> X) : (forall k, k < n -> f k = g k) -> tab n f = tab n g.
Proof. intros H. unfold tab. apply map_ext_in. intros k Hk. apply in_seq in Hk. apply H. lia. Qed.
Lemma map_tab {X Y} (h : X -> Y) n f : map h (tab n f) = tab n (fun k => h (f k)).
Proof. unfold tab. now rewrite map_map. Qed.
Lemma tab_length {X} n (f : nat -> X) : length (tab n f) = n.
Proof. unfold tab. now rewrite map_length, seq_length. Qed.
Lemma agree_l_len l l' : agree_l O l l' -> length l = length l'.
Proof. intros H. apply (f_equal (@length _)) in H. now rewrite !map_length in H. Qed.
Lemma vis1_dcell : vis1 dcell = dcell.
Proof. reflexivity. Qed.
Lemma rd_vis l l' i : agree_l O l l' -> vis1 (rd l i) = vis1 (rd l' i).
Proof. intros H. unfold C09_Masked.rd.
  rewrite <- (map_nth vis1 l dcell i), <- (map_nth vis1 l' dcell i). now rewrite H. Qed.
Lemma agree_l_refl l : agree_l O l l. Proof. reflexivity. Qed.
Lemma vis1_refl (c : cell) : vis1 c = vis1 c. Proof. reflexivity. Qed.
Lemma agree_l_tab n f g : (forall k, vis1 (f k) = vis1 (g k)) -> agree_l O (tab n f) (tab n g).
Proof. intros H. unfold agree_l. rewrite !map_tab. now apply tab_ext. Qed.
(* the cells read at the same positions *)
Lemma gather_agree n (h : nat -> nat) l l' : agree_l O l l' -> agree_l O (tab n (fun k => rd l (h k))) (tab n (fun k => rd l' (h k))).
Proof. intros H. apply agree_l_tab. intros k. now apply rd_vis. Qed.
Lemma agree_l_tab_lt n f g : (forall k, k < n -> vis1 (f k) = vis1 (g k)) -> agree_l O (tab n f) (tab n g).
Proof. intros H. unfold agree_l. rewrite !map_tab. now apply tab_ext_lt. Qed.
Lemma agree_l_app a a' b b' : agree_l O a a' -> agree_l O b b' -> agree_l O (a ++ b) (a' ++ b').
Proof. unfold agree_l. intros H1 H2. now rewrite !map_app, H1, H2. Qed.
Lemma cons_inj {X} (a b : X) l m : a :: l = b :: m -> a = b /\ l = m.
Proof. intros H. injection H as H1 H2. now split. Qed.
(* lists that agree have the same length and agree cell by cell *)
Lemma agree_l_ind (P : list cell -> list cell -> Prop) :
  P [] [] -> (forall c c' l l', vis1 c = vis1 c' -> agree_l O l l' -> P l l' -> P (c :: l) (c' :: l')) ->
  forall l l', agree_l O l l' -> P l l'.
Proof. intros Hnil Hcons. unfold agree_l. induction l as [|c l IH]; intros [|c' l'] H; cbn [map] in H; try discriminate; [exact Hnil|].
  apply cons_inj in H. destruct H as [Hc Hl]. apply Hcons; [exact Hc|exact Hl|now apply IH]. Qed.
Lemma map_VI1 {X} (h : cell -> X) l l' : VI1 h -> agree_l O l l' -> map h l = map h l'.
Proof. intros Hh. revert l l'. apply agree_l_ind; [reflexivity|]. intros c c' l l' Hc _ IH. cbn [map]. now rewrite (Hh _ _ Hc), IH. Qed.
Lemma agree_l_map g l l' : VC1 g -> agree_l O l l' -> agree_l O (map g l) (map g l').
Proof. intros Hg H. unfold agree_l. rewrite !map_map. exact (map_VI1 (fun c => vis1 (g c)) l l' Hg H). Qed.

(* elementwise combinators *)
Lemma ew_agree g a a' b b' : VC2 g -> agree_l O a a' -> agree_l O b b' -> agree_l O (ew O g a b) (ew O g a' b').
Proof. intros Hg Ha Hb. unfold ew. rewrite <- (agree_l_len _ _ Ha). apply agree_l_tab. intros k. apply Hg; now apply rd_vis. Qed.
Lemma ew1_agree g a a' : VC1 g -> agree_l O a a' -> agree_l O (ew1 O g a) (ew1 O g a').
Proof. intros Hg Ha. unfold ew1. rewrite <- (agree_l_len _ _ Ha). apply agree_l_tab. intros k. apply Hg; now apply rd_vis. Qed.
Lemma ew_trail_agree g l l' inner s s' : VC2 g -> agree_l O l l' -> agree_l O s s' ->
  agree_l O (ew_trail O g l inner s) (ew_trail O g l' inner s').
Proof. intros Hg Ha Hb. unfold ew_trail. rewrite <- (agree_l_len _ _ Ha). apply agree_l_tab. intros k. apply Hg; now apply rd_vis. Qed.
Lemma ew_scalar_agree g l l' s s' : VC2 g -> agree_l O l l' -> vis1 s = vis1 s' ->
  agree_l O (ew_scalar O g l s) (ew_scalar O g l' s').
Proof. intros Hg Ha Hs. unfold ew_scalar. rewrite <- (agree_l_len _ _ Ha). apply agree_l_tab. intros k. apply Hg; [now apply rd_vis|exact Hs]. Qed.

(* lanes and reductions *)
Lemma lane_lead_agree outer inner l l' j : agree_l O l l' -> agree_l O (lane_lead O outer inner l j) (lane_lead O outer inner l' j).
Proof. apply gather_agree. Qed.
Lemma lane_last_agree D l l' n : agree_l O l l' -> agree_l O (lane_last O D l n) (lane_last O D l' n).
Proof. apply gather_agree. Qed.
Lemma red_lead_VIL {X} outer inner (red : list cell -> X) l l' : VIL red -> agree_l O l l' ->
  red_lead O outer inner red l = red_lead O outer inner red l'.
Proof. intros Hr H. unfold red_lead. apply tab_ext. intros j. apply Hr. now apply lane_lead_agree. Qed.
Lemma red_last_VIL {X} n D (red : list cell -> X) l l' : VIL red -> agree_l O l l' ->
  red_last O n D red l = red_last O n D red l'.
Proof. intros Hr H. unfold red_last. apply tab_ext. intros j. apply Hr. now apply lane_last_agree. Qed.
Lemma red_last_VCL n D red l l' : VCL red -> agree_l O l l' ->
  agree_l O (red_last O n D red l) (red_last O n D red l').
Proof. intros Hr H. unfold red_last. apply agree_l_tab. intros j. apply Hr. now apply lane_last_agree. Qed.
Lemma red_lead_VCL outer inner red l l' : VCL red -> agree_l O l l' ->
  agree_l O (red_lead O outer inner red l) (red_lead O outer inner red l').
Proof. intros Hr H. unfold red_lead. apply agree_l_tab. intros j. apply Hr. now apply lane_lead_agree. Qed.

Lemma VIL_VCL red : VIL red -> VCL red.
Proof. intros Hr l l' H. now rewrite (Hr l l' H). Qed.

Lemma VIL_allmasked : VIL (allmasked O).
Proof. unfold VIL. apply agree_l_ind; [reflexivity|]. intros c c' l l' Hc _ IH. unfold allmasked in *. cbn [forallb]. now rewrite (vis1_snd _ _ Hc), IH. Qed.
Lemma VIL_count : VIL (count O).
Proof. unfold VIL. apply agree_l_ind; [reflexivity|]. intros c c' l l' Hc _ IH. unfold count in *. cbn [filter]. rewrite (vis1_snd _ _ Hc).
  destruct (snd c'); cbn [negb length]; now rewrite IH. Qed.
Lemma VIL_msum : VIL (msum O).
Proof. intros l l' H. unfold msum. rewrite (map_VI1 _ _ _ (VI1_filled _) H), (VIL_allmasked _ _ H). reflexivity. Qed.
Lemma VIL_mmin : VIL (mmin O E).
Proof. intros l l' H. unfold mmin. rewrite (map_VI1 _ _ _ (VI1_filled _) H), (VIL_allmasked _ _ H). reflexivity. Qed.
Lemma VIL_mmax : VIL (mmax O E).
Proof. intros l l' H. unfold mmax. rewrite (map_VI1 _ _ _ (VI1_filled _) H), (VIL_allmasked _ _ H). reflexivity. Qed.
Lemma VIL_mmean : VIL (mmean O E).
Proof. intros l l' H. unfold mmean. now rewrite (VIL_msum _ _ H), (VIL_count _ _ H). Qed.
Lemma VIL_mstd : VIL (mstd O E).
Proof. intros l l' H. unfold mstd. rewrite (VIL_mmean _ _ H), (VIL_count _ _ H), (VIL_allmasked _ _ H).
  assert (Hd : agree_l O (map (fun c => mimul O c c) (map (fun c => mbin O (sub O) c (mmean O E l')) l))
                         (map (fun c => mimul O c c) (map (fun c => mbin O (sub O) c (mmean O E l')) l'))).
  { apply agree_l_map; [apply VC1_diag, VC2_mimul|]. apply agree_l_map; [apply VC1_left, VC2_mbin|exact H]. }
  now rewrite (VIL_msum _ _ Hd). Qed.
Lemma existsb_snd_agree l l' : agree_l O l l' -> existsb snd l = existsb snd l'.
Proof. revert l l'. apply agree_l_ind; [reflexivity|]. intros c c' l l' Hc _ IH. cbn [existsb]. now rewrite (vis1_snd _ _ Hc), IH. Qed.
Lemma map_fst_agree l l' : agree_l O l l' -> existsb snd l = false -> map fst l = map fst l'.
Proof. revert l l'. apply (agree_l_ind (fun l l' => existsb snd l = false -> map fst l = map fst l')); [reflexivity|].
  intros c c' l l' Hc _ IH Hn. cbn [map existsb] in *.
  apply orb_false_iff in Hn. destruct Hn as [Hm Hl]. now rewrite (vis1_fst _ _ Hc Hm), (IH Hl). Qed.
Lemma VCL_tsum : VCL (tsum O).
Proof. intros l l' H. unfold tsum. apply vis1_eq; cbn [fst snd].
  split; [now apply existsb_snd_agree|]. intros Hn. now rewrite (map_fst_agree _ _ H Hn). Qed.

End Core.

(* [auto with ni nocore] shows that a composition of the combinators above respects the observation
   (nocore: no attempt to convert the two sides of an equation between large terms).  C09_NI.v, C09_NI2.v and
   C09_NI3.v add their own agreement lemmas to [ni] as they prove them. *)
Create HintDb ni.
#[export] Hint Resolve VC2_mbin VC2_mdiv VC2_misub VC2_mimul VC2_tbin VC1_mpow VC1_msqrt VC1_tun VC1_tfixnan VC1_vis_filled
  VC1_left VI1_filled VI1_tzero VIL_VCL VIL_allmasked VIL_count VIL_msum VIL_mmin VIL_mmax VIL_mmean VIL_mstd VCL_tsum
  agree_l_refl vis1_refl gather_agree agree_l_map rd_vis map_VI1 ew_agree ew1_agree ew_trail_agree ew_scalar_agree
  lane_lead_agree lane_last_agree red_lead_VIL red_last_VIL red_lead_VCL red_last_VCL : ni.
