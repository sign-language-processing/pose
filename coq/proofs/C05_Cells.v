(* C05: frameRepresentation over two flat arrays that are row-major tensors of shape (F,P,T,D) / (F,P,T):
   every cell looked up by component name and letter is the tensor cell the Python body holds. *)
From Coq Require Import ZArith NArith List Lia ZifyBool ZifyN ZifyNat Bool Arith.
Require Import ListN Result Bytes Tensor Codec C05_JsParser C05_View C05_Lemmas C05_Header C05_HeaderView C05_Body C05_Index.
Import ListNotations.
Open Scope nat_scope.

(* index of a component's first point among all points (components are concatenated in header order) *)
Definition point_offset (cs : list component) (n : nat) : nat :=
  fold_right Nat.add 0 (map (fun c => length (c_points c)) (firstn n cs)).
Lemma koff_offset cs : forall n, koff (firstn n (map jcomp_of_comp cs)) = Z.of_nat (point_offset cs n).
Proof.
  unfold koff, point_offset. induction cs as [|c cs IH]; intros [|n]; cbn [firstn map fold_right]; try reflexivity.
  rewrite IH. cbn [jc_plen jcomp_of_comp]. unfold lenN. lia.
Qed.
Lemma offset_bound cs : forall n c, nth_error cs n = Some c ->
  point_offset cs n + length (c_points c) <= N.to_nat (sumN (map (fun c => lenN (c_points c)) cs)).
Proof.
  unfold point_offset, sumN, lenN. induction cs as [|c0 cs IH]; intros [|n] c Hn; cbn [nth_error firstn map fold_right] in *; try discriminate.
  - injection Hn as ->. lia.
  - specialize (IH n c Hn). lia.
Qed.

Lemma f32_at_tget shape (a : list N) ix : length a = prod shape -> in_range shape ix ->
  f32_at a (Z.of_nat (ravel shape ix)) = VF32 (tget 0%N (mkT shape a) ix).
Proof. intros Hl Hr. apply f32_at_nth. rewrite Hl. now apply ravel_lt. Qed.

Theorem js_cells_eq (cs : list component) (F P T D : N) info data conf :
  Forall comp_no_bom cs -> T = sumN (map (fun c => lenN (c_points c)) cs) ->
  lenN data = (F * P * T * D)%N -> lenN conf = (F * P * T)%N ->
  let jb := {| jb_info := info; jb_frames := Z.of_N F; jb_people := Z.of_N P; jb_points := Z.of_N T; jb_dims := Z.of_N D;
               jb_data := data; jb_conf := conf |} in
  let F := N.to_nat F in let P := N.to_nat P in let T := N.to_nat T in let D := N.to_nat D in
  forall i j n l c, i < F -> j < P -> nth_error cs n = Some c -> l < length (c_points c) ->
    ~ In (c_name c) (map c_name (skipn (S n) cs)) ->
    let t := point_offset cs n + l in
    js_cell (js_frame_rep (map jcomp_of_comp cs) jb (Z.of_nat i)) j (c_name c) l 67
      = Some (VF32 (tget 0%N (mkT [F; P; T] conf) [i; j; t])) /\
    forall d x, nth_error (c_format c) d = Some x -> x <> 67%N -> coord_index (c_format c) d < D -> ~ In x (skipn (S d) (c_format c)) ->
      js_cell (js_frame_rep (map jcomp_of_comp cs) jb (Z.of_nat i)) j (c_name c) l x
      = Some (VF32 (tget 0%N (mkT [F; P; T; D] data) [i; j; t; coord_index (c_format c) d])).
Proof.
  intros Hnb ET Hld Hlc jb F' P' T' D' i j n l c Hi Hj Hn Hl Hlater t.
  destruct (jcomp_nth cs n c Hnb Hn Hlater) as [Hname [Hfmt [Hn' Hlater']]].
  assert (Hj' : j < Z.to_nat (jb_people jb)) by (cbn [jb jb_people]; lia).
  assert (Hl' : l < Z.to_nat (jc_plen (jcomp_of_comp c))) by (cbn [jcomp_of_comp jc_plen]; unfold lenN; lia).
  destruct (js_cell_lookup (map jcomp_of_comp cs) jb i j n l (jcomp_of_comp c) Hj' Hn' Hl' Hlater') as [HC HX].
  rewrite Hname in HC, HX. rewrite Hfmt in HX.
  assert (Ht : t < T').
  { unfold t, T'. rewrite ET. pose proof (offset_bound _ _ _ Hn). lia. }
  assert (Eplace : js_place (js_offset (Z.of_nat i) (jb_people jb) (jb_points jb) (Z.of_nat j))
                            (koff (firstn n (map jcomp_of_comp cs))) (Z.of_nat l)
                   = Z.of_nat (ravel [F'; P'; T'] [i; j; t])).
  { unfold t. rewrite koff_offset, <- (js_place_ravel F'). cbn [jb jb_people jb_points]. unfold P', T'. now rewrite !N_nat_Z. }
  split.
  - rewrite HC, Eplace.
    f_equal. apply f32_at_tget; [|repeat constructor; assumption].
    cbn [prod fold_right jb jb_conf]. unfold lenN in Hlc. lia.
  - intros d x Hd Hx HdD Hxl. rewrite (HX d x Hd Hx Hxl), Eplace. cbn [jb jb_dims]. replace (Z.of_N D) with (Z.of_nat D') by (unfold D'; lia).
    rewrite js_data_index_cell. f_equal. apply f32_at_tget; [|repeat constructor; assumption].
    cbn [prod fold_right jb jb_data]. unfold lenN in Hld. lia.
Qed.
