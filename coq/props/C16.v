(* C16 - Frame selection, stepping and dropout return real frames in order.
   Theorems about the model coq/model/C16_Frames.v (statement by statement after pose_body.py:360-378,530-620,
   tensorflow/pose_body.py:52-143, pose.py:191-227,346-383).
   A body is fps + three parallel per-frame channels (values, validity, confidence); [body_at x b idx] is the body made of
   the frames idx of b, in that order, on all three channels, with b's frame rate.  Randomness is an argument:
   [s] = what random.sample returned ([possible_draw]: right size, duplicate-free, in range), [perm] = what
   tf.random.shuffle returned (a permutation of range n).  No bound on the number of frames except where stated. *)
From Coq Require Import ZArith List Bool Arith Sorted Permutation SpecFloat QArith_base.
Require Import Result F32 C16_Frames C16_Run C16_Lists C16_Select C16_Dropout C16_Cap C16_CapAll C16_TF Gen_C16.
Require C16_GenTie.
Import ListNotations.
Local Open Scope nat_scope.

(* selecting frames: exactly the requested frames, in the requested order, on every backend *)
Theorem select_exact : forall A (x : A) be (b : body A) idx,
  wf_body b -> Forall (fun i => i < frames b) idx -> (be = TF -> idx <> []) ->
  select_frames be b (map Z.of_nat idx) = Ok (body_at x b idx).
Proof. exact @C16_Select.select_exact. Qed.
Print Assumptions select_exact.
(* (tf.gather of an empty Python list raises: the only excluded case.)  Whatever is returned is the requested frames: *)
Theorem select_returns_only_requested : forall A (x : A) be (b : body A) idx r,
  select_frames be b (map Z.of_nat idx) = Ok r -> r = body_at x b idx /\ Forall (fun i => i < frames b) idx.
Proof. exact @C16_Select.select_ok_inv. Qed.
Print Assumptions select_returns_only_requested.
Theorem select_out_of_range_refused : forall A be (b : body A) idx i,
  wf_body b -> In i idx -> frames b <= i -> exists e, select_frames be b (map Z.of_nat idx) = Err e.
Proof. intros A be b idx i _. apply C16_Select.select_out_of_range. Qed.
Print Assumptions select_out_of_range_refused.
Example select_example :
  select_frames Torch (mkB (sf64_of_Z 30) [10;11;12;13] [20;21;22;23] [30;31;32;33]) [3;1;1]%Z
  = Ok (mkB (sf64_of_Z 30) [13;11;11] [23;21;21] [33;31;31]).
Proof. exact C16_Select.select_example. Qed.
Print Assumptions select_example.

(* stepping by k >= 1: frames 0, k, 2k, ... (all multiples of k below n) and fps / k in binary64 *)
Theorem step_frames_and_fps : forall A (x : A) be (b : body A) (k : positive) r,
  wf_body b -> slice_step be b (Zpos k) = Ok r ->
  r = body_at x (mkB (sf64_div (fps b) (sf64_of_Z (Zpos k))) (dat b) (msk b) (cnf b)) (step_indexes (frames b) (Pos.to_nat k)).
Proof. exact @C16_Select.step_frames_and_fps. Qed.
Print Assumptions step_frames_and_fps.
Theorem step_indexes_are_the_multiples : forall n k, 1 <= k ->
  forall i, In i (step_indexes n k) <-> (exists j, i = j * k /\ i < n).
Proof. exact C16_Select.step_indexes_spec. Qed.
Print Assumptions step_indexes_are_the_multiples.
Theorem step_returns : forall A be (b : body A) (k : positive),
  is_inf_sf (sf64_of_Z (Zpos k)) = false -> exists r, slice_step be b (Zpos k) = Ok r.
Proof. intros A be b k H. unfold slice_step. rewrite H. eexists. reflexivity. Qed.
Print Assumptions step_returns.
Example step_example :
  slice_step TF (mkB (sf64_of_Z 30) [10;11;12;13;14] [20;21;22;23;24] [30;31;32;33;34]) 2
  = Ok (mkB (sf64_of_Z 15) [10;12;14] [20;22;24] [30;32;34]).
Proof. exact C16_Select.step_example. Qed.
Print Assumptions step_example.

(* generic dropout (NumPy, PyTorch): given / uniform / normal variants ([d : draw]), cap constant c *)
Theorem kept_sorted_in_range : forall A c be (b : body A) d s r kept,
  dropout c be b d s = Ok (r, kept) -> StronglySorted lt kept /\ Forall (fun i => i < frames b) kept.
Proof. exact @C16_Dropout.kept_sorted_in_range. Qed.
Print Assumptions kept_sorted_in_range.
Theorem pose_is_those_frames : forall A (x : A) c be (b : body A) d s r kept,
  dropout c be b d s = Ok (r, kept) -> r = body_at x b kept.
Proof. exact @C16_Dropout.pose_is_those_frames. Qed.
Print Assumptions pose_is_those_frames.
Theorem zero_fraction_drops_nothing : forall A c be (b : body A) d sg s r kept,
  fraction d = S754_zero sg -> possible_draw c (frames b) (fraction d) s ->
  dropout c be b d s = Ok (r, kept) -> kept = seq 0 (frames b).
Proof. exact @C16_Dropout.zero_fraction_drops_nothing. Qed.
Print Assumptions zero_fraction_drops_nothing.
(* the kept frames are exactly the ones not drawn; their number is n - min(int(n*p), int(n*c)) *)
Theorem dropped_are_the_drawn : forall A c be (b : body A) d s r kept,
  possible_draw c (frames b) (fraction d) s -> dropout c be b d s = Ok (r, kept) ->
  exists a kc, asked_count (frames b) (fraction d) = Ok a /\ cap_count c (frames b) = Ok kc /\
               (0 <= Z.min a kc <= Z.of_nat (frames b))%Z /\
               Z.of_nat (length kept) = (Z.of_nat (frames b) - Z.min a kc)%Z /\
               forall i, In i kept <-> i < frames b /\ ~ In i s.
Proof. exact @C16_Dropout.dropped_count. Qed.
Print Assumptions dropped_are_the_drawn.
(* x = the binary64 product n * p (bit-exact); unless capped, dropped = a with a <= x < a + 1, i.e. |dropped - n*p| < 1;
   when capped, dropped = int(n * c) *)
Theorem drops_about_the_fraction : forall A c be (b : body A) d s r kept x,
  possible_draw c (frames b) (fraction d) s -> dropout c be b d s = Ok (r, kept) ->
  int_times_float (frames b) (fraction d) = Ok x -> sf_nonneg x = true ->
  exists a kc, cap_count c (frames b) = Ok kc /\ asked_count (frames b) (fraction d) = Ok a /\
    Qle (inject_Z a) (sf_Q x) /\ Qlt (sf_Q x) (inject_Z (a + 1)) /\
    ((a <= kc)%Z -> Z.of_nat (frames b - length kept) = a) /\
    ((kc < a)%Z -> Z.of_nat (frames b - length kept) = kc).
Proof. exact @C16_Dropout.drops_about_the_fraction. Qed.
Print Assumptions drops_about_the_fraction.
(* at least one frame is kept.  The cap constant is the one regenerated from the source (cap_c = Gen_C16.dropout_cap_bits).
   (i) closed proof for 1 <= n <= 65536 (from the definitions of SpecFloat; the argument of proofs/C16_Cap.v holds below 2^52);
   (ii) for any n under the hypothesis 0 <= int(n * c) < n;  (iii) for every n, using Flocq (real-number axioms and classic). *)
Theorem keeps_at_least_one : forall A be (b : body A) d s r kept,
  1 <= frames b -> (Z.of_nat (frames b) <= CAP_BOUND)%Z ->
  possible_draw cap_c (frames b) (fraction d) s -> dropout cap_c be b d s = Ok (r, kept) -> 1 <= length kept.
Proof. exact @C16_Cap.keeps_one_upto_bound. Qed.
Print Assumptions keeps_at_least_one.
Theorem keeps_at_least_one_beyond : forall A c be (b : body A) d s r kept,
  cap_ok c (frames b) -> possible_draw c (frames b) (fraction d) s -> dropout c be b d s = Ok (r, kept) -> 1 <= length kept.
Proof. exact @C16_Dropout.keeps_one_if_cap_ok. Qed.
Print Assumptions keeps_at_least_one_beyond.
Theorem keeps_at_least_one_every_n : forall A be (b : body A) d s r kept,
  1 <= frames b -> possible_draw cap_c (frames b) (fraction d) s -> dropout cap_c be b d s = Ok (r, kept) -> 1 <= length kept.
Proof. exact @C16_CapAll.keeps_one_every_n. Qed.
Print Assumptions keeps_at_least_one_every_n.
Example possible_draw_example : possible_draw c99 10 p03 [7; 2; 5].
Proof. exact C16_Dropout.possible_draw_example. Qed.
Print Assumptions possible_draw_example.
Example dropout_example :
  dropout c99 NumPy ex_body (Given p03) [7; 2; 5]
  = Ok (mkB (sf64_of_Z 30) [10;11;13;14;16;18;19] [20;21;23;24;26;28;29] [30;31;33;34;36;38;39], [0;1;3;4;6;8;9]).
Proof. exact C16_Dropout.dropout_example. Qed.
Print Assumptions dropout_example.
Example zero_draw_example : possible_draw c99 10 (S754_zero true) [].
Proof. exact C16_Dropout.zero_draw_example. Qed.
Print Assumptions zero_draw_example.
Example cap_ok_example : cap_ok c99 200.
Proof. exact C16_Dropout.cap_ok_example. Qed.
Print Assumptions cap_ok_example.
Example capped_example : drop_count c99 200 (sf64_of_Z 1) = Ok 198%Z.
Proof. exact C16_Dropout.capped_example. Qed.
Print Assumptions capped_example.
Example nonneg_example : exists x, int_times_float 10 p03 = Ok x /\ sf_nonneg x = true /\ sf_trunc x = Some 3%Z.
Proof. exact C16_Dropout.nonneg_example. Qed.
Print Assumptions nonneg_example.

(* pose level: the wrappers pass the header on and do what the body does *)
Theorem pose_dropout_keeps_header : forall H A (ps : pose H A) res ps' kept,
  with_header ps res = Ok (ps', kept) -> header ps' = header ps /\ res = Ok (pbody ps', kept).
Proof. intros H A ps res ps' kept. unfold with_header. destruct res as [[b k]|e]; cbn [rbind fst snd]; [|discriminate].
  intros [= <- <-]. split; reflexivity. Qed.
Print Assumptions pose_dropout_keeps_header.
Theorem pose_slice_step_keeps_header : forall H A be (ps : pose H A) by' ps',
  pose_slice_step listed_slice_step header_has_slice_step be ps by' = Ok ps' ->
  header ps' = header ps /\ slice_step be (pbody ps) by' = Ok (pbody ps').
Proof. (* the two flags are regenerated facts: the name is a pass-through method and no attribute of the header *)
  intros H A. unfold listed_slice_step.
  destruct C16_GenTie.slice_step_pass_through_tie as [-> [_ [-> _]]]. exact (@C16_Select.pose_slice_step_inv H A). Qed.
Print Assumptions pose_slice_step_keeps_header.

(* TensorFlow dropout (float32 arithmetic, keeps max(1, n - int32(n * p)) frames); every n *)
Theorem tf_kept_sorted_in_range : forall A (b : body A) d perm r kept,
  Permutation perm (seq 0 (frames b)) -> tf_dropout b d perm = Ok (r, kept) ->
  StronglySorted lt kept /\ Forall (fun i => i < frames b) kept.
Proof. exact @C16_TF.tf_kept_sorted_in_range. Qed.
Print Assumptions tf_kept_sorted_in_range.
Theorem tf_pose_is_those_frames : forall A (x : A) (b : body A) d perm r kept,
  tf_dropout b d perm = Ok (r, kept) -> r = body_at x b kept.
Proof. exact @C16_TF.tf_pose_is_those_frames. Qed.
Print Assumptions tf_pose_is_those_frames.
Theorem tf_zero_fraction_drops_nothing : forall A (b : body A) d sg perm r kept,
  tf_fraction d = S754_zero sg -> Permutation perm (seq 0 (frames b)) ->
  tf_dropout b d perm = Ok (r, kept) -> kept = seq 0 (frames b).
Proof. exact @C16_TF.tf_zero_fraction_drops_nothing. Qed.
Print Assumptions tf_zero_fraction_drops_nothing.
Theorem tf_drops_about_the_fraction : forall A (b : body A) d perm r kept,
  1 <= frames b -> Permutation perm (seq 0 (frames b)) -> tf_dropout b d perm = Ok (r, kept) ->
  let x := sf32_mul (sf32_of_Z (Z.of_nat (frames b))) (tf_fraction d) in
  sf_nonneg x = true ->
  exists dd, sf_trunc x = Some dd /\ Qle (inject_Z dd) (sf_Q x) /\ Qlt (sf_Q x) (inject_Z (dd + 1)) /\
    ((dd <= Z.of_nat (frames b) - 1)%Z -> Z.of_nat (frames b - length kept) = dd) /\
    ((Z.of_nat (frames b) - 1 < dd)%Z -> length kept = 1).
Proof. exact @C16_TF.tf_drops_about_the_fraction. Qed.
Print Assumptions tf_drops_about_the_fraction.
Theorem tf_keeps_at_least_one : forall A (b : body A) d perm r kept,
  1 <= frames b -> Permutation perm (seq 0 (frames b)) -> tf_dropout b d perm = Ok (r, kept) -> 1 <= length kept.
Proof. exact @C16_TF.tf_keeps_one. Qed.
Print Assumptions tf_keeps_at_least_one.
Example tf_dropout_example :
  tf_dropout b10 (Given p03f) [3;1;4;0;5;9;2;6;8;7]
  = Ok (mkB (sf64_of_Z 30) [100;101;102;103;104;105;109] [200;201;202;203;204;205;209] [300;301;302;303;304;305;309],
        [0;1;2;3;4;5;9]).
Proof. exact C16_TF.tf_dropout_example. Qed.
Print Assumptions tf_dropout_example.
Example tf_perm_example : Permutation [3;1;4;0;5;9;2;6;8;7] (seq 0 (frames b10)).
Proof. exact C16_TF.tf_perm_example. Qed.
Print Assumptions tf_perm_example.
Example tf_nonneg_example : sf_nonneg (sf32_mul (sf32_of_Z 10) p03f) = true /\ sf_trunc (sf32_mul (sf32_of_Z 10) p03f) = Some 3%Z.
Proof. exact C16_TF.tf_nonneg_example. Qed.
Print Assumptions tf_nonneg_example.
Example tf_all_example : exists r k, tf_dropout b10 (Uniform (sf32_of_Z 1)) [3;1;4;0;5;9;2;6;8;7] = Ok (r, [k]).
Proof. exact C16_TF.tf_all_example. Qed.
Print Assumptions tf_all_example.

(* defect F10: the variant that proposed-fixes/F10-tf-dropout.diff removes (model [tf_pinned_dropout_given]: max(1, round(n * p))
   frames out of a shuffle of range(n - 1)) is not a dropout; witnesses replayed by the harness *)
Theorem tf_pinned_keeps_nothing_refuted :
  exists (b : body nat) p perm1 r, frames b = 1 /\ valid_perm (frames b - 1) perm1 = true /\
    tf_pinned_dropout_given b p perm1 = Ok (r, []).
Proof. exact C16_TF.tf_pinned_keeps_nothing_refuted. Qed.
Print Assumptions tf_pinned_keeps_nothing_refuted.
Theorem tf_pinned_zero_fraction_refuted :
  exists (b : body nat) perm1 r kept, valid_perm (frames b - 1) perm1 = true /\
    tf_pinned_dropout_given b (S754_zero false) perm1 = Ok (r, kept) /\ length kept = 1 /\ frames b = 10.
Proof. exact C16_TF.tf_pinned_zero_fraction_refuted. Qed.
Print Assumptions tf_pinned_zero_fraction_refuted.
Theorem tf_pinned_keeps_the_fraction_refuted :
  exists (b : body nat) perm1 r kept, valid_perm (frames b - 1) perm1 = true /\
    tf_pinned_dropout_given b (f32 4606281698874543309) perm1 = Ok (r, kept) /\ length kept = 9 /\ frames b = 10.
Proof. exact C16_TF.tf_pinned_keeps_the_fraction_refuted. Qed.
Print Assumptions tf_pinned_keeps_the_fraction_refuted.
Theorem tf_pinned_never_last_frame : forall A (b : body A) p perm1 r kept,
  Permutation perm1 (seq 0 (frames b - 1)) -> tf_pinned_dropout_given b p perm1 = Ok (r, kept) -> ~ In (frames b - 1) kept.
Proof. exact @C16_TF.tf_pinned_never_last_frame. Qed.
Print Assumptions tf_pinned_never_last_frame.

(* ties: the facts regenerated from /repo on this run equal what the model was written from *)
From Coq Require Import String.
Local Open Scope string_scope.
Theorem generic_dropout_stmts_tie : Gen_C16.generic_dropout_stmts =
  [ "data_len = len(self.data)";
    "dropout_number = min(int(data_len * dropout_percent), int(data_len * CAP))";
    "dropout_indexes = set(sample(range(0, data_len), dropout_number))";
    "select_indexes = [i for i in range(0, data_len) if i not in dropout_indexes]";
    "return (self.select_frames(select_indexes), select_indexes)" ].
Proof. reflexivity. Qed.
Print Assumptions generic_dropout_stmts_tie.
Theorem generic_select_stmts_tie : Gen_C16.generic_select_stmts =
  [ "data = self.data[frame_indexes]";
    "confidence = self.confidence[frame_indexes]";
    "return self.__class__(fps=self.fps, data=data, confidence=confidence)" ].
Proof. reflexivity. Qed.
Print Assumptions generic_select_stmts_tie.
Theorem uniform_stmts_tie : Gen_C16.uniform_stmts =
  [ "dropout_percent = np.random.uniform(low=dropout_min, high=dropout_max, size=1)[0]";
    "return self.frame_dropout_given_percent(dropout_percent)" ].
Proof. reflexivity. Qed.
Print Assumptions uniform_stmts_tie.
Theorem normal_stmts_tie : Gen_C16.normal_stmts =
  [ "dropout_percent = np.abs(np.random.normal(loc=dropout_mean, scale=dropout_std, size=1))[0]";
    "return self.frame_dropout_given_percent(dropout_percent)" ].
Proof. reflexivity. Qed.
Print Assumptions normal_stmts_tie.
Theorem slice_step_stmts_tie : Gen_C16.slice_step_stmts =
  [ "new_data = self.data[::by]";
    "new_confidence = self.confidence[::by]";
    "new_fps = self.fps / by";
    "return self.__class__(fps=new_fps, data=new_data, confidence=new_confidence)" ].
Proof. reflexivity. Qed.
Print Assumptions slice_step_stmts_tie.
Theorem tf_dropout_stmts_tie : Gen_C16.tf_dropout_stmts =
  [ "data_len = tf.shape(self.data.tensor)[0]";
    "number_drop = tf.squeeze(tf.cast(data_len, dtype=tf.float32) * dropout_percent)";
    "number_drop = tf.cast(number_drop, dtype=tf.int32)";
    "number_sample = tf.maximum(1, data_len - number_drop)";
    "idxs = tf.range(data_len, dtype=tf.int32)";
    "select_indexes = tf.sort(tf.random.shuffle(idxs)[:number_sample])";
    "select_indexes = tf.cast(select_indexes, dtype=tf.int32)";
    "return (self.select_frames(select_indexes), select_indexes)" ].
Proof. reflexivity. Qed.
Print Assumptions tf_dropout_stmts_tie.
Theorem tf_select_stmts_tie : Gen_C16.tf_select_stmts =
  [ "data = self.data.gather(frame_indexes)";
    "confidence = tf.gather(self.confidence, frame_indexes)";
    "return self.__class__(fps=self.fps, data=data, confidence=confidence)" ].
Proof. reflexivity. Qed.
Print Assumptions tf_select_stmts_tie.
Theorem tf_uniform_stmts_tie : Gen_C16.tf_uniform_stmts =
  [ "dropout_percent = tf.random.uniform([1], minval=dropout_min, maxval=dropout_max)[0]";
    "return self.frame_dropout_given_percent(dropout_percent)" ].
Proof. reflexivity. Qed.
Print Assumptions tf_uniform_stmts_tie.
Theorem tf_normal_stmts_tie : Gen_C16.tf_normal_stmts =
  [ "dropout_percent = tf.random.normal([1], mean=dropout_mean, stddev=dropout_std)[0]";
    "dropout_percent = tf.maximum(dropout_percent, tf.constant([0.0]))";
    "return self.frame_dropout_given_percent(dropout_percent)" ].
Proof. reflexivity. Qed.
Print Assumptions tf_normal_stmts_tie.
Theorem tf_gather_stmts_tie : Gen_C16.tf_gather_stmts =
  [ "tensor = tf.gather(self.tensor, indexes)";
    "mask = tf.gather(self.mask, indexes)";
    "return MaskedTensor(tensor=tensor, mask=mask)" ].
Proof. reflexivity. Qed.
Print Assumptions tf_gather_stmts_tie.
Theorem tf_getitem_stmts_tie : Gen_C16.tf_getitem_stmts =
  [ "if isinstance(key, list):\n    key = tf.constant(key, dtype=tf.int32)\n    tensor = tf.gather(self.tensor, key)\n    mask = tf.gather(self.mask, key)\nelse:\n    tensor = self.tensor[key]\n    mask = self.mask[key]";
    "return MaskedTensor(tensor=tensor, mask=mask)" ].
Proof. reflexivity. Qed.
Print Assumptions tf_getitem_stmts_tie.
Theorem torch_getitem_stmts_tie : Gen_C16.torch_getitem_stmts =
  [ "tensor = self.tensor[key]";
    "mask = self.mask[key]";
    "return MaskedTensor(tensor=tensor, mask=mask)" ].
Proof. reflexivity. Qed.
Print Assumptions torch_getitem_stmts_tie.
Theorem torch_len_stmts_tie : Gen_C16.torch_len_stmts =
  [ "return self.tensor.shape[0]" ].
Proof. reflexivity. Qed.
Print Assumptions torch_len_stmts_tie.
Theorem pose_uniform_stmts_tie : Gen_C16.pose_uniform_stmts =
  [ "body, selected_indexes = self.body.frame_dropout_uniform(dropout_min=dropout_min, dropout_max=dropout_max)";
    "return (Pose(header=self.header, body=body), selected_indexes)" ].
Proof. reflexivity. Qed.
Print Assumptions pose_uniform_stmts_tie.
Theorem pose_normal_stmts_tie : Gen_C16.pose_normal_stmts =
  [ "body, selected_indexes = self.body.frame_dropout_normal(dropout_mean=dropout_mean, dropout_std=dropout_std)";
    "return (Pose(header=self.header, body=body), selected_indexes)" ].
Proof. reflexivity. Qed.
Print Assumptions pose_normal_stmts_tie.
Theorem getattr_stmts_tie : Gen_C16.getattr_stmts =
  [ "if attr not in Pose.pass_through_methods:\n    raise AttributeError(""Attribute '%s' doesn't exist on class Pose"" % attr)";
    "def func(*args, **kwargs):\n    prop = getattr(self.body, attr)\n    body_res = prop(*args, **kwargs)\n    if isinstance(body_res, PoseBody):\n        header = self.header\n        if hasattr(header, attr):\n            header_res = getattr(header, attr)(*args, **kwargs)\n            if isinstance(header_res, PoseHeader):\n                header = header_res\n        return Pose(header, body_res)\n    return body_res";
    "return func" ].
Proof. reflexivity. Qed.
Print Assumptions getattr_stmts_tie.
Theorem body_overrides_tie : Gen_C16.body_overrides =
  [ "TensorflowPoseBody.select_frames";
    "TensorflowPoseBody.frame_dropout_given_percent";
    "TensorflowPoseBody.frame_dropout_uniform";
    "TensorflowPoseBody.frame_dropout_normal" ].
Proof. reflexivity. Qed.
Print Assumptions body_overrides_tie.

(* class structure of the current source: overrides and attribute hooks (proofs/ClassesTie.v) *)
Require Import ClassesTie.
Theorem C16_tie_class_numpy_body : over_numpy_body = Some exp_over_numpy_body.
Proof. exact over_numpy_body_tie. Qed.
Print Assumptions C16_tie_class_numpy_body.
Theorem C16_tie_class_torch_body : over_torch_body = Some exp_over_torch_body.
Proof. exact over_torch_body_tie. Qed.
Print Assumptions C16_tie_class_torch_body.
Theorem C16_tie_class_tf_body : over_tf_body = Some exp_over_tf_body.
Proof. exact over_tf_body_tie. Qed.
Print Assumptions C16_tie_class_tf_body.
Theorem C16_tie_class_subclasses : subclasses = exp_subclasses.
Proof. exact subclasses_tie. Qed.
Print Assumptions C16_tie_class_subclasses.
Theorem C16_tie_class_attr_hooks : Gen_Classes.attr_hooks = exp_attr_hooks.
Proof. exact attr_hooks_tie. Qed.
Print Assumptions C16_tie_class_attr_hooks.

