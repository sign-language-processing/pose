(* C16: the TensorFlow dropout of /repo (float32 arithmetic, `number_sample = max(1, n - int32(n * p))` out of a shuffle
   of range(n)), for every permutation tf.random.shuffle can return.  At the end: the variant that
   proposed-fixes/F10-tf-dropout.diff removes (`max(1, round(n * p))` out of a shuffle of range(n - 1), model
   [tf_pinned_dropout_given]) keeps the wrong number of frames and never the last one. *)
From Coq Require Import ZArith List Bool Arith Lia Sorted Permutation SpecFloat QArith_base.
Require Import Result F32 C16_Frames C16_Lists C16_Select C16_Dropout.
Import ListNotations.
Local Open Scope nat_scope.

Lemma tf_dropout_is_given {A} (b : body A) d perm : tf_dropout b d perm = tf_dropout_given b (tf_fraction d) perm.
Proof. destruct d; reflexivity. Qed.
Definition tf_kept (n : nat) (dd : Z) (perm : list nat) : list nat := isort (firstn (Z.to_nat (tf_keep_count n dd)) perm).
Lemma tf_dropout_inv {A} (b : body A) d perm r kept :
  tf_dropout b d perm = Ok (r, kept) ->
  exists dd, tf_drop_count (frames b) (tf_fraction d) = Ok dd /\ kept = tf_kept (frames b) dd perm /\
             (kept = [] \/ select_frames TF b (map Z.of_nat kept) = Ok r) /\ (kept = [] -> r = mkB (fps b) [] [] []).
Proof. rewrite tf_dropout_is_given. unfold tf_dropout_given.
  destruct (tf_drop_count (frames b) (tf_fraction d)) as [dd|e]; cbn [rbind]; [|discriminate].
  fold (tf_kept (frames b) dd perm). destruct (tf_kept (frames b) dd perm) as [|k0 kr] eqn:Hk.
  - cbn [rbind]. intros [= <- <-]. exists dd. repeat split; auto.
  - destruct (select_frames TF b _) as [r'|e] eqn:Hs; cbn [rbind]; [|discriminate].
    intros [= <- <-]. exists dd. repeat split; auto. discriminate. Qed.

Lemma perm_seq_facts n perm : Permutation perm (seq 0 n) -> NoDup perm /\ length perm = n /\ forall i, In i perm <-> i < n.
Proof. intros Hp. split; [apply (Permutation_NoDup (Permutation_sym Hp)), seq_NoDup|]. split.
  - rewrite (Permutation_length Hp). apply seq_length.
  - intros i. split; intros H.
    + apply (Permutation_in _ Hp) in H. apply in_seq in H. lia.
    + apply (Permutation_in _ (Permutation_sym Hp)). apply in_seq. lia. Qed.
Lemma valid_perm_spec n perm : valid_perm n perm = true <-> Permutation perm (seq 0 n).
Proof. unfold valid_perm. rewrite valid_sample_spec. split.
  - intros [Hl [Hd Hf]]. apply NoDup_Permutation_bis; [exact Hd|rewrite seq_length; lia|].
    intros i Hi. rewrite Forall_forall in Hf. apply in_seq. specialize (Hf i Hi). lia.
  - intros Hp. destruct (perm_seq_facts _ _ Hp) as [Hd [Hl Hi]]. repeat split; try assumption.
    apply Forall_forall. intros i. apply Hi. Qed.

Lemma tf_kept_sorted n dd perm : Permutation perm (seq 0 n) ->
  StronglySorted lt (tf_kept n dd perm) /\ Forall (fun i => i < n) (tf_kept n dd perm).
Proof. intros Hp. destruct (perm_seq_facts _ _ Hp) as [Hd [_ Hi]]. unfold tf_kept. split.
  - apply isort_strict, NoDup_firstn, Hd.
  - apply Forall_forall. intros i H. apply (Permutation_in _ (isort_perm _)) in H. apply In_firstn' in H. now apply Hi. Qed.
Lemma tf_kept_length n dd perm : Permutation perm (seq 0 n) ->
  length (tf_kept n dd perm) = Nat.min (Z.to_nat (tf_keep_count n dd)) n.
Proof. intros Hp. destruct (perm_seq_facts _ _ Hp) as [_ [Hl _]]. unfold tf_kept.
  rewrite (Permutation_length (isort_perm _)), firstn_length, Hl. reflexivity. Qed.

Lemma tf_kept_sorted_in_range {A} (b : body A) d perm r kept :
  Permutation perm (seq 0 (frames b)) -> tf_dropout b d perm = Ok (r, kept) ->
  StronglySorted lt kept /\ Forall (fun i => i < frames b) kept.
Proof. intros Hp H. apply tf_dropout_inv in H.
  destruct H as [dd [_ [-> _]]]. now apply tf_kept_sorted. Qed.
Lemma tf_pose_is_those_frames {A} (x : A) (b : body A) d perm r kept :
  tf_dropout b d perm = Ok (r, kept) -> r = body_at x b kept.
Proof. intros H. apply tf_dropout_inv in H. destruct H as [dd [_ [_ [[He|Hs] Hn]]]].
  - subst kept. now apply Hn.
  - now apply (select_ok_inv x) in Hs. Qed.
(* number of kept frames: max(1, n - d) of them (never more than n) *)
Lemma tf_kept_count {A} (b : body A) d perm r kept :
  Permutation perm (seq 0 (frames b)) -> tf_dropout b d perm = Ok (r, kept) ->
  exists dd, tf_drop_count (frames b) (tf_fraction d) = Ok dd /\
             Z.of_nat (length kept) = Z.min (Z.max 1 (Z.of_nat (frames b) - dd)) (Z.of_nat (frames b)).
Proof. intros Hp H. apply tf_dropout_inv in H.
  destruct H as [dd [Hd [-> _]]]. exists dd. split; [exact Hd|]. rewrite (tf_kept_length _ _ _ Hp). unfold tf_keep_count. lia. Qed.
Lemma tf_keeps_one {A} (b : body A) d perm r kept :
  1 <= frames b -> Permutation perm (seq 0 (frames b)) -> tf_dropout b d perm = Ok (r, kept) -> 1 <= length kept.
Proof. intros Hn Hp H. destruct (tf_kept_count _ _ _ _ _ Hp H) as [dd [_ Hl]]. lia. Qed.
Lemma tf_count_zero n sg dd : tf_drop_count n (S754_zero sg) = Ok dd -> dd = 0%Z.
Proof. unfold tf_drop_count, sf32_mul.
  destruct (sf32_of_Z (Z.of_nat n)) as [s0|s0| |s0 m0 e0]; cbn [SFmul sf_trunc int32_ok]; try discriminate;
    (destruct (int32_ok 0); [congruence|discriminate]). Qed.
Lemma tf_zero_fraction_drops_nothing {A} (b : body A) d sg perm r kept :
  tf_fraction d = S754_zero sg -> Permutation perm (seq 0 (frames b)) ->
  tf_dropout b d perm = Ok (r, kept) -> kept = seq 0 (frames b).
Proof. intros Hz Hp H. apply tf_dropout_inv in H.
  destruct H as [dd [Hd [-> _]]]. rewrite Hz in Hd. apply tf_count_zero in Hd. subst dd.
  destruct (perm_seq_facts _ _ Hp) as [_ [Hl _]]. unfold tf_kept, tf_keep_count.
  rewrite firstn_all2 by lia. now apply isort_of_perm_seq. Qed.
(* "about that fraction": d = int(x) for the float32 product x = float32(n) * p, so d <= x < d + 1;
   dropped = d unless that would leave no frame (then exactly one is kept) *)
Lemma tf_drops_about_the_fraction {A} (b : body A) d perm r kept :
  1 <= frames b -> Permutation perm (seq 0 (frames b)) -> tf_dropout b d perm = Ok (r, kept) ->
  let x := sf32_mul (sf32_of_Z (Z.of_nat (frames b))) (tf_fraction d) in
  sf_nonneg x = true ->
  exists dd, sf_trunc x = Some dd /\ Qle (inject_Z dd) (sf_Q x) /\ Qlt (sf_Q x) (inject_Z (dd + 1)) /\
    ((dd <= Z.of_nat (frames b) - 1)%Z -> Z.of_nat (frames b - length kept) = dd) /\
    ((Z.of_nat (frames b) - 1 < dd)%Z -> length kept = 1).
Proof. intros Hn Hp H x Hx. destruct (tf_kept_count _ _ _ _ _ Hp H) as [dd [Hd Hl]]. exists dd.
  unfold tf_drop_count in Hd. fold x in Hd. destruct (sf_trunc x) as [d'|] eqn:Ht; [|discriminate].
  destruct (int32_ok d'); [|discriminate]. injection Hd as ->.
  destruct (trunc_bounds _ _ Hx Ht) as [H0 [H1 H2]]. repeat split; try assumption; intros; lia. Qed.

(* the variant [tf_pinned_dropout_given] (defect F10): four ways in which it is not a dropout *)
Definition f32 (w : N) : spec_float := round32 (sf_of_b64 w).
Definition b10 : body nat := mkB (sf64_of_Z 30) (seq 100 10) (seq 200 10) (seq 300 10).
Definition b1 : body nat := mkB (sf64_of_Z 30) [100] [200] [300].
(* ten frames; what they hold does not matter to the counts *)
Definition t10 : body nat := mkB (S754_zero false) (seq 0 10) (seq 0 10) (seq 0 10).
(* a one-frame body: nothing is kept *)
Lemma tf_pinned_keeps_nothing_refuted :
  exists (b : body nat) p perm1 r, frames b = 1 /\ valid_perm (frames b - 1) perm1 = true /\
    tf_pinned_dropout_given b p perm1 = Ok (r, []).
Proof. exists b1, (S754_zero false), [], (mkB (sf64_of_Z 30) [] [] []). repeat split; vm_compute; reflexivity. Qed.
(* fraction 0: nine of ten frames are dropped *)
Lemma tf_pinned_zero_fraction_refuted :
  exists (b : body nat) perm1 r kept, valid_perm (frames b - 1) perm1 = true /\
    tf_pinned_dropout_given b (S754_zero false) perm1 = Ok (r, kept) /\ length kept = 1 /\ frames b = 10.
Proof. exists t10, [4;0;8;1;2;3;5;6;7]. eexists. eexists. split; [vm_compute; reflexivity|].
  split; [vm_compute; reflexivity|]. split; reflexivity. Qed.
(* fraction 0.9 of ten frames: nine are KEPT (one dropped) *)
Lemma tf_pinned_keeps_the_fraction_refuted :
  exists (b : body nat) perm1 r kept, valid_perm (frames b - 1) perm1 = true /\
    tf_pinned_dropout_given b (f32 4606281698874543309) perm1 = Ok (r, kept) /\ length kept = 9 /\ frames b = 10.
Proof. exists t10, [4;0;8;1;2;3;5;6;7]. eexists. eexists. split; [vm_compute; reflexivity|].
  split; [vm_compute; reflexivity|]. split; reflexivity. Qed.
(* the last frame is never kept, whatever the fraction and the shuffle *)
Lemma tf_pinned_never_last_frame {A} (b : body A) p perm1 r kept :
  Permutation perm1 (seq 0 (frames b - 1)) -> tf_pinned_dropout_given b p perm1 = Ok (r, kept) -> ~ In (frames b - 1) kept.
Proof. intros Hp. unfold tf_pinned_dropout_given. destruct (tf_pinned_keep_count _ _) as [k|e]; cbn [rbind]; [|discriminate].
  destruct (match isort _ with [] => _ | _ => _ end) as [r'|e]; cbn [rbind]; [|discriminate].
  intros [= <- <-] Hi. apply (Permutation_in _ (isort_perm _)) in Hi. apply In_firstn' in Hi.
  apply (perm_seq_facts _ _ Hp) in Hi. lia. Qed.

Definition p03f : spec_float := f32 4599075939470750515.         (* float32(0.3) *)
Example tf_dropout_example :
  tf_dropout b10 (Given p03f) [3;1;4;0;5;9;2;6;8;7]
  = Ok (mkB (sf64_of_Z 30) [100;101;102;103;104;105;109] [200;201;202;203;204;205;209] [300;301;302;303;304;305;309],
        [0;1;2;3;4;5;9]).
Proof. vm_compute. reflexivity. Qed.
Example tf_perm_example : Permutation [3;1;4;0;5;9;2;6;8;7] (seq 0 (frames b10)).
Proof. apply valid_perm_spec. vm_compute. reflexivity. Qed.
Example tf_nonneg_example : sf_nonneg (sf32_mul (sf32_of_Z 10) p03f) = true /\ sf_trunc (sf32_mul (sf32_of_Z 10) p03f) = Some 3%Z.
Proof. split; vm_compute; reflexivity. Qed.
(* fraction 1 keeps exactly one frame *)
Example tf_all_example : exists r k, tf_dropout b10 (Uniform (sf32_of_Z 1)) [3;1;4;0;5;9;2;6;8;7] = Ok (r, [k]).
Proof. eexists. eexists. vm_compute. reflexivity. Qed.
