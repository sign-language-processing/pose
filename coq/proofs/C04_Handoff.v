(* Pose.read on the bytes and on a stream (C04_Legacy.read_stream4) reach the body decoder with the same header and in
   corresponding reader states, whatever the memo holds; consequently the two reads end alike whenever the body
   decoder belongs to one of the two classes of C04_Stream and its run stays inside the file. *)
From Coq Require Import ZArith NArith List Lia ZifyBool ZifyN ZifyNat Bool.
Require Import ListN Result Bytes Prog Codec ProgLemmas PoseRead PoseReadLemmas StreamLemmas WindowLemmas StreamRead
  C04_Legacy C04_Spec C04_SpecRT C04_Stream.
Import ListNotations.
Open Scope N_scope.

(* the body decoders the stream reader follows *)
Definition streamable {A} (p : prog A) : Prop := noAdv p \/ v0prog p.

(* from a state as StreamRead.stream_start_ok describes it (nothing skipped, the buffer a prefix of the file that
   covers the read offset) the stream run of such a decoder ends as its plain run from the same offset *)
Lemma pre_run4 {A} q sr (p : prog A) r : Pre q sr -> off sr <= lenN (buf sr) -> streamable p ->
  ends p {| pbuf := q; poff := off sr |} r -> rmap fst (run_stream4 q p sr) = rmap fst r.
Proof.
  intros HP Hl [Hv|Hv] He.
  - pose proof (sim4 q p Hv _ sr r (pre_sim q sr HP Hl) He) as H.
    destruct r as [[b pr']|e]; cbn [carried] in H; [destruct H as [sr' [-> _]]|rewrite H]; reflexivity.
  - pose proof (sim0 q p Hv {| pbuf := q; poff := off sr |} sr r (conj eq_refl (conj eq_refl HP)) He) as H.
    rewrite (run_stream4_noBL q p (v0prog_noBL p Hv)).
    destruct r as [[b pr']|e]; cbn [carried] in H; [destruct H as [sr' [-> _]]|rewrite H]; reflexivity.
Qed.

Section WithLegacy.
Variable legacy : vclass -> header -> rargs -> prog body.

Definition mkpose {S} (h : header) (br : body * S) : pose := {| p_header := h; p_body := fst br |}.

(* up to the body decoder the two stream reads are the same text, and rd_header does not ask bytes_left() *)
Lemma read_stream4_start m q a : any_arg a = true ->
  read_stream4 legacy m q a = read_from_start m q (fun h => run_stream4 q (read_body legacy h a)).
Proof.
  intros Ha. unfold read_stream4, read_from_start, stream_start. rewrite Ha. cbn [negb].
  destruct (expect q (prefetch_len m) _) as [r1|e]; [|reflexivity].
  destruct (check_cache m (buf r1)) as [c|]; [reflexivity|].
  rewrite (run_stream4_noBL q rd_header noBL_rd_header).
  destruct (run_stream q rd_header r1) as [[h r2]|e]; reflexivity.
Qed.

Theorem read_stream4_noargs m file a : any_arg a = false ->
  fst (read_stream4 legacy m file a) = read_bytes legacy m file a.
Proof. intros Ha. unfold read_stream4. rewrite Ha. cbn [negb]. destruct (read_bytes legacy m file a); reflexivity. Qed.

Theorem read_ends m q a h o r : MemoOK m ->
  run_plain rd_header {| pbuf := q; poff := 0 |} = Ok (h, {| pbuf := q; poff := o |}) ->
  streamable (read_body legacy h a) -> ends (read_body legacy h a) {| pbuf := q; poff := o |} r ->
  fst (read_bytes legacy m q a) = rmap (mkpose h) r /\ fst (fst (read_stream4 legacy m q a)) = rmap (mkpose h) r.
Proof.
  intros Hm Hh Hv He.
  assert (Hb : fst (read_bytes legacy m q a) = rmap (mkpose h) r)
    by (rewrite (read_bytes_at_header legacy m q a h o Hm Hh), (ends_run _ _ _ He); reflexivity).
  split; [exact Hb|]. destruct (any_arg a) eqn:Ha.
  - destruct (stream_start_ok m q h o Hm Hh) as [sr [HP [Ho [Hl [_ E]]]]]. subst o.
    rewrite (read_stream4_start m q a Ha). unfold read_from_start. rewrite E.
    pose proof (pre_run4 q sr _ r HP Hl Hv He) as H.
    destruct (run_stream4 q (read_body legacy h a) sr) as [[b sr']|e], r as [[b' pr']|e']; cbn [rmap fst] in H;
      try discriminate; injection H as <-; reflexivity.
  - now rewrite read_stream4_noargs.
Qed.

(* a file of the reference encoders: header, the body encoding [e], and [x] after it *)
Theorem read_spec_ends m h a e x o : MemoOK m -> wf_header h ->
  streamable (read_body legacy h a) -> Rq (read_body legacy h a) e x o ->
  fst (read_bytes legacy m (spec_header h ++ e ++ x) a) = rmap (Build_pose h) o /\
  fst (fst (read_stream4 legacy m (spec_header h ++ e ++ x) a)) = rmap (Build_pose h) o.
Proof.
  intros Hm Hh Hv Ho.
  destruct (read_ends m _ a _ _ _ Hm (RTp_start _ _ _ (e ++ x) (spec_header_rt h Hh)) Hv (Ho (spec_header h))) as [H1 H2].
  rewrite H1, H2. destruct o; split; reflexivity.
Qed.
End WithLegacy.
