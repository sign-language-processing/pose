(* C19 - OpenPose import.  Model of utils/openpose.py:221-284 (load_openpose), :309-344
   (load_frames_directory_dict), :347-386 (load_openpose_directory) and utils/openpose_135.py:96-126.
   Definitions only.  Transcribed statement by statement from the statement lists that the translator
   regenerates (coq/gen/Gen_C19.v; the literals are in proofs/C19_GenTie.v, the equations are the gen_*_tie theorems of props/C19.v).

   JSON side.  A person is the JSON object of one detected person: field name (code points) -> list of numbers;
   numbers are binary64 words (Python floats; the harness sends Python ints as the double they convert to exactly).
   A frame is frame["people"]; the frames dictionary is its item list in insertion order (keys distinct).
   Arrays are nested lists: data F x P x K x 2, confidence F x P x K, float32 words. *)
From Coq Require Import String Ascii List Arith NArith ZArith Bool.
Require Import Result F32 C19_Layout C19_FrameId.
Import ListNotations.
Local Open Scope nat_scope.

Definition person := list (key * list N).
Definition frame := list person.
Definition frames := list (nat * frame).

Fixpoint key_eqb (a b : key) : bool :=
  match a, b with
  | [], [] => true
  | x :: a', y :: b' => N.eqb x y && key_eqb a' b'
  | _, _ => false
  end.
(* person[name] *)
Fixpoint lookup (k : key) (p : person) : option (list N) :=
  match p with [] => None | (k', v) :: r => if key_eqb k k' then Some v else lookup k r end.

(* ---- arrays ---- *)
Fixpoint upd {A} (i : nat) (g : A -> option A) (l : list A) : option (list A) :=
  match l with
  | [] => None                                             (* IndexError *)
  | x :: r => match i with
              | O => match g x with Some y => Some (y :: r) | None => None end
              | S j => match upd j g r with Some r' => Some (x :: r') | None => None end
              end
  end.
Definition put {A} (v : A) : A -> option A := fun _ => Some v.
Definition store3 {A} (f p k : nat) (v : A) := upd f (upd p (upd k (put v))).
Definition store4 {A} (f p k d : nat) (v : A) := upd f (upd p (upd k (upd d (put v)))).
Record arrays := mkA { a_data : list (list (list (list N))); a_conf : list (list (list N)) }.

(* assignment of a Python float into a float32 array *)
Definition cast32 (w : N) : N := f64_to_f32 w.

(* openpose.py:271-275   for k in range(0, len(numbers), stride): ...   [numbers] is numbers[k:], fuel = len(numbers) *)
Fixpoint kp_loop (fuel stride : nat) (numbers : list N) (f p kid : nat) (a : arrays) : result (nat * arrays) :=
  match fuel with
  | O => Ok (kid, a)
  | S fuel' =>
      match numbers with
      | [] => Ok (kid, a)
      | x :: _ =>
          match store4 f p kid 0 (cast32 x) (a_data a) with None => Err Index | Some d1 =>      (* :272 *)
          match nth_error numbers 1 with None => Err Index | Some y =>
          match store4 f p kid 1 (cast32 y) d1 with None => Err Index | Some d2 =>              (* :273 *)
          match nth_error numbers 2 with None => Err Index | Some c =>
          match store3 f p kid (cast32 c) (a_conf a) with None => Err Index | Some c1 =>        (* :274 *)
          kp_loop fuel' stride (skipn stride numbers) f p (S kid) (mkA d2 c1)                   (* :275 *)
          end end end end end
      end
  end.
(* openpose.py:269-275   the running keypoint_id is threaded through the components *)
Fixpoint comp_loop (cs : list comp) (per : person) (f p kid : nat) (a : arrays) : result (nat * arrays) :=
  match cs with
  | [] => Ok (kid, a)
  | c :: cs' =>
      match lookup (c_name c) per with
      | None => Err Key                                                                         (* :270 *)
      | Some numbers =>
          let stride := List.length (c_format c) in
          if Nat.eqb stride 0 then Err Value                                                    (* range() step 0 *)
          else do r <- kp_loop (List.length numbers) stride numbers f p kid a;
               comp_loop cs' per f p (fst r) (snd r)
      end
  end.
(* openpose.py:267-268   enumerate(frame["people"]); keypoint_id = 0 for every person *)
Fixpoint person_loop (cs : list comp) (people : list person) (f p : nat) (a : arrays) : result arrays :=
  match people with
  | [] => Ok a
  | per :: rest => do r <- comp_loop cs per f p 0 a; person_loop cs rest f (S p) (snd r)
  end.
(* openpose.py:266 *)
Fixpoint frame_loop (cs : list comp) (fs : frames) (a : arrays) : result arrays :=
  match fs with
  | [] => Ok a
  | (fid, fr) :: rest => do a' <- person_loop cs fr fid 0 a; frame_loop cs rest a'
  end.

Definition list_max (l : list nat) : nat := fold_right Nat.max 0 l.
Definition total_points (cs : list comp) : nat := list_sum (map (fun c => List.length (c_points c)) cs).   (* pose_header.py:364 *)

(* fps / width / height / depth arguments: a Python int or a Python float (binary64 word) *)
Inductive num := NInt (z : Z) | NFloat (w : N).

Record pose := mkPose {
  p_comps : list comp;                        (* header.components *)
  p_dims : Z * Z * Z;                         (* header.dimensions: width, height, depth *)
  p_fps : num;                                (* body.fps *)
  p_shape : nat * nat * nat;                  (* frames, people, points of the arrays (np.zeros shape) *)
  p_data : list (list (list (list N)));       (* body.data values *)
  p_mask : list (list (list (list bool)));    (* body.data mask, True = missing *)
  p_conf : list (list (list N))               (* body.confidence *)
}.

(* openpose.py:251-284.  width/height/depth are integers (PoseHeaderDimensions applies math.ceil, the identity on
   ints).  The body records the fps it is given: `NumPyPoseBody(fps=fps, ...)` - the repaired statement (F14);
   the pinned tree had `fps=int(fps)`. *)
Definition load_openpose (cs : list comp) (fs : frames) (fps : num) (w h d : Z) (num_frames : option nat) : result pose :=
  let tp := total_points cs in
  do nf <- match num_frames with                                                                (* :257-259 *)
           | Some n => Ok n
           | None => match fs with [] => Err Value | _ => Ok (list_max (map fst fs) + 1) end
           end;
  do people <- match fs with [] => Err Value                                                    (* :262 *)
               | _ => Ok (list_max (map (fun x => List.length (snd x)) fs)) end;
  let data0 := repeat (repeat (repeat [0%N; 0%N] tp) people) nf in                              (* :263 *)
  let conf0 := repeat (repeat (repeat 0%N tp) people) nf in                                     (* :264 *)
  do a <- frame_loop cs fs (mkA data0 conf0);                                                   (* :266-275 *)
  let mask := map (map (map (fun c => let m := is_zero32 c in [m; m]))) (a_conf a) in           (* :278-279 *)
  Ok (mkPose cs (w, h, d) fps (nf, people, tp) (a_data a) mask (a_conf a)).                                      (* :280-284 *)

(* ---- directory loading ---- *)
(* frames[frame_id] = frame_dict on a Python dict: replace in place, or append *)
Fixpoint dict_set {V} (k : nat) (v : V) (d : list (nat * V)) : list (nat * V) :=
  match d with
  | [] => [(k, v)]
  | (k', v') :: r => if Nat.eqb k k' then (k, v) :: r else (k', v') :: dict_set k v r
  end.
(* openpose.py:335-344: entries in os.scandir order *)
Fixpoint dir_frames (entries : list (list N * frame)) (acc : frames) : result frames :=
  match entries with
  | [] => Ok acc
  | (name, fr) :: rest => do id <- get_frame_id name; dir_frames rest (dict_set (N.to_nat id) fr acc)
  end.
(* openpose.py:384-386 *)
Definition load_openpose_directory (entries : list (list N * frame)) (fps : num) (w h d : Z) (num_frames : option nat) : result pose :=
  do fs <- dir_frames entries []; load_openpose comps137 fs fps w h d num_frames.
(* openpose_135.py:120-126 *)
Definition load_openpose_135_directory (entries : list (list N * frame)) (fps : num) (w h d : Z) (num_frames : option nat) : result pose :=
  do p <- load_openpose_directory entries fps w h d num_frames;
  Ok (mkPose comps135 (p_dims p) (p_fps p) (let '(f, pp, k) := p_shape p in (f, pp, Nat.min 135 k))
        (map (map (firstn 135)) (p_data p)) (map (map (firstn 135)) (p_mask p)) (map (map (firstn 135)) (p_conf p))).
