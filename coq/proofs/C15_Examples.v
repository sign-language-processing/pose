(* C15 - non-vacuity: concrete, non-trivial poses that satisfy the hypotheses of the theorems in props/C15.v. *)
From Coq Require Import Reals ZArith List Bool Lia Lra.
Require Import Result Num C15_Spatial C15_Real.
Import ListNotations.
Local Open Scope R_scope.

(* a 3-D pose: one frame, one person, two components (2 + 1 points); the last point of the first component and the
   whole second component are missing *)
Definition ex_p (x y z : R) : rpoint := @mkP R_ops [(x, false); (y, false); (z, false)] 1.
Definition ex_m (x y z : R) : rpoint := @mkP R_ops [(x, true); (y, true); (z, true)] 0.
Definition ex_body : rframes := [[[ex_p 1 2 3; ex_m 5 6 7; ex_m (-9) 0 9]]].
Definition ex_body2 : rframes := [[[ex_p 4 (-1) (1/2); ex_m 0 0 0; ex_m 1 1 1]]].
Definition ex_matrix : list (list R) := [[1; 2]; [0; -1]; [1/2; 3]].

Lemma ex_p_wf x y z : wf_point 3 (ex_p x y z).
Proof. split; [reflexivity|]. split; [reflexivity|]. cbn [pc ex_p]. intros H. exfalso. lra. Qed.
Lemma ex_m_wf x y z : wf_point 3 (ex_m x y z).
Proof. split; [reflexivity|]. split; reflexivity. Qed.
Lemma ex_wf : wf_body 3 ex_body.
Proof. repeat constructor; first [apply ex_p_wf | apply ex_m_wf]. Qed.
Lemma ex_wf2 : wf_body 3 ex_body2.
Proof. repeat constructor; first [apply ex_p_wf | apply ex_m_wf]. Qed.
Lemma ex_same : rel3 same_conf_mask ex_body ex_body2.
Proof. repeat constructor. Qed.
