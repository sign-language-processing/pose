(* C14 - the normalised time grid np.linspace(0, 1, n) over exact reals. *)
From Coq Require Import Reals List Arith Bool Lia Lra ZArith Sorted.
Require Import ListFacts Num RealFacts C14_Interp C14_Index.
Import ListNotations.
Local Open Scope R_scope.

Definition gridR (n : nat) : list R := grid R_ops n.

Lemma grid_length n : length (gridR n) = n.
Proof. unfold gridR, grid. destruct n as [|[|n]]; try reflexivity. now rewrite map_length, seq_length. Qed.
Lemma grid_nth n j : (2 <= n)%nat -> (j < n)%nat -> nth j (gridR n) 0 = INR j / INR (n - 1).
Proof. intros Hn Hj. unfold gridR, grid. destruct n as [|[|n]]; try lia.
  set (N := S (S n)) in *.
  rewrite nth_map_seq by exact Hj.
  assert (Hpos : INR (N - 1) <> 0) by (apply not_0_INR; unfold N; lia).
  destruct (Nat.eqb_spec j (N - 1)) as [->|NE]; cbn [one mul div R_ops Num.T].
  - field. exact Hpos.
  - rewrite !of_nat_INR. field. exact Hpos. Qed.
Lemma grid_one : gridR 1 = [0].
Proof. reflexivity. Qed.
Lemma grid_incr n i j : (i < j)%nat -> (j < n)%nat -> nth i (gridR n) 0 < nth j (gridR n) 0.
Proof. intros Hij Hj. assert (Hn : (2 <= n)%nat) by lia.
  rewrite !grid_nth by lia.
  assert (Hpos : 0 < INR (n - 1)) by (apply lt_0_INR; lia).
  apply Rmult_lt_compat_r; [apply Rinv_0_lt_compat; exact Hpos|]. apply lt_INR. exact Hij. Qed.
Lemma grid_sorted n : StronglySorted Rlt (gridR n).
Proof. apply (nth_StronglySorted Rlt _ 0). intros i j Hij Hj. rewrite grid_length in Hj. apply grid_incr; assumption. Qed.
Lemma grid_first n : (1 <= n)%nat -> nth 0 (gridR n) 0 = 0.
Proof. intros Hn. destruct (Nat.eq_dec n 1) as [->|NE]; [reflexivity|].
  rewrite grid_nth by lia. cbn [INR]. unfold Rdiv. apply Rmult_0_l. Qed.
Lemma grid_last n : (2 <= n)%nat -> nth (n - 1) (gridR n) 0 = 1.
Proof. intros Hn. rewrite grid_nth by lia. field. apply not_0_INR. lia. Qed.
Lemma grid_range n j : (j < n)%nat -> 0 <= nth j (gridR n) 0 <= 1.
Proof. intros Hj. destruct (Nat.eq_dec n 1) as [->|NE].
  - replace j with 0%nat by lia. cbn. lra.
  - rewrite grid_nth by lia.
    assert (Hpos : 0 < INR (n - 1)) by (apply lt_0_INR; lia).
    assert (H0 : 0 <= INR j) by apply pos_INR.
    assert (H1 : INR j <= INR (n - 1)) by (apply le_INR; lia).
    split.
    + apply Rmult_le_pos; [exact H0|]. left. apply Rinv_0_lt_compat. exact Hpos.
    + apply (Rmult_le_reg_r (INR (n - 1))); [exact Hpos|]. unfold Rdiv. rewrite Rmult_assoc, Rinv_l by lra. lra. Qed.
Lemma grid_inj n i j : (i < n)%nat -> (j < n)%nat -> nth i (gridR n) 0 = nth j (gridR n) 0 -> i = j.
Proof. intros Hi Hj E. destruct (lt_eq_lt_dec i j) as [[H|H]|H]; [|assumption|].
  - pose proof (grid_incr n i j H Hj). lra.
  - pose proof (grid_incr n j i H Hi). lra. Qed.
