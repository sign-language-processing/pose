(* C18 - concurrent reads are isolated from each other.
   Model: coq/model/C18_Threads.v - any number of reader threads, atomic step = one access to one of the memo's four
   class attributes (or one lock operation), schedule = any list of thread ids.  [run pf true] is the code with
   `with PoseHeaderCache.lock:` around lookup-and-offset and around set_cache (proposed-fixes/F13-memo-lock.diff),
   [run pf false] the code without it.  [pf] (prefetch length as a function of the end_offset read at pose.py:60) and
   the initial memo [m0] (empty, or whatever earlier reads left: [Good]) are arbitrary.
   result of a thread = (header PoseHeader.read returns, offset at which the body is read);
   [result_alone j] = header of j's own file parsed from offset 0, and the offset after it. *)
From Coq Require Import ZArith NArith List Bool.
Require Import ListN Result Bytes Prog Codec PoseRead C18_Threads C18_Local C18_Inv C18_Refuted C18_StreamBody C18_StructMemo C18_StructMemoP C18_GenTie.
Import ListNotations.

(* every clause of the statement for header and body offset: all thread counts, all schedules, no bound *)
Theorem isolated : forall (pf : option N -> N) (jobs : list job) (m0 : gmemo) (sched : list nat), Good m0 ->
  let st := run pf true jobs sched (init jobs m0) in
  complete st = true ->
  forall t j, nth_error jobs t = Some j -> result_of st t = Some (result_alone j).
Proof. exact isolated_locked. Qed.
Print Assumptions isolated.

(* stronger: a thread that has finished is right even if the others never finish *)
Theorem finished_thread_isolated : forall (pf : option N -> N) jobs m0 sched t j r, Good m0 ->
  nth_error jobs t = Some j ->
  result_of (run pf true jobs sched (init jobs m0)) t = Some r -> r = result_alone j.
Proof. exact finished_isolated. Qed.
Print Assumptions finished_thread_isolated.

(* what the replay scheduler can produce (switches at line events only) is covered *)
Theorem isolated_at_line_level : forall (pf : option N -> N) jobs m0 lsched, Good m0 ->
  let st := lrun pf true jobs lsched (init jobs m0) in
  complete st = true ->
  forall t j, nth_error jobs t = Some j -> result_of st t = Some (result_alone j).
Proof.
  intros pf jobs m0 lsched G st. subst st. destruct (lrun_is_run pf true jobs lsched (init jobs m0)) as [sched ->].
  exact (isolated_locked pf jobs m0 sched G).
Qed.
Print Assumptions isolated_at_line_level.

(* the memo is sound again whenever the lock is free: the hypothesis [Good m0] holds for the next batch of reads *)
Theorem memo_sound_between_reads : forall (pf : option N -> N) jobs m0 sched, Good m0 ->
  let st := run pf true jobs sched (init jobs m0) in
  sh_lock (st_sh st) = None -> Good (sh_memo (st_sh st)).
Proof. intros pf jobs m0 sched G. exact (proj1 (proj2 (run_inv pf jobs sched _ (init_inv pf jobs m0 G)))). Qed.
Print Assumptions memo_sound_between_reads.

(* [result_alone] is what the thread model itself returns when the read is made alone on an empty memo *)
Theorem alone_is_the_solo_run : forall (pf : option N -> N) j,
  let st := run pf true [j] (repeat 0%nat 13) (init [j] g_empty) in
  complete st = true /\ result_of st 0 = Some (result_alone j).
Proof. exact alone_run. Qed.
Print Assumptions alone_is_the_solo_run.

(* the body: for threads with a plain reader (bytes, or a stream without window) the returned pose is
   Pose.read of the sequential model on an empty memo.  PARTIAL: for BytesIOReader threads (window read of a
   stream) the thread model stops at the proved (header, offset); the body is covered by the next theorem. *)
Theorem isolated_pose_partial : forall (pf : option N -> N) jobs m0 sched, Good m0 ->
  let st := run pf true jobs sched (init jobs m0) in
  complete st = true ->
  forall t j, nth_error jobs t = Some j ->
  exists r, result_of st t = Some r /\
            req (pose_from j r) (fst (read_bytes no_legacy None (j_file j) (j_args j))).
Proof.
  intros pf jobs m0 sched G st Hc t j Hj. exists (result_alone j).
  split; [exact (isolated_locked pf jobs m0 sched G Hc t j Hj)|apply pose_from_alone].
Qed.
Print Assumptions isolated_pose_partial.

(* BytesIOReader threads: a stream reader holding ANY prefix of the file (whatever prefetch length the thread
   took from the memo at pose.py:60) and positioned at the (header, offset) of [isolated] returns the pose that
   the same file gives when read as bytes, alone, on an empty memo.  PARTIAL: forward direction only (the bytes
   read succeeds; via the reader simulation of C03), and the reader state "some prefix, offset inside it" is
   the modelled shape of a thread's reader, not a component of the thread model's result. *)
Theorem isolated_stream_body_partial : forall j h e L pl pose,
  result_alone j = ROk h e -> (e <= lenN (takeN L (j_file j)))%N ->
  fst (read_bytes no_legacy None (j_file j) (j_args j)) = Ok pose ->
  exists b sr', run_stream (j_file j) (read_body no_legacy h (j_args j))
                  {| buf := takeN L (j_file j); off := e; skipped := 0%N; pulled := pl |} = Ok (b, sr') /\
                pose = {| p_header := h; p_body := b |}.
Proof.
  intros j h e L pl pose Ha He Hb. pose proof (pose_from_alone j) as R. rewrite Ha, Hb in R. cbn [pose_from] in R.
  destruct (run_plain (read_body no_legacy h (j_args j)) _) as [[b r']|] eqn:Eb; cbn [rmap req] in R; [|contradiction].
  destruct (stream_body_any_prefetch _ _ _ _ L pl _ _ He Eb) as [sr' Hs]. exists b, sr'. split; [exact Hs|now symmetry].
Qed.
Print Assumptions isolated_stream_body_partial.

(* ... and without the hypothesis that the bytes read succeeds: two BytesIOReaders at the same (header, offset), whatever prefix of
   the file each holds (the thread's prefetch length comes from a memo another thread may just have replaced; the solo read's from
   an empty one), decode the same body or both raise.  With [isolated] this is the isolation of the whole pose for window reads of
   streams, for every outcome. *)
Theorem isolated_stream_body : forall file h a e L L' pl pl',
  (e <= lenN (takeN L file))%N -> (e <= lenN (takeN L' file))%N ->
  match run_stream file (read_body no_legacy h a) {| buf := takeN L file; off := e; skipped := 0%N; pulled := pl |},
        run_stream file (read_body no_legacy h a) {| buf := takeN L' file; off := e; skipped := 0%N; pulled := pl' |} with
  | Ok (b, _), Ok (b', _) => b = b'
  | Err _, Err _ => True
  | _, _ => False
  end.
Proof. exact stream_body_prefetch_irrelevant. Qed.
Print Assumptions isolated_stream_body.

(* without the lock (defect F13; also the mutant "remove the lock") the statement is false; the witness switches
   threads only at line boundaries: thread 0 passes the hash comparison, thread 1 stores another file's header,
   thread 0 returns it *)
Theorem isolated_refuted : exists pf jobs m0 lsched, Good m0 /\
  let st := lrun pf false jobs lsched (init jobs m0) in
  complete st = true /\ exists t j, nth_error jobs t = Some j /\ result_of st t <> Some (result_alone j).
Proof.
  exists pf0, [jb fileA; jb fileB], (memo_after fileA), sched_foreign_header.
  split; [apply good_memo_after|].
  destruct refuted_foreign_header as (Hc & Hne & _).
  split; [exact Hc|]. exists 0%nat, (jb fileA). split; [reflexivity|exact Hne].
Qed.
Print Assumptions isolated_refuted.

Theorem isolated_refuted_any_granularity : exists pf jobs m0 sched, Good m0 /\
  let st := run pf false jobs sched (init jobs m0) in
  complete st = true /\ exists t j, nth_error jobs t = Some j /\ result_of st t <> Some (result_alone j).
Proof.
  destruct isolated_refuted as (pf & jobs & m0 & ls & G & H).
  destruct (lrun_is_run pf false jobs ls (init jobs m0)) as [sched E]. cbv zeta in H. rewrite E in H.
  exists pf, jobs, m0, sched. split; [exact G|exact H].
Qed.
Print Assumptions isolated_refuted_any_granularity.

(* the two shapes of the defect: a foreign header; the own header with a foreign end offset *)
Example refuted_witness_foreign_header :
  let st := lrun pf0 false [jb fileA; jb fileB] sched_foreign_header (init [jb fileA; jb fileB] (memo_after fileA)) in
  complete st = true /\ result_of st 0 <> Some (result_alone (jb fileA)) /\
  result_of st 0 = Some (result_alone (jb fileB)).
Proof. exact refuted_foreign_header. Qed.
Print Assumptions refuted_witness_foreign_header.

Example refuted_witness_foreign_offset :
  let st := lrun pf0 false [jb fileA; jb fileC] sched_foreign_offset (init [jb fileA; jb fileC] (memo_after fileA)) in
  complete st = true /\ result_of st 0 <> Some (result_alone (jb fileA)) /\
  (exists h, result_of st 0 = Some (ROk h 22) /\ result_alone (jb fileA) = ROk h 12).
Proof. vm_compute. split; [reflexivity|]. split; [intros H; discriminate H|]. eexists. split; reflexivity. Qed.
Print Assumptions refuted_witness_foreign_offset.

(* non-vacuity of the hypotheses of [isolated]: a warm sound memo; three threads with pairwise different
   answers and a complete interleaved schedule; the refuting schedules are harmless with the lock *)
Example hypotheses_satisfiable_memo : Good (memo_after fileA) /\ g_hash (memo_after fileA) <> None.
Proof. exact good_nonempty. Qed.
Print Assumptions hypotheses_satisfiable_memo.

Example hypotheses_satisfiable_schedule :
  let jobs := [jb fileA; jb fileC; jb fileB] in
  let sched := concat (repeat [0; 1; 2; 2; 1; 0; 1] 20)%nat in
  complete (run pf0 true jobs sched (init jobs (memo_after fileA))) = true.
Proof. exact isolated_nonvacuous. Qed.
Print Assumptions hypotheses_satisfiable_schedule.

Example results_distinguish_files : result_alone (jb fileA) <> result_alone (jb fileB) /\ result_alone (jb fileA) <> RFail.
Proof. exact alone_distinct. Qed.
Print Assumptions results_distinguish_files.

Example refuting_schedule_harmless_with_lock :
  let st1 := lrun pf0 true [jb fileA; jb fileB] (sched_foreign_header ++ [0; 1; 0; 1; 1; 1; 1; 1; 1; 1; 1; 1; 1; 1; 1; 1]%nat)
               (init [jb fileA; jb fileB] (memo_after fileA)) in
  complete st1 = true /\ result_of st1 0 = Some (result_alone (jb fileA)) /\ result_of st1 1 = Some (result_alone (jb fileB)).
Proof. exact locked_same_schedules. Qed.
Print Assumptions refuting_schedule_harmless_with_lock.

(* tie (a): the access programme regenerated from the source on this run is the modelled one *)
Theorem source_access_programme_tie : modelled_programme.
Proof.
  (* one line per table: a failure names, by its line, the function whose accesses changed *)
  repeat apply conj.
  - reflexivity.
  - reflexivity.
  - reflexivity.
  - reflexivity.
  - reflexivity.
  - reflexivity.
  - reflexivity.
Qed.
Print Assumptions source_access_programme_tie.

(* tie (a'): module/class-level state inventory and every access to it on the read path, regenerated on this run *)
Theorem source_shared_state_tie : modelled_state.
Proof.
  split.
  - reflexivity.
  - reflexivity.
Qed.
Print Assumptions source_shared_state_tie.

(* the second piece of process-global state, BufferReader.unpack_f's per-format struct memo on ConstStructs
   (model/C18_StructMemo.v; step = one hasattr / setattr / getattr): any number of threads, any schedule, any
   canonical initial table - every unpack_f call hands `unpack` the struct it would build alone and never meets
   AttributeError.  So the header parse that [isolated] treats as a thread-local computation reads nothing
   schedule-dependent from this memo.  (The two models are composed by this argument, not as one transition system.) *)
Theorem struct_memo_isolated : forall (S : Type) (mk : N -> S) jobs t0 sched i keys r, Canon S mk t0 ->
  nth_error jobs i = Some keys ->
  nth_error (ss_pcs (srun S mk sched (sinit S jobs t0))) i = Some (S_done r) ->
  r = Some (structs_alone S mk keys).
Proof.
  intros S mk jobs t0 sched i keys r C Hk Hp.
  destruct (srun_inv S mk jobs sched _ (sinit_inv S mk jobs t0 C)) as [_ F].
  destruct (ListFacts.Forall2_nth_error _ _ _ F i _ Hp) as (keys' & Hk' & Hok). rewrite Hk in Hk'. injection Hk' as <-. exact Hok.
Qed.
Print Assumptions struct_memo_isolated.

Example struct_memo_nonvacuous :
  let st := srun N (fun k => k) [0; 1; 1; 0; 1; 0; 0; 1; 0; 1; 0; 1; 0; 1; 1; 0; 0]%nat (sinit N [[5; 7]; [5; 3; 7]]%N []) in
  ss_pcs st = [S_done (Some [5; 7]%N); S_done (Some [5; 3; 7]%N)].
Proof. exact struct_memo_example. Qed.
Print Assumptions struct_memo_nonvacuous.
