(* C19 - OpenPose import puts every keypoint where it belongs.
   Model: model/C19_OpenPose.v (load_openpose, directory loaders), model/C19_FrameId.v (frame-id rule),
   vocabulary: model/C19_Spec.v.  Proofs of more than a few lines are in proofs/C19_*.v.
   Numbers of the JSON are binary64 words, cells of the pose float32 words; cast32 = base/F32.v f64_to_f32. *)
From Coq Require Import String List Arith NArith ZArith Bool.
Require Import Result F32 C19_Tables C19_Layout C19_FrameId C19_OpenPose C19_Spec
               C19_LoadProofs C19_FrameIdProofs C19_Theorems C19_Examples C19_GenTie Gen_C19.
Import ListNotations.
Local Open Scope nat_scope.

(* Frame f, person p, point k (= point i of component c of the 137-point table) holds the float32 of the x, y and
   confidence that frame f's JSON lists for that person at positions stride*i + 0/1/2 of field c, stride = len(format);
   the point is missing exactly when the stored confidence is +-0. *)
Theorem cell_exact : forall (fs : frames) fps w h d nf ps,
  load_openpose comps137 fs fps w h d nf = Ok ps -> dict_ok fs -> count_ok fs nf -> frames_conform comps137 fs ->
  forall f p k per c i, json_person fs f p = Some per -> locate comps137 k = Some (c, i) ->
  let stride := length (c_format c) in
  exists numbers x y cf, lookup (c_name c) per = Some numbers /\
    nth_error numbers (stride * i + 0) = Some x /\ nth_error numbers (stride * i + 1) = Some y /\
    nth_error numbers (stride * i + 2) = Some cf /\
    data_at ps f p k 0 = Some (cast32 x) /\ data_at ps f p k 1 = Some (cast32 y) /\ conf_at ps f p k = Some (cast32 cf) /\
    mask_at ps f p k 0 = Some (is_zero32 (cast32 cf)) /\ mask_at ps f p k 1 = Some (is_zero32 (cast32 cf)).
Proof.
  intros fs fps w h d nf ps Hload Hdict Hcount Hconf f p k per c i Hper Hloc stride.
  destruct (locate_lt _ _ _ _ Hloc) as (Hk & _ & Hin).
  assert (Hst : stride = 3) by exact (proj1 (Forall_forall _ _) comps137_xyc c Hin).
  destruct (conforming_triples comps137 per (json_person_Forall _ _ _ _ _ Hconf Hper)) as (ts & Ets & _ & Hts).
  destruct (Hts k c i Hloc) as (ns & x & y & cf & El & N0 & N1 & N2 & Nk).
  exists ns, x, y, cf. rewrite Hst, Nat.add_0_r. split; [exact El|]. split; [exact N0|]. split; [exact N1|]. split; [exact N2|].
  exact (listed_137 fs fps w h d nf ps Hload Hdict Hcount (conforms_fits _ _ Hconf) f p k per ts x y cf Hper Ets Nk Hk).
Qed.
Print Assumptions cell_exact.

(* non-vacuity: a dictionary with ids {2, 0}, 2 and 1 people, requested count 3, fps 29.97 satisfies every hypothesis
   of cell_exact / absent_missing / shape, and the run shows the values listed in C19_Examples.ex_checks *)
Example cell_exact_hypotheses_satisfiable :
  exists ps per c, load_openpose comps137 ex_frames ex_fps 1920 1080 0 (Some 3) = Ok ps /\
    dict_ok ex_frames /\ count_ok ex_frames (Some 3) /\ frames_conform comps137 ex_frames /\
    json_person ex_frames 2 1 = Some per /\ locate comps137 26 = Some (c, 1) /\ c_name c = nth 1 (map c_name comps137) [] /\
    json_person ex_frames 1 0 = None /\ json_person ex_frames 0 1 = None /\ json_person ex_frames 3 0 = None /\
    ex_checks ps = true.
Proof. exact ex_137_hypotheses. Qed.
Print Assumptions cell_exact_hypotheses_satisfiable.

(* every keypoint index below 137 is a point of exactly one component, and conforming non-empty dictionaries never raise *)
Theorem every_point_located : forall k, k < 137 -> exists c i, locate comps137 k = Some (c, i).
Proof. exact (locate_some comps137). Qed.
Print Assumptions every_point_located.
Theorem load_total : forall (fs : frames) fps w h d nf,
  fs <> [] -> dict_ok fs -> count_ok fs nf -> frames_conform comps137 fs ->
  exists ps, load_openpose comps137 fs fps w h d nf = Ok ps.
Proof.
  intros fs fps w h d nf Hne Hd Hc Hconf.
  destruct (load_general comps137 fs fps w h d nf comps137_xyc Hne Hd Hc (conforms_fits _ _ Hconf)) as (ps & E & _). eauto.
Qed.
Print Assumptions load_total.

(* frames absent from the input, people absent from a frame, frames beyond the last present one up to the requested
   count: entirely missing (values 0, confidence 0, masked) *)
Theorem absent_missing : forall (fs : frames) fps w h d nf ps,
  load_openpose comps137 fs fps w h d nf = Ok ps -> dict_ok fs -> count_ok fs nf -> frames_conform comps137 fs ->
  forall f p k, f < frame_count fs nf -> p < max_people fs -> k < 137 -> json_person fs f p = None ->
  data_at ps f p k 0 = Some 0%N /\ data_at ps f p k 1 = Some 0%N /\ conf_at ps f p k = Some 0%N /\
  mask_at ps f p k 0 = Some true /\ mask_at ps f p k 1 = Some true.
Proof.
  intros fs fps w h d nf ps Hload Hdict Hcount Hconf f p k Hf Hp Hk Hnone.
  exact (reads_137 fs fps w h d nf ps Hload Hdict Hcount (conforms_fits _ _ Hconf) f p k _ _ _ Hf Hp Hk (expected_absent _ _ _ _ _ Hnone)).
Qed.
Print Assumptions absent_missing.
Theorem absent_cases : forall (fs : frames) f p,
  (~ In f (map fst fs) -> json_person fs f p = None) /\
  (forall fr, find_frame f fs = Some fr -> length fr <= p -> json_person fs f p = None) /\
  (last_id fs < f -> json_person fs f p = None).
Proof. exact (fun fs f p => conj (json_person_absent_frame fs f p) (conj (json_person_absent_person fs f p) (json_person_beyond_last fs f p))). Qed.
Print Assumptions absent_cases.

(* points with confidence 0 are missing - for every result of load_openpose, conforming input or not *)
Theorem conf0_missing : forall cs (fs : frames) fps w h d nf ps, load_openpose cs fs fps w h d nf = Ok ps ->
  forall f p k c, conf_at ps f p k = Some c ->
    mask_at ps f p k 0 = Some (is_zero32 c) /\ mask_at ps f p k 1 = Some (is_zero32 c).
Proof. exact conf_mask. Qed.
Print Assumptions conf0_missing.

(* frames = requested count or last id + 1, people = maximum over the frames, 137 points, 2 dimensions; all arrays rectangular *)
Theorem shape : forall (fs : frames) fps w h d nf ps,
  load_openpose comps137 fs fps w h d nf = Ok ps -> dict_ok fs -> count_ok fs nf -> frames_conform comps137 fs ->
  p_shape ps = (frame_count fs nf, max_people fs, 137) /\ pose_shape_ok ps.
Proof.
  intros fs fps w h d nf ps Hload Hdict Hcount Hconf.
  destruct (general_137 fs fps w h d nf ps Hload Hdict Hcount (conforms_fits _ _ Hconf)) as (A & B & _). auto.
Qed.
Print Assumptions shape.

(* the requested size and frame rate are recorded in the result (every input; fps as given, e.g. 29.97 stays 29.97) *)
Theorem dims_fps_recorded : forall cs (fs : frames) fps w h d nf ps, load_openpose cs fs fps w h d nf = Ok ps ->
  p_dims ps = (w, h, d) /\ p_fps ps = fps /\ p_comps ps = cs.
Proof. exact recorded. Qed.
Print Assumptions dims_fps_recorded.

(* the general form behind the theorems above: any table with three-letter formats, any input whose people list whole
   triples fitting the table (137 layout, 135 layout, shorter or longer fields) - the running keypoint index *)
Theorem cell_general : forall cs (fs : frames) fps w h d nf,
  formats_xyc cs -> fs <> [] -> dict_ok fs -> count_ok fs nf -> frames_fit cs fs ->
  exists ps, load_openpose cs fs fps w h d nf = Ok ps /\
    p_comps ps = cs /\ p_dims ps = (w, h, d) /\ p_fps ps = fps /\
    p_shape ps = (frame_count fs nf, max_people fs, total_points cs) /\ pose_shape_ok ps /\
    forall f p k, f < frame_count fs nf -> p < max_people fs -> k < total_points cs ->
      cell_at ps f p k = Some (expected_cell cs fs f p k) /\
      forall x y c, expected_cell cs fs f p k = (x, y, c) ->
        mask_at ps f p k 0 = Some (is_zero32 c) /\ mask_at ps f p k 1 = Some (is_zero32 c).
Proof. exact load_general. Qed.
Print Assumptions cell_general.

(* The frame number is the last digit group before "_keypoints.json": for  pre ++ [sep] ++ digits ++ "_keypoints.json"
   with sep any non-digit other than 'n' - in particular the documented form [ARBITRARY CHARACTERS]_[FRAME_ID]_keypoints.json
   (sep = '_') - whatever pre contains (other digit groups, other "_keypoints.json"), and for names without prefix.
   frame_id_of = the decimal value (int() refuses more than 4300 digits; file names have at most 255 bytes). *)
Theorem frame_id_last_group : forall pre sep ds,
  is_digit sep = false -> sep <> 110%N -> all_digits ds -> ds <> [] ->
  get_frame_id (pre ++ sep :: ds ++ SUFFIX) = frame_id_of ds.
Proof. exact frame_id_after_separator. Qed.
Print Assumptions frame_id_last_group.
Theorem frame_id_documented_format : forall arbitrary ds, all_digits ds -> ds <> [] ->
  get_frame_id (arbitrary ++ 95%N :: ds ++ SUFFIX) = frame_id_of ds.
Proof. intros arbitrary ds Hd Hne. apply frame_id_after_separator; [reflexivity|discriminate|exact Hd|exact Hne]. Qed.
Print Assumptions frame_id_documented_format.
Theorem frame_id_no_prefix : forall ds, all_digits ds -> ds <> [] -> get_frame_id (ds ++ SUFFIX) = frame_id_of ds.
Proof. exact frame_id_bare. Qed.
Print Assumptions frame_id_no_prefix.
(* "CAM2_000000000017_keypoints.json";  several digit groups and an embedded "_keypoints.json":
   "a_1_keypoints.json_02_keypoints.json" -> 2;  "keypoints.json": no match *)
Example frame_id_examples :
  get_frame_id name_CAM2_17 = Ok 17%N /\
  (let pre := [97;95;49;95;107;101;121;112;111;105;110;116;115;46;106;115;111;110]%N in
   let ds := [48; 50]%N in
   is_digit 95 = false /\ 95%N <> 110%N /\ all_digits ds /\ ds <> [] /\ frame_id_of ds = Ok 2%N /\
   get_frame_id (pre ++ 95%N :: ds ++ SUFFIX) = Ok 2%N) /\
  get_frame_id [107;101;121;112;111;105;110;116;115;46;106;115;111;110]%N = Err Index.
Proof.
  split; [vm_compute; reflexivity|]. split; [|vm_compute; reflexivity].
  cbv zeta. split; [reflexivity|]. split; [discriminate|]. split; [repeat constructor|]. split; [discriminate|].
  split; vm_compute; reflexivity.
Qed.
Print Assumptions frame_id_examples.
(* why 'n' is excluded (a name outside the documented format): when the digit group directly follows the "json" of an
   earlier match, re.findall has already consumed the 'n' that `\D` needs: "1_keypoints.json2_keypoints.json" -> 1 *)
Example frame_id_rule_boundary :
  get_frame_id ([49;95;107;101;121;112;111;105;110;116;115;46;106;115;111;110]%N ++ 50%N :: SUFFIX) = Ok 1%N.
Proof. vm_compute. reflexivity. Qed.
Print Assumptions frame_id_rule_boundary.

(* a directory whose files have distinct frame ids is loaded as the dictionary id -> file content *)
Theorem directory_frames : forall entries ids,
  Forall2 (fun e id => get_frame_id (fst e) = Ok (N.of_nat id)) entries ids -> NoDup ids ->
  dir_frames entries [] = Ok (combine ids (map snd entries)).
Proof. exact (fun entries ids H N => dir_frames_distinct entries ids [] H N). Qed.
Print Assumptions directory_frames.

(* the 135-point layout (openpose_135.py): 135 keypoints under the first field, sliced to 135 points *)
Theorem cell_exact_135_layout : forall entries (fs : frames) fps w h d nf ps,
  dir_frames entries [] = Ok fs -> load_openpose_135_directory entries fps w h d nf = Ok ps ->
  count_ok fs nf -> Forall (fun x => Forall person_conforms_135 (snd x)) fs ->
  p_comps ps = comps135 /\ p_dims ps = (w, h, d) /\ p_fps ps = fps /\ p_shape ps = (frame_count fs nf, max_people fs, 135) /\
  forall f p k, k < 135 ->
    (forall per, json_person fs f p = Some per ->
       exists numbers x y cf, lookup (c_name (nth 0 comps137 ([], [], [], []))) per = Some numbers /\
         nth_error numbers (3 * k + 0) = Some x /\ nth_error numbers (3 * k + 1) = Some y /\ nth_error numbers (3 * k + 2) = Some cf /\
         data_at ps f p k 0 = Some (cast32 x) /\ data_at ps f p k 1 = Some (cast32 y) /\ conf_at ps f p k = Some (cast32 cf) /\
         mask_at ps f p k 0 = Some (is_zero32 (cast32 cf)) /\ mask_at ps f p k 1 = Some (is_zero32 (cast32 cf))) /\
    (json_person fs f p = None -> f < frame_count fs nf -> p < max_people fs ->
       data_at ps f p k 0 = Some 0%N /\ data_at ps f p k 1 = Some 0%N /\ conf_at ps f p k = Some 0%N /\
       mask_at ps f p k 0 = Some true /\ mask_at ps f p k 1 = Some true).
Proof. exact cell_exact_135. Qed.
Print Assumptions cell_exact_135_layout.
Example layout_135_hypotheses_satisfiable :
  exists fs ps, dir_frames ex_entries_135 [] = Ok fs /\ load_openpose_135_directory ex_entries_135 ex_fps 640 480 0 None = Ok ps /\
    count_ok fs None /\ Forall (fun x => Forall person_conforms_135 (snd x)) fs /\ map fst fs = [3; 0] /\ ex_checks_135 ps = true.
Proof. exact ex_135_hypotheses. Qed.
Print Assumptions layout_135_hypotheses_satisfiable.

Theorem tables_ok :
  forallb comp_ok comps137 = true /\ forallb comp_ok comps135 = true /\ total_points comps137 = 137 /\ total_points comps135 = 135 /\
  formats_xyc comps137 /\ formats_xyc comps135.
Proof. exact tables_wellformed. Qed.
Print Assumptions tables_ok.
Theorem fields_137 : map c_name comps137 =
  [ [112;111;115;101;95;107;101;121;112;111;105;110;116;115;95;50;100];
    [102;97;99;101;95;107;101;121;112;111;105;110;116;115;95;50;100];
    [104;97;110;100;95;108;101;102;116;95;107;101;121;112;111;105;110;116;115;95;50;100];
    [104;97;110;100;95;114;105;103;104;116;95;107;101;121;112;111;105;110;116;115;95;50;100] ]%N
  /\ map (fun c => length (c_points c)) comps137 = [25; 70; 21; 21].
Proof. split; reflexivity. Qed.
Print Assumptions fields_137.

(* ties to the current source (coq/gen/Gen_C19.v is regenerated from /repo on every run) *)
Theorem gen_pattern_tie : Gen_C19.frame_pattern = C19_Tables.frame_pattern.
Proof. reflexivity. Qed.
Print Assumptions gen_pattern_tie.
Theorem gen_pattern_meaning_tie :
  key_of_string Gen_C19.frame_pattern = ([40; 63; 58; 94; 124; 92; 68; 41; 40; 92; 100; 43; 41; 92]%N ++ SUFFIX)%list.
Proof. vm_compute. reflexivity. Qed.
Print Assumptions gen_pattern_meaning_tie.
Theorem gen_components_137_tie : Gen_C19.components_137 = C19_Tables.components_137.
Proof. reflexivity. Qed.
Print Assumptions gen_components_137_tie.
Theorem gen_components_135_tie : Gen_C19.components_135 = C19_Tables.components_135.
Proof. reflexivity. Qed.
Print Assumptions gen_components_135_tie.
Theorem gen_layout_tie : comps137 = map enc_comp Gen_C19.components_137 /\ comps135 = map enc_comp Gen_C19.components_135 /\
                         pattern_k = key_of_string Gen_C19.frame_pattern.
Proof. repeat split; vm_compute; reflexivity. Qed.
Print Assumptions gen_layout_tie.
Theorem gen_load_openpose_tie : Gen_C19.src_load_openpose = C19_GenTie.lit_load_openpose.
Proof. reflexivity. Qed.
Print Assumptions gen_load_openpose_tie.
Theorem gen_get_frame_id_tie : Gen_C19.src_get_frame_id = C19_GenTie.lit_get_frame_id.
Proof. reflexivity. Qed.
Print Assumptions gen_get_frame_id_tie.
Theorem gen_load_frames_directory_dict_tie : Gen_C19.src_load_frames_directory_dict = C19_GenTie.lit_load_frames_directory_dict.
Proof. reflexivity. Qed.
Print Assumptions gen_load_frames_directory_dict_tie.
Theorem gen_load_openpose_directory_tie : Gen_C19.src_load_openpose_directory = C19_GenTie.lit_load_openpose_directory.
Proof. reflexivity. Qed.
Print Assumptions gen_load_openpose_directory_tie.
Theorem gen_limbs_index_tie : Gen_C19.src_limbs_index = C19_GenTie.lit_limbs_index.
Proof. reflexivity. Qed.
Print Assumptions gen_limbs_index_tie.
Theorem gen_load_openpose_135_directory_tie : Gen_C19.src_load_openpose_135_directory = C19_GenTie.lit_load_openpose_135_directory.
Proof. reflexivity. Qed.
Print Assumptions gen_load_openpose_135_directory_tie.
