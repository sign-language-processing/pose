(* C11 - list / dictionary lemmas used by the selection proofs. *)
From Coq Require Import List Arith Bool NArith ZArith Lia.
Require Import Result ResultFacts Tensor C11_Str C11_Select.
Import ListNotations.

Lemma str_eqb_spec a b : reflect (a = b) (str_eqb a b).
Proof. revert b; induction a as [|x a IH]; intros [|y b]; cbn [str_eqb]; try (constructor; congruence).
  destruct (N.eqb_spec x y) as [->|Hn]; cbn [andb].
  - destruct (IH b) as [->|Hn]; constructor; congruence.
  - constructor; congruence. Qed.
Lemma str_eqb_refl a : str_eqb a a = true.
Proof. destruct (str_eqb_spec a a); congruence. Qed.
Lemma str_eqb_neq a b : a <> b -> str_eqb a b = false.
Proof. destruct (str_eqb_spec a b); congruence. Qed.

Lemma mem_In x l : mem x l = true <-> In x l.
Proof. unfold mem. rewrite existsb_exists. split.
  - intros [y [Hy He]]. destruct (str_eqb_spec x y) as [->|]; [exact Hy|discriminate].
  - intros H. exists x. split; [exact H|apply str_eqb_refl]. Qed.
Lemma mem_false x l : mem x l = false <-> ~ In x l.
Proof. rewrite <- mem_In. destruct (mem x l); split; congruence. Qed.
Lemma nodupb_NoDup l : nodupb l = true <-> NoDup l.
Proof. induction l as [|a l IH]; cbn [nodupb]; [split; [constructor|reflexivity]|].
  rewrite andb_true_iff, negb_true_iff, IH, mem_false. split.
  - intros [H1 H2]. constructor; assumption.
  - intros H. inversion H; subst. split; assumption. Qed.

Lemma index_of_Some x l : forall k, index_of x l = Some k -> nth_error l k = Some x.
Proof. induction l as [|a l IH]; intros k; cbn [index_of]; [discriminate|].
  destruct (str_eqb_spec a x) as [->|Hn].
  - intros [= <-]. reflexivity.
  - destruct (index_of x l) as [j|]; cbn [option_map]; intros [= <-]. cbn [nth_error]. apply IH. reflexivity. Qed.
Lemma index_of_lt x l k : index_of x l = Some k -> k < length l.
Proof. intros H. apply index_of_Some in H. apply nth_error_Some. congruence. Qed.
Lemma index_of_In x l : In x l -> exists k, index_of x l = Some k.
Proof. induction l as [|a l IH]; intros H; [destruct H|]. cbn [index_of].
  destruct (str_eqb_spec a x) as [->|Hn]; [eexists; reflexivity|].
  destruct H as [->|H]; [congruence|]. destruct (IH H) as [k ->]. eexists; reflexivity. Qed.
Lemma index_of_None x l : index_of x l = None -> ~ In x l.
Proof. intros H Hi. destruct (index_of_In _ _ Hi) as [k Hk]. congruence. Qed.
Lemma index_of_nodup l : forall k x, NoDup l -> nth_error l k = Some x -> index_of x l = Some k.
Proof. induction l as [|a l IH]; intros k x Hn Hk; [destruct k; discriminate|].
  inversion Hn as [|? ? Ha Hl]; subst. cbn [index_of]. destruct k as [|k]; cbn [nth_error] in Hk.
  - injection Hk as ->. now rewrite str_eqb_refl.
  - destruct (str_eqb_spec a x) as [->|Hne].
    + exfalso. apply Ha. eapply nth_error_In; eassumption.
    + rewrite (IH k x Hl Hk). reflexivity. Qed.
Lemma index_of_nth_default l k x d : index_of x l = Some k -> nth k l d = x.
Proof. intros H. apply index_of_Some in H. now apply nth_error_nth. Qed.

Lemma assoc_last_In {V} k (d : list (str * V)) v : assoc_last k d = Some v -> In (k, v) d.
Proof. induction d as [|[k' v'] d IH]; cbn [assoc_last]; [discriminate|].
  destruct (assoc_last k d) as [x|].
  - intros [= <-]. right. now apply IH.
  - destruct (str_eqb_spec k' k) as [->|]; [intros [= <-]; now left|discriminate]. Qed.
Lemma assoc_last_None {V} k (d : list (str * V)) : assoc_last k d = None -> ~ In k (map fst d).
Proof. induction d as [|[k' v'] d IH]; cbn [assoc_last map fst]; [intros _ []|].
  destruct (assoc_last k d) as [x|]; [discriminate|].
  destruct (str_eqb_spec k' k) as [->|Hn]; [discriminate|]. intros _ [H|H]; [congruence|]. now apply IH. Qed.
Lemma assoc_last_nodup {V} k (d : list (str * V)) v : NoDup (map fst d) -> In (k, v) d -> assoc_last k d = Some v.
Proof. induction d as [|[k' v'] d IH]; intros Hn Hi; [destruct Hi|]. cbn [map fst] in Hn. inversion Hn as [|? ? Hk Hd]; subst.
  cbn [assoc_last]. destruct Hi as [[= -> ->]|Hi].
  - destruct (assoc_last k d) as [x|] eqn:E.
    + exfalso. apply Hk. apply assoc_last_In in E. change k with (fst (k, x)). now apply in_map.
    + now rewrite str_eqb_refl.
  - now rewrite (IH Hd Hi). Qed.
Lemma assoc_last_some_key {V} k (d : list (str * V)) : In k (map fst d) -> exists v, assoc_last k d = Some v.
Proof. intros H. destruct (assoc_last k d) as [v|] eqn:E; [eauto|]. apply assoc_last_None in E. contradiction. Qed.

Lemma nat_assoc_last_In k d v : nat_assoc_last k d = Some v -> In (k, v) d.
Proof. induction d as [|[k' v'] d IH]; cbn [nat_assoc_last]; [discriminate|].
  destruct (nat_assoc_last k d) as [x|].
  - intros [= <-]. right. now apply IH.
  - destruct (Nat.eqb_spec k' k) as [->|]; [intros [= <-]; now left|discriminate]. Qed.
Lemma nat_assoc_last_None k d : nat_assoc_last k d = None -> ~ In k (map fst d).
Proof. induction d as [|[k' v'] d IH]; cbn [nat_assoc_last map fst]; [intros _ []|].
  destruct (nat_assoc_last k d) as [x|]; [discriminate|].
  destruct (Nat.eqb_spec k' k) as [->|Hn]; [discriminate|]. intros _ [H|H]; [congruence|]. now apply IH. Qed.

Lemma rmapM_ok {A B} (f : A -> result B) l : (forall a, In a l -> exists b, f a = Ok b) -> exists r, rmapM f l = Ok r.
Proof. induction l as [|a l IH]; intros H; cbn [rmapM]; [eexists; reflexivity|].
  destruct (H a (or_introl eq_refl)) as [y ->]. cbn [rbind].
  destruct IH as [ys ->]; [intros; apply H; now right|]. cbn [rbind]. eexists; reflexivity. Qed.

Lemma Forall2_map_l {A B C} (R : C -> B -> Prop) (g : A -> C) l1 l2 :
  Forall2 R (map g l1) l2 <-> Forall2 (fun a b => R (g a) b) l1 l2.
Proof. split.
  - revert l2. induction l1 as [|a l1 IH]; intros l2 H; inversion H; subst; constructor; auto.
  - induction 1; cbn [map]; constructor; assumption. Qed.
Lemma Forall2_map_r {A B C} (R : A -> C -> Prop) (g : B -> C) l1 l2 :
  Forall2 (fun a b => R a (g b)) l1 l2 -> Forall2 R l1 (map g l2).
Proof. induction 1; cbn [map]; constructor; assumption. Qed.
Lemma Forall2_Forall_r {A B} (R : A -> B -> Prop) (Q : B -> Prop) l1 l2 :
  (forall a b, R a b -> Q b) -> Forall2 R l1 l2 -> Forall Q l2.
Proof. intros H. induction 1; constructor; eauto. Qed.
Lemma Forall2_nth_intro {A B} (R : A -> B -> Prop) : forall l1 l2, length l1 = length l2 ->
  (forall i a b, nth_error l1 i = Some a -> nth_error l2 i = Some b -> R a b) -> Forall2 R l1 l2.
Proof. induction l1 as [|x l1 IH]; intros [|y l2] Hl H; try discriminate; constructor.
  - apply (H 0); reflexivity.
  - apply IH; [cbn [length] in Hl; lia|]. intros i a b Ha Hb. apply (H (S i)); assumption. Qed.
Lemma Forall2_flat {A B} (R : A -> B -> Prop) : forall (l1 : list (list A)) (l2 : list (list B)),
  Forall2 (Forall2 R) l1 l2 -> Forall2 R (concat l1) (concat l2).
Proof. induction 1 as [|x y l1 l2 Hxy H IH]; cbn [concat]; [constructor|]. now apply Forall2_app. Qed.

Lemma nth_error_seq off n i k : nth_error (seq off n) i = Some k -> k = off + i /\ i < n.
Proof. intros H. assert (Hi : i < n) by (rewrite <- (seq_length n off); apply nth_error_Some; congruence).
  split; [|exact Hi]. apply (nth_error_nth _ _ 0) in H. rewrite seq_nth in H by exact Hi. lia. Qed.

Lemma filter_all {A} (f : A -> bool) l : (forall x, In x l -> f x = true) -> filter f l = l.
Proof. induction l as [|a l IH]; intros H; cbn [filter]; [reflexivity|].
  rewrite (H a (or_introl eq_refl)). f_equal. apply IH. intros; apply H; now right. Qed.
Lemma filter_none {A} (f : A -> bool) l : (forall x, In x l -> f x = false) -> filter f l = [].
Proof. induction l as [|a l IH]; intros H; cbn [filter]; [reflexivity|]. rewrite (H a (or_introl eq_refl)). apply IH. intros; apply H; now right. Qed.
Lemma map_filter_comm {A B} (g : A -> B) (f : B -> bool) l : map g (filter (fun a => f (g a)) l) = filter f (map g l).
Proof. induction l as [|a l IH]; cbn [map filter]; [reflexivity|]. destruct (f (g a)); cbn [map]; now rewrite IH. Qed.
Lemma NoDup_map_filter {A B} (g : A -> B) (f : A -> bool) l : NoDup (map g l) -> NoDup (map g (filter f l)).
Proof. induction l as [|a l IH]; intros H; cbn [filter map]; [constructor|]. cbn [map] in H. inversion H as [|? ? Ha Hl]; subst.
  destruct (f a); [|now apply IH]. cbn [map]. constructor; [|now apply IH].
  intros Hi. apply Ha. apply in_map_iff in Hi. destruct Hi as [x [Hx Hf]]. apply filter_In in Hf. rewrite <- Hx. apply in_map. tauto. Qed.
