(* C20: the fields of a batch of dictionaries are gathered BY KEY: examples whose dictionaries answer every key lookup alike
   (in particular the same items in another insertion order, keys distinct) are collated alike. *)
From Coq Require Import List ZArith Bool Permutation.
Require Import Result C20_Collate.
Import ListNotations.

Definition same_lookups (b b' : value) : Prop := forall k, field k b = field k b'.

Lemma rmapM_field_same k : forall rest rest', Forall2 same_lookups rest rest' -> rmapM (field k) rest = rmapM (field k) rest'.
Proof.
  induction 1 as [|b b' rest rest' Hb HF IH]; [reflexivity|]. cbn [rmapM]. rewrite (Hb k), IH. reflexivity.
Qed.
Lemma collate_fields_same f rest rest' : Forall2 same_lookups rest rest' ->
  forall kvs, collate_fields f rest kvs = collate_fields f rest' kvs.
Proof.
  intros HF kvs. induction kvs as [|[k v] kvs IH]; [reflexivity|]. cbn [collate_fields].
  rewrite (rmapM_field_same k rest rest' HF), IH. reflexivity.
Qed.
Theorem dict_batch_by_key kvs rest rest' pv : Forall2 same_lookups rest rest' ->
  collate_t (VDict kvs) rest pv = collate_t (VDict kvs) rest' pv.
Proof. intros HF. cbn [collate_t]. rewrite (collate_fields_same _ rest rest' HF). reflexivity. Qed.

(* a permutation of the items of a dictionary with distinct keys answers every lookup alike *)
Lemma assoc_perm {V} (l l' : list (key * V)) : NoDup (map fst l) -> Permutation l l' -> forall k, assoc k l = assoc k l'.
Proof.
  intros ND HP. induction HP as [|[k0 v0] l l' HP IH|[k0 v0] [k1 v1] l|l l' l'' H1 IH1 H2 IH2]; intros k.
  - reflexivity.
  - cbn [assoc]. destruct (list_eq_dec Z.eq_dec k k0); [reflexivity|]. apply IH. cbn in ND. now inversion ND.
  - cbn [assoc]. destruct (list_eq_dec Z.eq_dec k k1) as [E1|N1]; destruct (list_eq_dec Z.eq_dec k k0) as [E0|N0]; try reflexivity.
    subst. cbn in ND. inversion ND as [|? ? Hn _]. exfalso. apply Hn. left. reflexivity.
  - rewrite IH1 by exact ND. apply IH2. eapply Permutation_NoDup; [|exact ND]. apply Permutation_map. exact H1.
Qed.
