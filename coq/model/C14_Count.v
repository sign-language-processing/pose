(* C14 - new frame count of NumPyPoseBody.interpolate (definitions only).
   numpy/pose_body.py:360   _new_frames = round(_frames * new_fps / self.fps)
   binary64 product and quotient are the kernel's primitive floats (bit-exact with CPython); Python's
   round() of a float is "nearest integer, ties to even" of the exact binary64 value, raising
   ValueError on NaN and OverflowError on an infinity. *)
From Coq Require Import ZArith PrimFloat SpecFloat FloatOps List.
Require Import Result Num.
Local Open Scope Z_scope.

(* nearest integer, ties to even, of m * 2^e *)
Definition rhe_pos (m : positive) (e : Z) : Z :=
  match e with
  | Z0 => Zpos m
  | Zpos _ => Zpos m * 2 ^ e
  | Zneg k =>
      let d := 2 ^ (Zpos k) in
      let q := Zpos m / d in
      let r := Zpos m mod d in
      if 2 * r <? d then q else if d <? 2 * r then q + 1 else if Z.even q then q else q + 1
  end.
Definition sf_round (f : spec_float) : result Z :=
  match f with
  | S754_zero _ => Ok 0
  | S754_finite s m e => Ok (if s then - rhe_pos m e else rhe_pos m e)
  | S754_infinity _ => Err Overflow
  | S754_nan => Err Value
  end.
Definition py_round (f : float) : result Z := sf_round (Prim2SF f).
(* the quotient as Python evaluates it, left to right; x / 0.0 raises ZeroDivisionError *)
Definition count_quotient (frames : nat) (new_fps old_fps : float) : float :=
  PrimFloat.div (PrimFloat.mul (f_of_Z (Z.of_nat frames)) new_fps) old_fps.
(* numpy/pose_body.py:360-362; np.linspace raises ValueError for a negative number of samples *)
Definition new_frame_count (frames : nat) (new_fps old_fps : float) : result nat :=
  if PrimFloat.eqb old_fps 0 then Err ZeroDiv
  else do z <- py_round (count_quotient frames new_fps old_fps);
       if z <? 0 then Err Value else Ok (Z.to_nat z).
