(* C12 - progress: on a NumPy body satisfying the invariant, an operation whose (full) preconditions hold does not fail. *)
From Coq Require Import List Arith Bool ZArith Lia.
Require Import Result Tensor C12_Model C12_Tab C12_Inv.
Import ListNotations.

Lemma step_ok h be (r : result (tensor bool * tensor bool)) :
  (exists mc, r = Ok mc) -> exists st', (do mc <- r; Ok (mk_state h be mc)) = Ok st'.
Proof. intros [mc ->]. eexists. reflexivity. Qed.
(* the NumPy constructor accepts any pair of matching shapes with at least one dimension *)
Lemma fin_total r F P T D : (D =? 0) = false -> shape (fst r) = [F; P; T; D] -> shape (snd r) = [F; P; T] -> exists mc, np_fin r = Ok mc.
Proof. intros HD Hm Hc. unfold np_fin, np_ctor. rewrite (dims4_of_shapes _ _ _ _ _ _ Hm Hc). cbn [rbind]. rewrite HD. eexists. reflexivity. Qed.
Lemma norm_index_total F i : (- Z.of_nat F <=? i)%Z && (i <? Z.of_nat F)%Z = true -> exists k, norm_index true F i = Ok k.
Proof.
  intros Hi. apply andb_prop in Hi. destruct Hi as [A B]. unfold norm_index. rewrite A, B.
  destruct (0 <=? i)%Z eqn:E0; cbn [andb]; [eexists; reflexivity|].
  assert (Hneg : (i <? 0)%Z = true) by (apply Z.ltb_lt; apply Z.leb_gt in E0; lia). rewrite Hneg. eexists. reflexivity.
Qed.

(* counting lemmas for interpolate's compress/reshape step *)
Lemma count_lt_const n b : count_lt n (fun _ => b) = if b then n else 0.
Proof.
  unfold count_lt. destruct b.
  - replace (filter (fun _ : nat => true) (seq 0 n)) with (seq 0 n); [apply seq_length|].
    induction (seq 0 n) as [|x l IH]; cbn [filter]; [reflexivity|now rewrite <- IH].
  - induction (seq 0 n) as [|x l IH]; cbn [filter]; [reflexivity|exact IH].
Qed.
Lemma count_lt_ext n g h : (forall i, i < n -> g i = h i) -> count_lt n g = count_lt n h.
Proof.
  intros H. unfold count_lt. f_equal. apply filter_ext_in. intros i Hi. apply in_seq in Hi. apply H. destruct Hi as [_ Hi]. exact Hi.
Qed.
Lemma sum_indicator (g : nat -> bool) D l : list_sum (map (fun f => if g f then D else 0) l) = length (filter g l) * D.
Proof.
  induction l as [|x l IH]; [reflexivity|]. cbn [map filter].
  change (list_sum ((if g x then D else 0) :: map (fun f => if g f then D else 0) l))
    with ((if g x then D else 0) + list_sum (map (fun f => if g f then D else 0) l)).
  rewrite IH. destruct (g x); cbn [length]; lia.
Qed.
Lemma compress_ok_cons m c F P T D : Cons m c F P T D -> compress_ok F P T D m c = true.
Proof.
  intros [_ [_ [_ [_ Hcell]]]]. unfold compress_ok.
  apply all_lt_spec; intros p Hp. apply all_lt_spec; intros t Ht. apply orb_true_iff. right. apply Nat.eqb_eq.
  rewrite (map_ext_in _ (fun f => if negb (get3 c f p t) then D else 0)).
  - apply sum_indicator.
  - intros f Hf. apply in_seq in Hf.
    rewrite (count_lt_ext D _ (fun _ => negb (get3 c f p t))) by (intros d Hd; rewrite Hcell by (assumption || lia); reflexivity).
    apply count_lt_const.
Qed.

Theorem progress_np st o : Inv st -> s_be st = Np -> expects_ok_np st o = true -> exists st', step st o = Ok st'.
Proof.
  intros [F [P [T [D [Hne [Hfmt [HT HC]]]]]]] Hbe Hex.
  pose proof (cons_dims4 _ _ _ _ _ _ HC) as Hd. pose proof HC as [Hm [Hc [_ [_ Hcell]]]].
  unfold expects_ok_np in Hex. rewrite Hd in Hex. apply andb_prop in Hex. destruct Hex as [HD Hex]. apply negb_true_iff in HD.
  unfold step. rewrite Hd, Hbe. cbn [rbind only_np].
  destruct o as [cs pts|cs pts| |newF cz'|by_|ix|sel|sel|axis|ok|i1 i2|pp zs| | |lay| ]; try discriminate;
    rewrite ?pass_through_id; apply step_ok.
  - (* bbox *)
    unfold bbox_np. destruct (comp_ranges (s_hdr st) 0) as [|r0 rs'] eqn:Ers.
    { destruct (s_hdr st); [congruence|discriminate]. }
    rewrite <- Ers, HT, Nat.ltb_irrefl, HD. eapply (fin_total _ _ _ _ _ HD); reflexivity.
  - (* interpolate *)
    rewrite !andb_true_iff, !negb_true_iff in Hex. destruct Hex as [[[[HF1 HN] HP0] HT0] HL].
    unfold interpolate_np. rewrite HF1, HP0, HT0. cbn [orb].
    destruct (newF <? 0)%Z eqn:EN; [apply Z.ltb_lt in EN; apply Z.leb_le in HN; lia|].
    rewrite (compress_ok_cons _ _ _ _ _ _ HC), HL. eapply (fin_total _ _ _ _ _ HD); reflexivity.
  - (* slice_step *)
    apply negb_true_iff in Hex. unfold slice_step. rewrite Hex.
    destruct (0 <? by_)%Z; eapply (fin_total _ _ _ _ _ HD); reflexivity.
  - (* select_frames *)
    assert (Hix : exists ixn, rmapM (norm_index true F) ix = Ok ixn).
    { induction ix as [|i r IH]; [eexists; reflexivity|]. cbn [forallb] in Hex. apply andb_prop in Hex. destruct Hex as [Hi Hr].
      destruct (norm_index_total F i Hi) as [k Hk]. destruct (IH Hr) as [ixn Hn]. cbn [rmapM]. rewrite Hk, Hn. eexists. reflexivity. }
    destruct Hix as [ixn Hn]. unfold select_frames. rewrite Hn. eapply (fin_total _ _ _ _ _ HD); reflexivity.
  - (* dropout uniform *)
    unfold dropout. rewrite Hex. eapply (fin_total _ _ _ _ _ HD); reflexivity.
  - (* dropout normal *)
    unfold dropout. rewrite Hex. eapply (fin_total _ _ _ _ _ HD); reflexivity.
  - (* flip *)
    unfold flip_np. rewrite Hex. exact (fin_total (_, _) _ _ _ _ HD Hm Hc).
  - (* augment2d *)
    apply Nat.leb_le in Hex. unfold augment2d. destruct (D <? 2) eqn:E2; [apply Nat.ltb_lt in E2; lia|].
    eapply (fin_total _ _ _ _ _ HD); [reflexivity|exact Hc].
  - (* normalize *)
    unfold normalize. rewrite Hex. eexists. reflexivity.
  - (* normalize_distribution *)
    unfold normalize_distribution. rewrite Hex. eexists. reflexivity.
  - (* focus: the observed cell refutes "some dimension is masked everywhere" *)
    rewrite !andb_true_iff in Hex. destruct Hex as [[H0 H2] Hobs].
    unfold focus_np. apply negb_true_iff in H0. rewrite H0. apply Nat.leb_le in H2. destruct (D <? 2) eqn:E2; [apply Nat.ltb_lt in E2; lia|].
    apply ex_lt_spec in Hobs. destruct Hobs as [f [Hf Hobs]]. apply ex_lt_spec in Hobs. destruct Hobs as [p [Hp Hobs]].
    apply ex_lt_spec in Hobs. destruct Hobs as [t [Ht Hobs]]. apply negb_true_iff in Hobs.
    rewrite ex_lt_none; [eexists; reflexivity|].
    intros d Hd0. apply (all_lt_false F _ f Hf). apply (all_lt_false P _ p Hp). apply (all_lt_false T _ t Ht).
    rewrite Hcell by (assumption || lia). exact Hobs.
  - (* copy *)
    exact (fin_total (_, _) _ _ _ _ HD Hm Hc).
  - (* torch *)
    rewrite HD, Hex. eexists. reflexivity.
  - (* tensorflow *)
    rewrite HD. eexists. reflexivity.
Qed.
