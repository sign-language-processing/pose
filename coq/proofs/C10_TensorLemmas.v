(* C10 - generic lemmas about tabulated tensors, zipping, broadcasting, index arithmetic and slicing. *)
From Coq Require Import List Arith ZArith Bool Lia.
Require Import ListFacts Result Tensor C10_Tensor.
Import ListNotations.

(* [H : rbind r k = Ok _]: [r] is some [Ok x] (named [x], with [E : r = Ok x]) and [H] becomes [k x = Ok _] *)
Ltac binv H :=
  match type of H with
  | rbind ?r _ = Ok _ => let x := fresh "x" in let E := fresh "E" in destruct r as [x|] eqn:E; cbn [rbind] in H; [|discriminate H]
  end.

Lemma Forall_one {X} (P : X -> Prop) x : P x -> Forall P [x].
Proof. now repeat constructor. Qed.
Lemma map_seq_ext {X} (f g : nat -> X) n a : (forall k, a <= k < a + n -> f k = g k) -> map f (seq a n) = map g (seq a n).
Proof. intros H. apply map_ext_in. intros k Hk. apply in_seq in Hk. apply H. lia. Qed.
Lemma combine_map_same {X Y Z} (f : Z -> X) (g : Z -> Y) l : combine (map f l) (map g l) = map (fun i => (f i, g i)) l.
Proof. induction l as [|x l IH]; cbn; [reflexivity|]. now rewrite IH. Qed.
Lemma list_as_map_nth {X} (d : X) (l : list X) : l = map (fun k => nth k l d) (seq 0 (length l)).
Proof. induction l as [|x l IH]; cbn [length seq map nth]; [reflexivity|]. f_equal. rewrite <- seq_shift, map_map. exact IH. Qed.
Lemma map_snd_combine {X Y} (a : list X) (b : list Y) : length a = length b -> map snd (combine a b) = b.
Proof. revert b; induction a as [|x a IH]; intros [|y b] H; cbn in *; try discriminate; [reflexivity|]. f_equal. apply IH. lia. Qed.
Lemma combine_app {X Y} (a1 a2 : list X) (b1 b2 : list Y) : length a1 = length b1 ->
  combine (a1 ++ a2) (b1 ++ b2) = combine a1 b1 ++ combine a2 b2.
Proof. revert b1; induction a1 as [|x a IH]; intros [|y b] H; cbn in *; try discriminate; [reflexivity|]. f_equal. apply IH. lia. Qed.
Lemma combine_map_l {X X' Y} (u : X -> X') (a : list X) (b : list Y) :
  combine (map u a) b = map (fun p => (u (fst p), snd p)) (combine a b).
Proof. revert b; induction a as [|x a IH]; intros [|y b]; cbn; try reflexivity. now rewrite IH. Qed.
Lemma combine_const_r {X} (l : list X) n : n = length l -> combine l (map (fun _ : nat => true) (seq 0 n)) = map (fun x => (x, true)) l.
Proof. intros ->. generalize 0. induction l as [|x l IH]; intros a; cbn; [reflexivity|]. now rewrite IH. Qed.
Lemma forallb_snd_combine {X} (a : list X) (b : list bool) : length a = length b ->
  forallb snd (combine a b) = forallb (fun x => x) b.
Proof. revert b; induction a as [|x a IH]; intros [|y b] H; cbn in *; try discriminate; [reflexivity|]. f_equal. apply IH. lia. Qed.
Lemma Forall2_rev' {A B} (R : A -> B -> Prop) l1 l2 : Forall2 R l1 l2 -> Forall2 R (rev l1) (rev l2).
Proof. induction 1; cbn; [constructor|]. apply Forall2_app; [assumption|]. constructor; [assumption|constructor]. Qed.

(* extent [y] broadcasts to extent [x] *)
Definition le1 (x y : nat) : Prop := y = x \/ y = 1.
Lemma bshape_rev_le1 a b : Forall2 le1 a b -> bshape_rev a b = Ok a.
Proof. induction 1 as [|x y a b Hxy _ IH]; cbn; [reflexivity|]. rewrite IH; cbn [rbind].
  destruct Hxy as [-> | ->]; [now rewrite Nat.eqb_refl|]. now destruct (Nat.eqb x 1). Qed.
Lemma broadcast_le1 s ks : Forall2 le1 s ks -> broadcast_shapes s ks = Ok s.
Proof. intros H. unfold broadcast_shapes. rewrite bshape_rev_le1 by now apply Forall2_rev'. cbn. now rewrite rev_involutive. Qed.
Lemma le1_refl s : Forall2 le1 s s.
Proof. induction s; constructor; [now left | assumption]. Qed.
Lemma broadcast_shapes_same s : broadcast_shapes s s = Ok s.
Proof. apply broadcast_le1, le1_refl. Qed.

Lemma tensor_eq {X} (a b : tensor X) : shape a = shape b -> data a = data b -> a = b.
Proof. destruct a, b; cbn. congruence. Qed.

Lemma tabulate_wf {X} ns (c : nat -> X) : wf (tabulate ns c).
Proof. unfold wf, tabulate; cbn. now rewrite map_length, seq_length. Qed.
Lemma tabulate_ext {X} ns (c1 c2 : nat -> X) : (forall k, k < prod ns -> c1 k = c2 k) -> tabulate ns c1 = tabulate ns c2.
Proof. intros H. unfold tabulate. f_equal. apply map_seq_ext. intros k Hk. apply H. lia. Qed.
Lemma tabulate_nth {X} ns (c : nat -> X) k d : k < prod ns -> nth k (data (tabulate ns c)) d = c k.
Proof. apply nth_map_seq. Qed.
Lemma tzip_tabulate {X Y} ns (c1 : nat -> X) (c2 : nat -> Y) :
  tzip (tabulate ns c1) (tabulate ns c2) = tabulate ns (fun k => (c1 k, c2 k)).
Proof. unfold tzip, tabulate; cbn. f_equal. apply combine_map_same. Qed.
Lemma tmap_tabulate {X Y} (g : X -> Y) ns c : tmap g (tabulate ns c) = tabulate ns (fun k => g (c k)).
Proof. unfold tmap, tabulate; cbn. f_equal. apply map_map. Qed.
Lemma tmap_tmap {X Y Z} (g : Y -> Z) (h : X -> Y) t : tmap g (tmap h t) = tmap (fun x => g (h x)) t.
Proof. unfold tmap; cbn [shape data]. now rewrite map_map. Qed.
Lemma reindex_tabulate {X} (d : X) ns f t :
  reindex d ns f t = tabulate ns (fun k => nth (ravel (shape t) (f (unravel ns k))) (data t) d).
Proof. reflexivity. Qed.
Lemma tensor_as_tabulate {X} (d : X) (t : tensor X) : wf t -> t = tabulate (shape t) (fun k => nth k (data t) d).
Proof. intros H. destruct t as [s l]. unfold wf, tabulate in *; cbn in *. f_equal. rewrite <- H. apply list_as_map_nth. Qed.
Lemma tmap_as_tabulate {X Y} (g : X -> Y) (d : X) (t : tensor X) : wf t ->
  tmap g t = tabulate (shape t) (fun k => g (nth k (data t) d)).
Proof. intros H. rewrite (tensor_as_tabulate d t H) at 1. apply tmap_tabulate. Qed.
Lemma tmap_wf' {X Y} (g : X -> Y) t : wf t -> wf (tmap g t).
Proof. apply tmap_wf. Qed.

Lemma nth_tzip {X Y} (da : X) (db : Y) (a : tensor X) (b : tensor Y) k : length (data a) = length (data b) ->
  nth k (data (tzip a b)) (da, db) = (nth k (data a) da, nth k (data b) db).
Proof. intros H. unfold tzip; cbn. now apply combine_nth. Qed.
Lemma tzip_wf {X Y} (a : tensor X) (b : tensor Y) : wf a -> length (data a) = length (data b) -> wf (tzip a b).
Proof. unfold wf, tzip; cbn. intros Ha Hl. rewrite combine_length, <- Hl, Nat.min_id. exact Ha. Qed.
Lemma apply_plan_zip {X Y} (da : X) (db : Y) p (a : tensor X) (b : tensor Y) ns f :
  shape a = shape b -> length (data a) = length (data b) -> p (shape a) = Ok (ns, f) ->
  apply_plan (da, db) p (tzip a b) = Ok (tzip (reindex da ns f a) (reindex db ns f b)).
Proof. intros Hs Hl Hp. unfold apply_plan. cbn [shape tzip]. rewrite Hp. f_equal. now apply reindex_zip. Qed.
Lemma bget_tzip {X Y} (da : X) (db : Y) ns (a : tensor X) (b : tensor Y) k :
  shape a = shape b -> length (data a) = length (data b) ->
  bget (da, db) ns (tzip a b) k = (bget da ns a k, bget db ns b k).
Proof. intros Hs Hl. unfold bget. cbn [shape tzip]. rewrite <- Hs. now apply nth_tzip. Qed.
Lemma bzip_ok {X Y Z} (dx : X) (dy : Y) (g : X -> Y -> Z) a b t :
  bzip dx dy g a b = Ok t ->
  exists ns, broadcast_shapes (shape a) (shape b) = Ok ns /\ t = tabulate ns (fun k => g (bget dx ns a k) (bget dy ns b k)).
Proof. unfold bzip. destruct (broadcast_shapes (shape a) (shape b)) as [ns|e]; cbn; [|discriminate].
  intros H. injection H as <-. now exists ns. Qed.
Lemma bzip_of_shapes {X Y Z} (dx : X) (dy : Y) (g : X -> Y -> Z) a b ns :
  broadcast_shapes (shape a) (shape b) = Ok ns -> bzip dx dy g a b = Ok (tabulate ns (fun k => g (bget dx ns a k) (bget dy ns b k))).
Proof. unfold bzip. now intros ->. Qed.

Lemma flatcat_tzip {X Y} (ms : list (tensor X * tensor Y)) :
  Forall (fun m => length (data (fst m)) = length (data (snd m))) ms ->
  flatcat (map (fun m => tzip (fst m) (snd m)) ms) = tzip (flatcat (map fst ms)) (flatcat (map snd ms))
  /\ length (data (flatcat (map fst ms))) = length (data (flatcat (map snd ms))).
Proof. intros H. unfold flatcat, tzip; cbn [shape data].
  assert (E : concat (map data (map (fun m : tensor X * tensor Y => mkT (shape (fst m)) (combine (data (fst m)) (data (snd m)))) ms))
              = combine (concat (map data (map fst ms))) (concat (map data (map snd ms)))
            /\ length (concat (map data (map fst ms))) = length (concat (map data (map snd ms)))).
  { induction H as [|m ms Hm Hms IH]; cbn; [split; reflexivity|]. destruct IH as [IH1 IH2]. split.
    - rewrite IH1. symmetry. now apply combine_app.
    - rewrite !app_length. lia. }
  destruct E as [E1 E2]. split; [|exact E2]. rewrite E1. f_equal. f_equal. rewrite combine_length, <- E2. apply Nat.min_id. Qed.

Lemma in_range_length s ix : in_range s ix -> length ix = length s.
Proof. induction 1; cbn; congruence. Qed.
Lemma bcast_pair_id s ix : in_range s ix -> bcast_pair ix s = ix.
Proof. induction 1 as [|i e ix s Hi _ IH]; cbn; [reflexivity|]. rewrite IH. f_equal.
  destruct (Nat.eqb_spec e 1); lia. Qed.
Lemma bcast_ix_id s ix : in_range s ix -> bcast_ix s ix = ix.
Proof. intros H. unfold bcast_ix. rewrite (in_range_length _ _ H), Nat.sub_diag. cbn [skipn]. now apply bcast_pair_id. Qed.
Lemma bget_same {X} (d : X) (t : tensor X) k : k < prod (shape t) -> bget d (shape t) t k = nth k (data t) d.
Proof. intros Hk. unfold bget. rewrite bcast_ix_id by now apply unravel_in_range. now rewrite ravel_unravel. Qed.
Lemma bzip_same {X Y Z} (dx : X) (dy : Y) (g : X -> Y -> Z) a b : shape a = shape b ->
  bzip dx dy g a b = Ok (tabulate (shape a) (fun k => g (nth k (data a) dx) (nth k (data b) dy))).
Proof. intros Hs. unfold bzip. rewrite <- Hs, broadcast_shapes_same. cbn [rbind]. f_equal. apply tabulate_ext. intros k Hk.
  rewrite bget_same by exact Hk. rewrite Hs. rewrite bget_same by (now rewrite <- Hs). reflexivity. Qed.
Lemma bzip_same_zip {X Y Z} (dx : X) (dy : Y) (g : X -> Y -> Z) a b : wf a -> wf b -> shape a = shape b ->
  bzip dx dy g a b = Ok (tmap (fun p => g (fst p) (snd p)) (tzip a b)).
Proof. intros Ha Hb Hs. rewrite (bzip_same _ _ _ _ _ Hs). f_equal.
  assert (Hl : length (data a) = length (data b)) by (unfold wf in *; congruence).
  rewrite (tmap_as_tabulate _ (dx, dy)) by now apply tzip_wf. apply tabulate_ext. intros k _. now rewrite nth_tzip. Qed.

Lemma remove_at_S {A} d (x : A) l : remove_at (S d) (x :: l) = x :: remove_at d l.
Proof. reflexivity. Qed.
Lemma insert_at_S {A} d (y x : A) l : insert_at (S d) y (x :: l) = x :: insert_at d y l.
Proof. reflexivity. Qed.
Lemma replace_at_S {A} d (y x : A) l : replace_at (S d) y (x :: l) = x :: replace_at d y l.
Proof. reflexivity. Qed.
Lemma in_range_insert d : forall s j i, d < length s -> in_range (remove_at d s) j -> i < nth d s 0 -> in_range s (insert_at d i j).
Proof. induction d as [|d IH]; intros [|e s] j i Hd Hj Hi; cbn [length] in Hd; try lia.
  - unfold remove_at in Hj; cbn in Hj. unfold insert_at; cbn. constructor; assumption.
  - rewrite remove_at_S in Hj. inversion Hj as [|i0 e0 j' s' Hi0 Hj']; subst. rewrite insert_at_S. constructor; [assumption|].
    apply IH; [lia | assumption | exact Hi]. Qed.
Lemma remove_insert {A} d : forall (i : A) j, d <= length j -> remove_at d (insert_at d i j) = j.
Proof. induction d as [|d IH]; intros i [|x j] H; cbn [length] in H; try lia; try reflexivity.
  rewrite insert_at_S, remove_at_S. f_equal. apply IH. lia. Qed.
Lemma length_remove_at {A} d (l : list A) : d < length l -> length (remove_at d l) = length l - 1.
Proof. intros H. unfold remove_at. rewrite app_length, firstn_length, skipn_length. lia. Qed.
Lemma bcast_pair_keep d : forall s ix, d < length s -> in_range s ix -> bcast_pair ix (replace_at d 1 s) = replace_at d 0 ix.
Proof. induction d as [|d IH]; intros [|e s] ix Hd Hr; cbn [length] in Hd; try lia; inversion Hr as [|i e' ix' s' Hi Hr']; subst.
  - unfold replace_at; cbn. f_equal. now apply bcast_pair_id.
  - rewrite !replace_at_S. cbn [bcast_pair]. rewrite IH by (assumption || lia). f_equal. destruct (Nat.eqb_spec e 1); lia. Qed.
Lemma prod_keep d : forall s, prod (replace_at d 1 s) = prod (remove_at d s).
Proof. induction d as [|d IH]; intros [|e s]; try reflexivity.
  - unfold replace_at, remove_at; cbn. lia.
  - rewrite replace_at_S, remove_at_S. cbn [prod fold_right]. fold (prod (replace_at d 1 s)) (prod (remove_at d s)). now rewrite IH. Qed.
Lemma ravel_keep d : forall s ix, d < length s -> in_range s ix ->
  ravel (replace_at d 1 s) (replace_at d 0 ix) = ravel (remove_at d s) (remove_at d ix).
Proof. induction d as [|d IH]; intros [|e s] ix Hd Hr; cbn [length] in Hd; try lia; inversion Hr as [|i e' ix' s' Hi Hr']; subst.
  - unfold replace_at, remove_at; cbn. lia.
  - rewrite !replace_at_S, !remove_at_S. cbn [ravel]. rewrite IH by (assumption || lia). now rewrite prod_keep. Qed.
Lemma le1_replace d : forall s, d < length s -> Forall2 le1 s (replace_at d 1 s).
Proof. induction d as [|d IH]; intros [|e s] H; cbn [length] in H; try lia.
  - unfold replace_at; cbn. constructor; [now right | apply le1_refl].
  - rewrite replace_at_S. constructor; [now left | apply IH; lia]. Qed.
Lemma length_replace_at {A} d (x : A) l : d < length l -> length (replace_at d x l) = length l.
Proof. intros H. unfold replace_at. rewrite app_length, firstn_length. cbn [length]. rewrite skipn_length. lia. Qed.
Lemma bget_keep {Y} (dy : Y) d s (kt : tensor Y) ix : d < length s -> shape kt = replace_at d 1 s -> in_range s ix ->
  nth (ravel (shape kt) (bcast_ix (shape kt) ix)) (data kt) dy = nth (ravel (remove_at d s) (remove_at d ix)) (data kt) dy.
Proof. intros Hd Hs Hr. rewrite Hs. unfold bcast_ix. rewrite length_replace_at by exact Hd.
  rewrite (in_range_length _ _ Hr), Nat.sub_diag. cbn [skipn]. rewrite bcast_pair_keep, ravel_keep by assumption. reflexivity. Qed.

Lemma slices_nth {X} (dx : X) d (a : tensor X) k : k < prod (remove_at d (shape a)) ->
  nth k (data (slices dx d a)) []
  = map (fun i => nth (ravel (shape a) (insert_at d i (unravel (remove_at d (shape a)) k))) (data a) dx) (seq 0 (nth d (shape a) 0)).
Proof. intros H. unfold slices. now rewrite tabulate_nth. Qed.
(* [kt] has extent 1 on axis d (a keepdims reduction of [a]): zipping [a] with [kt] broadcast back and slicing along d is
   mapping, over slice k' of [a], the zip with the single cell k' of [kt].  Index computation: cell i of slice k' sits at
   [insert_at d i (unravel .. k')]; [bget_keep] sends that position of the broadcast [kt] to its cell k'. *)
Lemma slices_bzip_keep {X Y Z} (dx : X) (dy : Y) (dz : Z) (g : X -> Y -> Z) d (a : tensor X) (kt : tensor Y) :
  d < length (shape a) -> shape kt = replace_at d 1 (shape a) ->
  slices dz d (tabulate (shape a) (fun k => g (bget dx (shape a) a k) (bget dy (shape a) kt k)))
  = tabulate (remove_at d (shape a)) (fun k' => map (fun x => g x (nth k' (data kt) dy)) (nth k' (data (slices dx d a)) [])).
Proof. intros Hd Hs. unfold slices at 1. cbn [shape tabulate]. apply tabulate_ext. intros k' Hk'.
  rewrite slices_nth by exact Hk'. rewrite map_map. apply map_seq_ext. intros i Hi. cbn [data].
  pose proof (unravel_in_range _ _ Hk') as Hj.
  assert (Hix : in_range (shape a) (insert_at d i (unravel (remove_at d (shape a)) k'))) by (apply in_range_insert; [exact Hd | exact Hj | lia]).
  pose proof (ravel_lt _ _ Hix) as Hp.
  rewrite tabulate_nth by exact Hp. f_equal.
  - now apply bget_same.
  - unfold bget. rewrite unravel_ravel by exact Hix. rewrite (bget_keep dy d (shape a)) by assumption.
    rewrite remove_insert by (rewrite (in_range_length _ _ Hj), length_remove_at by exact Hd; lia).
    now rewrite ravel_unravel. Qed.

Lemma le1_ones (s : list nat) : Forall2 le1 s (map (fun _ => 1) s).
Proof. induction s; cbn; constructor; [now right | assumption]. Qed.
Lemma prod_ones (s : list nat) : prod (map (fun _ => 1) s) = 1.
Proof. induction s as [|e s IH]; cbn; [reflexivity|]. fold (prod (map (fun _ : nat => 1) s)). rewrite IH. reflexivity. Qed.
Lemma ravel_ones : forall (s ix : list nat), length ix = length s -> ravel (map (fun _ => 1) s) (bcast_pair ix (map (fun _ => 1) s)) = 0.
Proof. induction s as [|e s IH]; intros [|i ix] H; cbn in *; try reflexivity; try discriminate. rewrite IH by lia. lia. Qed.
Lemma bget_ones {Y} (dy : Y) (s : list nat) (kt : tensor Y) k : shape kt = map (fun _ => 1) s -> k < prod s -> bget dy s kt k = nth 0 (data kt) dy.
Proof. intros Hs Hk. unfold bget. rewrite Hs. unfold bcast_ix. rewrite map_length.
  pose proof (in_range_length _ _ (unravel_in_range _ _ Hk)) as Hl. rewrite Hl, Nat.sub_diag. cbn [skipn]. now rewrite ravel_ones. Qed.

Lemma slices_opt_tzip {X Y} (da : X) (db : Y) d (a : tensor X) (b : tensor Y) :
  shape a = shape b -> length (data a) = length (data b) ->
  exists ns ca cb, slices_opt da d a = tabulate ns ca /\ slices_opt db d b = tabulate ns cb
    /\ slices_opt (da, db) d (tzip a b) = tabulate ns (fun k => combine (ca k) (cb k))
    /\ forall k, length (ca k) = length (cb k).
Proof. intros Hs Hl. destruct d as [d|]; cbn [slices_opt].
  - unfold slices. cbn [shape tzip]. rewrite <- Hs. do 3 eexists. split; [reflexivity|]. split; [reflexivity|]. split.
    + apply tabulate_ext. intros k _. rewrite combine_map_same. apply map_ext. intros i. now apply combine_nth.
    + intros k. now rewrite !map_length.
  - exists [], (fun _ => data a), (fun _ => data b). now repeat split. Qed.
