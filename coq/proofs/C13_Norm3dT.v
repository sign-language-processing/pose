(* C13 - the 3-D normaliser over the reals, one row (a frame of a person): the unit plane normal, and what
   [normalize_row] does to a row that satisfies the hypotheses of the theorems. *)
From Coq Require Import Reals List Lra Lia Arith Bool.
Require Import Num RealFacts C13_Normalize C13_Norm3d C13_RBase C13_Norm3dP C13_Norm3dAlg.
Import ListNotations.
Open Scope R_scope.

Section Normal.
Variable n0 : rv.
Hypothesis Hn0 : sqn n0 <> 0.
Let N := rnorm n0.
Let n := rvdiv n0 N.
Lemma N_pos : 0 < N.
Proof. unfold N, norm. rsimp. apply sqrt_lt_R0. pose proof (sqn_nonneg n0). unfold sqn in *. lra. Qed.
Lemma N_sq : N * N = sqn n0.
Proof. unfold N, norm. rsimp. apply sqrt_sqrt. apply sqn_nonneg. Qed.
Lemma unit_normal : rdot n n = 1.
Proof. pose proof N_pos as Hp. replace 1 with (sqn n0 / (N * N)) by (rewrite N_sq; field; exact Hn0).
  unfold n, sqn. clearbody N. vsimp. field. lra. Qed.
Lemma normal_yz : vy n * vy n + vz n * vz n = (vy n0 * vy n0 + vz n0 * vz n0) / sqn n0.
Proof. pose proof N_pos as Hp. rewrite <- N_sq. unfold n. clearbody N. vsimp. field. lra. Qed.
Lemma normal_cross l : sqn (rcross l n) = sqn (rcross l n0) / sqn n0.
Proof. pose proof N_pos as Hp. rewrite <- N_sq. unfold n, sqn. clearbody N. vsimp. field. lra. Qed.
Lemma normal_dot w : rdot w n = rdot w n0 / N.
Proof. pose proof N_pos as Hp. unfold n. clearbody N. vsimp. field. lra. Qed.
End Normal.

Lemma normal3_eq A B C : normal3 A B C = rvdiv (plane_normal A B C) (rnorm (plane_normal A B C)).
Proof. reflexivity. Qed.
Lemma normal3_of_unit A B C n : plane_normal A B C = n -> sqn n = 1 -> normal3 A B C = n.
Proof. intros <- H. rewrite normal3_eq. unfold norm. fold (sqn (plane_normal A B C)). rsimp. rewrite H, sqrt_1.
  destruct (plane_normal A B C) as [x y z]. vsimp. f_equal; field. Qed.
Lemma plane_normal_sim a t A B C :
  plane_normal (simv a t A) (simv a t B) (simv a t C) = rvscale (plane_normal A B C) (a * a).
Proof. unfold plane_normal, simv. vsimp. f_equal; ring. Qed.
Lemma normal3_sim a t A B C : 0 < a -> noncollinear A B C ->
  normal3 (simv a t A) (simv a t B) (simv a t C) = normal3 A B C.
Proof. intros Ha Hn. rewrite !normal3_eq, plane_normal_sim. set (n0 := plane_normal A B C) in *.
  pose proof (N_pos n0 Hn) as Hp. unfold norm. rewrite dot_scale. rsimp.
  rewrite sqrt_sq_scal_pos by (try apply (sqn_nonneg n0); nra).
  change (rsqrt (rdot n0 n0)) with (rnorm n0). set (N := rnorm n0) in *. clearbody N. vsimp. f_equal; field; split; nra. Qed.

Lemma Rdiv_nz x y : x <> 0 -> y <> 0 -> x / y <> 0.
Proof. intros Hx Hy E. apply Rmult_integral in E. destruct E as [E|E]; [exact (Hx E)|exact (Rinv_neq_0_compat y Hy E)]. Qed.
(* the plane normal is orthogonal to the plane, so B, C and any point coplanar with them are as far from a
   plane with that normal as A is *)
Lemma plane_normal_B A B C : rdot (rvsub B A) (plane_normal A B C) = 0.
Proof. unfold plane_normal. vsimp. ring. Qed.
Lemma plane_normal_C A B C : rdot (rvsub C A) (plane_normal A B C) = 0.
Proof. unfold plane_normal. vsimp. ring. Qed.

Section RowT.
Variable zrot : R -> R -> R * R.
Hypothesis Hz : zrot_spec zrot.
Variables (pl1 pl2 pl3 l1 l2 : nat) (size : R).
Notation nrow := (normalize_row R_ops zrot pl1 pl2 pl3 l1 l2 size).
Notation observed5 := (refs_observed pl1 pl2 pl3 l1 l2).

Definition sim3 (a : R) (t : rv) (r : list rp3) : list rp3 := map (fun p => rmk (m3 p) (simv a t (c3 p))) r.
Lemma get3_sim3 a t r k : m3 (rget3 r k) = false -> rget3 (sim3 a t r) k = rmk false (simv a t (c3 (rget3 r k))).
Proof. intros H. unfold sim3. rewrite get3_map by exact H. rewrite H. reflexivity. Qed.

Section OneRow.
Variable r : list rp3.
Hypothesis Hobs : observed5 r.
Let A := c3 (rget3 r pl1). Let B := c3 (rget3 r pl2). Let C := c3 (rget3 r pl3).
Let L1 := c3 (rget3 r l1). Let L2 := c3 (rget3 r l2).
Hypothesis Hnx : normal_not_x A B C.
Hypothesis Hline : line_not_perp A B C L1 L2.
Let n := normal3 A B C.
Let cur := rsqrt (rdot (d_of zrot A n L1 L2) (d_of zrot A n L1 L2)).

Lemma row_noncollinear : noncollinear A B C.
Proof. apply normal_not_x_noncollinear. exact Hnx. Qed.
Lemma n_unit : rdot n n = 1.
Proof. apply unit_normal. exact row_noncollinear. Qed.
Lemma n_yz : vy n * vy n + vz n * vz n <> 0.
Proof. unfold n. rewrite normal3_eq, normal_yz by exact row_noncollinear. exact (Rdiv_nz _ _ Hnx row_noncollinear). Qed.
Lemma n_line : sqn (rcross (rvsub L2 L1) n) <> 0.
Proof. unfold n. rewrite normal3_eq, normal_cross by exact row_noncollinear. exact (Rdiv_nz _ _ Hline row_noncollinear). Qed.
Lemma row_cur_pos : 0 < cur.
Proof. exact (cur_pos zrot Hz A n L1 L2 n_unit n_yz n_line). Qed.
Lemma row_closed :
  nrow r = map (fun p => if m3 p then rmk true v0 else rmk false (out_n zrot size A n L1 L2 (c3 p))) r.
Proof. apply normalize_row_closed; [exact Hobs|]. apply Rgt_not_eq. exact row_cur_pos. Qed.
Lemma row_point k : m3 (rget3 r k) = false ->
  rget3 (nrow r) k = rmk false (out_n zrot size A n L1 L2 (c3 (rget3 r k))).
Proof. intros Hk. rewrite row_closed, get3_map by exact Hk. rewrite Hk. reflexivity. Qed.

Theorem row_mask_unchanged : map m3 (nrow r) = map m3 r.
Proof. rewrite row_closed, map_map. apply map_ext. intros p. destruct (m3 p); reflexivity. Qed.
Theorem row_post : 0 < size ->
  c3 (rget3 (nrow r) l1) = v0 /\
  vx (c3 (rget3 (nrow r) l2)) = 0 /\ vy (c3 (rget3 (nrow r) l2)) < 0 /\ rnorm (c3 (rget3 (nrow r) l2)) = size /\
  (coplanar A B C L1 -> vz (c3 (rget3 (nrow r) pl1)) = 0 /\ vz (c3 (rget3 (nrow r) pl2)) = 0 /\ vz (c3 (rget3 (nrow r) pl3)) = 0).
Proof. intros Hs. destruct Hobs as (H1 & H2 & H3 & H4 & H5). rewrite !row_point by assumption. cbn [c3].
  fold L1 L2 A B C. split; [apply out_n_L1|].
  destruct (out_n_L2_post zrot Hz size A n L1 L2 n_unit n_yz n_line Hs) as (E1 & E2 & E3).
  split; [exact E1|]. split; [exact E2|]. split; [exact E3|].
  intros Hco. rewrite !(out_n_z zrot size). unfold n. rewrite normal3_eq, !normal_dot by exact row_noncollinear.
  (* distances to the plane through L1: that of P is (P - A).n0 - (L1 - A).n0 *)
  rewrite <- !(dot_vsub_l _ L1 A). unfold coplanar in Hco. rewrite Hco, plane_normal_B, plane_normal_C.
  replace (rdot (rvsub A A) (plane_normal A B C)) with 0 by (vsimp; ring).
  unfold Rdiv. req. split; [|split]; ring. Qed.
(* z of every observed point, for the refutation of rotation invariance *)
Lemma row_z k : m3 (rget3 r k) = false ->
  0 < cur /\
  cur * cur = (vy n * vy n + vz n * vz n) * sqn (rcross (rvsub L2 L1) n) + rdot (rvsub L2 L1) n * rdot (rvsub L2 L1) n /\
  vz (c3 (rget3 (nrow r) k)) = rdot (rvsub (c3 (rget3 r k)) L1) n * (size / cur).
Proof. intros Hk. split; [exact row_cur_pos|]. split.
  - unfold cur. rewrite (cur_sq zrot Hz A n L1 L2 n_unit n_yz n_line), (r_sq A n L1 L2 n_unit n_yz n_line), (vec_xy A n L1 L2 n_unit).
    f_equal. unfold vec_of, frame. vsimp. ring.
  - rewrite row_point by exact Hk. cbn [c3]. apply out_n_z. Qed.
(* the translated and scaled row has the same unit normal, its two rotations give every point scaled by a,
   and the final scale divides by a again *)
Theorem row_translation_scale_invariant a t : 0 < a -> nrow (sim3 a t r) = nrow r.
Proof. intros Ha. pose proof Hobs as (H1 & H2 & H3 & H4 & H5).
  pose proof (vec_xy_nz A n L1 L2 n_unit n_yz n_line) as Hv. pose proof row_cur_pos as Hc.
  assert (Hobs' : observed5 (sim3 a t r)) by (unfold refs_observed; rewrite !get3_sim3 by assumption; repeat split; reflexivity).
  rewrite row_closed, (normalize_row_closed zrot pl1 pl2 pl3 l1 l2 size _ Hobs'); rewrite !get3_sim3 by assumption; cbn [c3];
    fold A B C L1 L2; rewrite normal3_sim by (exact Ha || exact row_noncollinear); fold n.
  - unfold sim3. rewrite map_map. apply map_ext. intros p. cbn [m3 c3]. destruct (m3 p); [reflexivity|]. f_equal.
    apply (out_n_sim zrot Hz); [exact Ha|exact Hv|apply Rgt_not_eq; exact Hc].
  - rewrite (cur_sim zrot Hz) by assumption. apply Rgt_not_eq, Rmult_lt_0_compat; [exact Ha|exact Hc]. Qed.
End OneRow.
End RowT.
