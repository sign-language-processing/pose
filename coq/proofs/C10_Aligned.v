(* C10 - alignment: after any program, every masked tensor has value and mask of identical shape
   (induction over the program, any length).  Needs three of the five switches in their repaired position;
   with the pinned switches the statement is refuted by three concrete programs (C10_Examples.v). *)
From Coq Require Import List Arith ZArith Bool Lia.
Require Import ListFacts Result Tensor Num C10_Tensor C10_Masked C10_TensorLemmas.
Import ListNotations.

Section Aligned.
Variable O : ops.
Variable trig : uname -> T O -> T O.
Notation mt := (mt O).
Notation exec := (exec O trig).
Notation run := (run O trig).

Definition al (m : mt) : Prop := shape (fst m) = shape (snd m).

Lemma get_P {X} (P : X -> Prop) env r x : Forall P env -> get env r = Ok x -> P x.
Proof. unfold get. intros H G. destruct (nth_error env r) eqn:E; [|discriminate]. injection G as <-.
  exact (Forall_nth_error _ _ _ _ H E). Qed.
Lemma gets_P {X} (P : X -> Prop) env rs xs : Forall P env -> gets env rs = Ok xs -> Forall P xs.
Proof. intros H. revert xs; induction rs as [|r rs IH]; cbn; intros xs G; [injection G as <-; constructor|].
  binv G. binv G. injection G as <-. constructor; [eapply get_P; eauto | now apply IH]. Qed.

Lemma operands_al env os ms : Forall al env -> operands_mt O env os = Ok ms -> Forall al ms.
Proof. intros H. revert ms; induction os as [|o os IH]; cbn; intros ms G; [injection G as <-; constructor|].
  binv G. binv G. injection G as <-. constructor; [|now apply IH].
  destruct o as [r|t]; cbn in E; [eapply get_P; eauto|]. now injection E as <-. Qed.

Lemma exec_struct_al p m outs : al m -> exec_struct O p m = Ok outs -> Forall al outs.
Proof. unfold exec_struct, al. intros <- H. binv H. injection H as <-. clear E.
  induction x as [|q ps IH]; cbn; constructor; [reflexivity | exact IH]. Qed.
Lemma bzip_al {X Y Z X' Y' Z'} (dx : X) (dy : Y) (g : X -> Y -> Z) (dx' : X') (dy' : Y') (g' : X' -> Y' -> Z') a b a' b' t t' :
  shape a = shape a' -> shape b = shape b' -> bzip dx dy g a b = Ok t -> bzip dx' dy' g' a' b' = Ok t' -> shape t = shape t'.
Proof. intros Ha Hb H H'. apply bzip_ok in H. apply bzip_ok in H'. destruct H as [n1 [H1 ->]], H' as [n2 [H2 ->]].
  rewrite Ha, Hb, H2 in H1. now injection H1 as <-. Qed.
Lemma broadcast_tabulate {X} (d : X) target t r : apply_plan d (p_broadcast target) t = Ok r -> r = tabulate target (bget d target t).
Proof. unfold apply_plan, p_broadcast. destruct (bcompat_rev (rev (shape t)) (rev target)); [|discriminate]. now intros [= <-]. Qed.
Lemma broadcast_al {X} (d : X) target t r : apply_plan d (p_broadcast target) t = Ok r -> shape r = target.
Proof. now intros ->%broadcast_tabulate. Qed.
Lemma multi_al {X Y} (dx : X) (dy : Y) p (a : list (tensor X)) (b : list (tensor Y)) ta tb :
  map shape a = map shape b -> multi dx p a = Ok ta -> multi dy p b = Ok tb -> shape ta = shape tb.
Proof. unfold multi. intros <-. destruct (p (map shape a)) as [[ns f]|]; [|discriminate]. now intros [= <-] [= <-]. Qed.
Lemma shapes_al (ms : list mt) : Forall al ms -> map shape (map fst ms) = map shape (map snd ms).
Proof. induction 1 as [|m ms Hm _ IH]; cbn; [reflexivity|]. now rewrite Hm, IH. Qed.
Lemma zero_filled_shape c m zf : al m -> zero_filled O c m = Ok zf -> shape zf = shape (snd m).
Proof. unfold zero_filled, al. intros Ha H.
  destruct (zf_where c); apply bzip_ok in H; destruct H as [ns [H ->]]; rewrite Ha, broadcast_shapes_same in H; now injection H as <-. Qed.
Definition red_shape (d : option nat) (s : list nat) : list nat := match d with Some d' => remove_at d' s | None => [] end.
Lemma reduce_shape {X} (dflt : X) keep d t : shape (reduce dflt keep d t) = if keep then keep_shape d (shape t) else red_shape d (shape t).
Proof. unfold reduce. destruct keep; [reflexivity|]. destruct d; reflexivity. Qed.
Lemma mean_al c keep d m x : al m -> mean_mt O c keep d m = Ok x -> al x.
Proof. intros Ha H. unfold mean_mt in H. binv H. rewrite (zero_filled_shape _ _ _ Ha E) in H. binv H. binv H. injection H as <-.
  apply bzip_ok in E1. destruct E1 as [ns [H ->]]. cbn [tmap shape] in H. rewrite !reduce_shape in H. cbn [tmap shape] in H.
  rewrite (zero_filled_shape _ _ _ Ha E), broadcast_shapes_same in H. injection H as <-.
  unfold al; cbn [fst snd tmap shape tabulate]. now rewrite reduce_shape. Qed.
Lemma var_al c d m x : al m -> var_mt O c d m = Ok x -> al x.
Proof. intros Ha H. unfold var_mt in H. binv H. binv H. binv H. eapply mean_al; [|exact H].
  exact (bzip_al _ _ _ _ _ _ _ _ _ _ _ _ Ha (mean_al _ _ _ _ _ Ha E) E0 E1). Qed.

(* the three switches alignment depends on *)
Definition shape_safe (c : cfg) : Prop := matmul_rowall c = true /\ plain_bcast c = true /\ unsq_listed c = false.

Lemma exec_al c f i env outs : shape_safe c -> Forall al env -> exec c f i env = Ok outs -> Forall al outs.
Proof. intros [Cm [Cp Cu]] He H. unfold exec in H.
  destruct (plans_of O f i) as [[r p]|] eqn:Hp.
  { binv H. eapply exec_struct_al; [|exact H]. eapply get_P; eauto. }
  destruct i; try discriminate.
  - (* IArith *)
    destruct (arith_ok O f op o); [|discriminate]. binv H. pose proof (get_P _ _ _ _ He E) as Ha.
    destruct o as [r2|t]; binv H; binv H.
    + binv H. injection H as <-. apply Forall_one. exact (bzip_al _ _ _ _ _ _ _ _ _ _ _ _ Ha (get_P _ _ _ _ He E0) E1 E2).
    + rewrite Cp in E1. injection H as <-. apply Forall_one. symmetry. exact (broadcast_al _ _ _ _ E1).
  - (* IDivM *)
    destruct f; [|discriminate]. binv H. binv H. binv H. binv H. injection H as <-. apply Forall_one.
    pose proof (get_P _ _ _ _ He E) as Ha. destruct upd.
    + exact (bzip_al _ _ _ _ _ _ _ _ _ _ _ _ Ha (get_P _ _ _ _ He E0) E1 E2).
    + rewrite Cp in E2. symmetry. exact (broadcast_al _ _ _ _ E2).
  - (* ISum *)
    destruct (sum_ok f d); [|discriminate]. binv H. pose proof (get_P _ _ _ _ He E : al x) as Ha. unfold al in Ha. rewrite <- Ha in H.
    binv H. injection H as <-. apply Forall_one. unfold al; cbn [fst snd tmap shape].
    destruct x0; cbn; [now rewrite Ha | reflexivity].
  - (* ICat *)
    binv H. binv H. binv H. injection H as <-. apply Forall_one.
    eapply multi_al; [|exact E0|exact E1]. apply shapes_al. exact (operands_al _ _ _ He E).
  - (* IStack *)
    binv H. binv H. binv H. injection H as <-. apply Forall_one.
    eapply multi_al; [|exact E0|exact E1]. apply shapes_al. exact (gets_P _ _ _ _ He E).
  - (* IMatmul *)
    binv H. pose proof (get_P _ _ _ _ He E : al x) as Ha. unfold al in Ha.
    destruct (matmul_ok (shape (fst x)) (shape m)); [|discriminate]. rewrite Cm in H.
    injection H as <-. apply Forall_one. unfold al; cbn [fst snd expand_last shape slices tabulate]. now rewrite Ha.
  - (* IStat *)
    destruct (stat_ok f); [|discriminate]. binv H. pose proof (get_P _ _ _ _ He E) as Ha.
    destruct k; binv H; injection H as <-; apply Forall_one.
    + exact (mean_al _ _ _ _ _ Ha E0).
    + exact (var_al _ _ _ _ Ha E0).
    + exact (var_al _ _ _ _ Ha E0).
  - (* IZeroFill *)
    binv H. binv H. injection H as <-. apply Forall_one. reflexivity.
  - (* IUnary *)
    destruct (unary_ok f u meth); [|discriminate]. binv H. injection H as <-. apply Forall_one. exact (get_P _ _ _ _ He E).
  - (* IUnsqueeze *)
    destruct f; [|discriminate]. rewrite Cu in H. discriminate.
Qed.

Theorem aligned_gen c f p : shape_safe c -> forall env env', Forall al env -> run c f p env = Ok env' -> Forall al env'.
Proof. intros Hc. induction p as [|i p IH]; cbn; intros env env' He H; [now injection H as <-|].
  destruct (exec c f i env) as [outs|] eqn:Hx; cbn in H; [|discriminate].
  eapply IH; [|exact H]. apply Forall_app. split; [exact He|]. eapply exec_al; eauto. Qed.

Theorem aligned f p env env' : Forall al env -> run repaired f p env = Ok env' -> Forall al env'.
Proof. apply aligned_gen. repeat split. Qed.
End Aligned.
