(* C19 - concrete inputs showing that the hypotheses of the theorems are satisfiable by non-trivial values.
   Everything here is decided by computation. *)
From Coq Require Import List Arith NArith ZArith Bool Lia.
Require Import Result F32 C19_Layout C19_FrameId C19_OpenPose C19_Spec C19_LoadProofs C19_FrameIdProofs C19_Theorems.
Import ListNotations.
Local Open Scope nat_scope.

(* a person listing 3 numbers per point of the layout, as binary64 words: x = 100.0 (4636737291354636288) plus 2^40 per
   seed and 2^44 per point in the mantissa, y = 0.5 (4602678819172646912), confidence 0.0 for odd points, 0.5 for even *)
Definition ex_numbers (n : nat) (seed : N) : list N :=
  concat (map (fun i => [(4636737291354636288 + seed * 1099511627776 + N.of_nat i * 17592186044416)%N; 4602678819172646912%N;
                         if Nat.odd i then 0%N else 4602678819172646912%N]) (seq 0 n)).
Definition ex_person (seed : N) : person :=
  ([112; 101; 114; 115; 111; 110; 95; 105; 100]%N, [13826050856027422720%N]) ::                     (* "person_id": [-1] *)
  map (fun c => (c_name c, ex_numbers (length (c_points c)) seed)) comps137.
Definition ex_person_135 (seed : N) : person :=
  map (fun c => (c_name c, if Nat.eqb (length (c_points c)) 25 then ex_numbers 135 seed else [])) comps137.
Definition ex_frames : frames := [(2, [ex_person 1; ex_person 2]); (0, [ex_person 3])].
Definition ex_fps : num := NFloat 4629129022734147256.          (* 29.97 *)

Lemma ex_person_conforms s : person_conforms comps137 (ex_person s).
Proof.
  (* component by component through [nth], so that the table stays folded *)
  apply Forall_nth. intros i d Hi. change (length comps137) with 4 in Hi.
  do 4 (destruct i as [|i]; [eexists; split; reflexivity|]). lia.
Qed.
Definition oeqb (a b : option N) : bool :=
  match a, b with Some x, Some y => N.eqb x y | None, None => true | _, _ => false end.
Definition obeqb (a b : option bool) : bool :=
  match a, b with Some x, Some y => Bool.eqb x y | None, None => true | _, _ => false end.
Definition num_eqb (a b : num) : bool :=
  match a, b with NInt x, NInt y => Z.eqb x y | NFloat x, NFloat y => N.eqb x y | _, _ => false end.
(* the values the example run must show: point 26 = face point 1 of person 1 in frame 2 (confidence 0 -> missing),
   point 27 (confidence 0.5 -> present), recorded fps and shape *)
Definition ex_checks (ps : pose) : bool :=
  oeqb (data_at ps 2 1 26 0) (Some 1120440320%N) && oeqb (conf_at ps 2 1 26) (Some 0%N) && obeqb (mask_at ps 2 1 26 0) (Some true) &&
  oeqb (conf_at ps 2 1 27) (Some 1056964608%N) && obeqb (mask_at ps 2 1 27 1) (Some false) &&
  num_eqb (p_fps ps) ex_fps && (let '(f, p, k) := p_shape ps in Nat.eqb f 3 && Nat.eqb p 2 && Nat.eqb k 137).
Lemma ex_run : match load_openpose comps137 ex_frames ex_fps 1920 1080 0 (Some 3) with Ok ps => ex_checks ps | Err _ => false end = true.
Proof. vm_compute. reflexivity. Qed.
Lemma ex_137_hypotheses :
  exists ps per c, load_openpose comps137 ex_frames ex_fps 1920 1080 0 (Some 3) = Ok ps /\
    dict_ok ex_frames /\ count_ok ex_frames (Some 3) /\ frames_conform comps137 ex_frames /\
    json_person ex_frames 2 1 = Some per /\ locate comps137 26 = Some (c, 1) /\ c_name c = nth 1 (map c_name comps137) [] /\
    json_person ex_frames 1 0 = None /\ json_person ex_frames 0 1 = None /\ json_person ex_frames 3 0 = None /\
    ex_checks ps = true.
Proof.
  pose proof ex_run as R. destruct (load_openpose comps137 ex_frames ex_fps 1920 1080 0 (Some 3)) as [ps|]; [|discriminate R].
  exists ps, (ex_person 2), (nth 1 comps137 ([], [], [], [])). split; [reflexivity|].
  split; [unfold dict_ok, ex_frames; cbn [map fst]; repeat constructor; cbn [In]; lia|].
  split; [vm_compute; lia|].
  split; [unfold frames_conform, ex_frames; repeat (apply ex_person_conforms || apply Forall_nil || apply Forall_cons)|].
  repeat (split; [reflexivity|]). exact R.
Qed.

Definition ex_entries_135 : list (list N * frame) :=      (* a_03_keypoints.json, 0_keypoints.json *)
  [([97; 95; 48; 51; 95; 107; 101; 121; 112; 111; 105; 110; 116; 115; 46; 106; 115; 111; 110]%N, [ex_person_135 1]);
   ([48; 95; 107; 101; 121; 112; 111; 105; 110; 116; 115; 46; 106; 115; 111; 110]%N, [])].
Definition ex_checks_135 (ps : pose) : bool :=
  oeqb (conf_at ps 3 0 134) (Some 1056964608%N) && oeqb (conf_at ps 3 0 135) None && oeqb (conf_at ps 0 0 7) (Some 0%N) &&
  (let '(f, p, k) := p_shape ps in Nat.eqb f 4 && Nat.eqb p 1 && Nat.eqb k 135).
Lemma ex_person_135_conforms s : person_conforms_135 (ex_person_135 s).
Proof. exists (ex_numbers 135 s). split; [reflexivity|]. split; [reflexivity|]. repeat constructor. Qed.
Lemma ex_run_135 : match load_openpose_135_directory ex_entries_135 ex_fps 640 480 0 None with Ok ps => ex_checks_135 ps | Err _ => false end = true.
Proof. vm_compute. reflexivity. Qed.
Lemma ex_135_hypotheses :
  exists fs ps, dir_frames ex_entries_135 [] = Ok fs /\ load_openpose_135_directory ex_entries_135 ex_fps 640 480 0 None = Ok ps /\
    count_ok fs None /\ Forall (fun x => Forall person_conforms_135 (snd x)) fs /\ map fst fs = [3; 0] /\ ex_checks_135 ps = true.
Proof.
  pose proof ex_run_135 as R. destruct (load_openpose_135_directory ex_entries_135 ex_fps 640 480 0 None) as [ps|]; [|discriminate R].
  exists [(3, [ex_person_135 1]); (0, [])], ps. split; [vm_compute; reflexivity|]. split; [reflexivity|].
  split; [exact I|]. split; [|split; [reflexivity|exact R]].
  repeat (apply ex_person_135_conforms || apply Forall_nil || apply Forall_cons).
Qed.

Definition name_CAM2_17 : list N :=    (* "CAM2_000000000017_keypoints.json" (openpose.py:289) *)
  [67;65;77;50;95;48;48;48;48;48;48;48;48;48;48;49;55;95;107;101;121;112;111;105;110;116;115;46;106;115;111;110]%N.

(* the tables themselves are well formed headers *)
Definition comp_ok (c : comp) : bool :=
  forallb (fun l => (fst l <? length (c_points c)) && (snd l <? length (c_points c))) (c_limbs c) &&
  Nat.eqb (length (nodup (list_eq_dec N.eq_dec) (c_points c))) (length (c_points c)).
Lemma tables_wellformed :
  forallb comp_ok comps137 = true /\ forallb comp_ok comps135 = true /\ total_points comps137 = 137 /\ total_points comps135 = 135 /\
  formats_xyc comps137 /\ formats_xyc comps135.
Proof.
  split; [vm_compute; reflexivity|]. split; [vm_compute; reflexivity|]. split; [reflexivity|]. split; [reflexivity|].
  split; [exact comps137_xyc|]. unfold formats_xyc, comps135. repeat constructor.
Qed.
