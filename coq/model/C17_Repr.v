(* C17 - feature representations, numeric part.  Definitions only.
   One model over [Num.ops] extended *locally* (Section variables, never axioms) with the two
   transcendental functions the code calls ([atan], [acos]).  Instantiated three times:
     R_ops  + any two functions R -> R     theorems about the textbook formulas; what they need of atan / acos
                                           is a hypothesis (proofs/C17_Real.v, model/C17_Spec.v; Ratan is not used)
     X_ops  + x_atan / x_acos              IEEE special values over exact reals: totality (proofs/C17_Total.v)
     F_ops  + f_atan / f_acos              binary64 execution in the extracted runner (model/C17_Run.v)
   A masked value is a PAIR (value, valid): garbage lives under the mask, exactly as in
   torch/masked/tensor.py.  Every function below works on ONE cell (points, batch, len index fixed):
   a point is the list of its D coordinates along the last axis.  The tensor-level functions at the
   end map the cell functions over the row-major data. *)
From Coq Require Import List Bool ZArith.
Require Import Num.
Import ListNotations.

Definition map2 {A B C} (f : A -> B -> C) (a : list A) (b : list B) : list C :=
  map (fun p => f (fst p) (snd p)) (combine a b).

Section Repr.
Variable O : ops.
Variables atan acos : T O -> T O.
Local Notation t := (T O).
Definition mv : Type := (t * bool)%type.
Definition two : t := of_Z O 2.
Definition sq (x : t) : t := mul O x x.

(* ---- torch/masked/tensor.py ------------------------------------------------------------------ *)
(* arithmetic: 62-84 (both operands masked: values combined, masks and-ed) *)
Definition m_arith (f : t -> t -> t) (a b : mv) : mv := (f (fst a) (fst b), andb (snd a) (snd b)).
(* arithmetic: 81-83 (plain scalar operand: mask unchanged) *)
Definition m_scalar (f : t -> t -> t) (a : mv) (k : t) : mv := (f (fst a) k, snd a).
(* pow_: 166-181; MaskedTorch.sqrt/square/acos: torch/masked/torch.py:10,19-29 (mask unchanged) *)
Definition m_un (f : t -> t) (a : mv) : mv := (f (fst a), snd a).
(* sum(dim=-1): 183-199  tensor.sum, mask.prod *)
Definition m_sum (l : list mv) : mv := (sum O (map fst l), forallb snd l).
(* div: 273-293 (update_mask=True) *)
Definition m_div (a b : mv) : mv := m_arith (div O) a b.
(* fix_nan: 212-222  self.tensor[self.tensor != self.tensor] = 0 *)
Definition nan_to_zero (x : t) : t := if eqb O x x then x else zero O.
Definition fix_nan (a : mv) : mv := (nan_to_zero (fst a), snd a).
(* zero_filled: 262-271, REPAIRED behaviour (defect F9, proposed-fixes/F9-zero-filled.diff):
   torch.where(mask, tensor, 0) *)
Definition zero_filled (a : mv) : t := if snd a then fst a else zero O.
(* zero_filled as on the pinned tree: tensor.mul(mask) - kept only for the refutation witness *)
Definition zero_filled_mul (a : mv) : t := mul O (fst a) (if snd a then one O else zero O).

(* ---- torch/representation/distance.py:13-33, 35-52 ------------------------------------------- *)
Definition torch_dist_m (p1 p2 : list mv) : mv :=
  let diff := map2 (m_arith (sub O)) p1 p2 in        (* diff = p1s - p2s *)
  let square := map (m_un sq) diff in                 (* diff.pow_(2) *)
  let sum_squares := m_sum square in                  (* square.sum(dim=-1) *)
  m_un (sqrt O) sum_squares.                          (* MaskedTorch.sqrt *)
Definition torch_distance (p1 p2 : list mv) : t := zero_filled (torch_dist_m p1 p2).
Definition torch_distance_pinned (p1 p2 : list mv) : t := zero_filled_mul (torch_dist_m p1 p2).

(* ---- torch/representation/angle.py:33-39 ----------------------------------------------------- *)
(* shapes with fewer than 2 coordinates raise in the code (unpacking); the property quantifies over
   2|3 coordinates, the model returns 0 there *)
Definition torch_angle_with (zf : mv -> t) (p1 p2 : list mv) : t :=
  let d := map2 (m_arith (sub O)) p2 p1 in            (* d = p2s - p1s *)
  match d with
  | xs :: ys :: _ => atan (zf (fix_nan (m_div ys xs))) (* ys.div(xs).fix_nan().zero_filled(); torch.atan *)
  | _ => zero O
  end.
Definition torch_angle := torch_angle_with zero_filled.
Definition torch_angle_pinned := torch_angle_with zero_filled_mul.

(* ---- torch/representation/inner_angle.py:8-32, 70-82 ----------------------------------------- *)
Definition torch_vnorm (v : list mv) : list mv :=
  let square := map (m_un sq) v in                    (* MaskedTorch.square *)
  let summed := m_sum square in
  let v_mag := m_un (sqrt O) summed in
  map (fun c => m_div c v_mag) v.                     (* stack([v_mag] * D, -1); vectors.div(mag_stack) *)
Definition torch_inner_slopes (p1 p2 p3 : list mv) : mv :=
  let v1 := map2 (m_arith (sub O)) p1 p2 in
  let v2 := map2 (m_arith (sub O)) p3 p2 in
  m_sum (map2 (m_arith (mul O)) (torch_vnorm v1) (torch_vnorm v2)).
Definition torch_inner_angle (p1 p2 p3 : list mv) : t :=
  let angles := m_un acos (torch_inner_slopes p1 p2 p3) in
  nan_to_zero (zero_filled angles).                   (* angles[angles != angles] = 0 *)

(* ---- torch/representation/point_line_distance.py:57-69 --------------------------------------- *)
Definition torch_pld_m (p1 p2 p3 : list mv) : mv :=
  let a := torch_dist_m p1 p2 in
  let b := torch_dist_m p2 p3 in
  let c := torch_dist_m p1 p3 in
  let s := m_scalar (div O) (m_arith (add O) (m_arith (add O) a b) c) two in
  let squared := m_arith (mul O) (m_arith (mul O) (m_arith (mul O) s (m_arith (sub O) s a)) (m_arith (sub O) s b))
                         (m_arith (sub O) s c) in
  let area := m_un (sqrt O) squared in
  let square_area := m_scalar (mul O) area two in
  m_arith (div O) square_area b.                     (* distance = square_area / b *)
Definition torch_pld (p1 p2 p3 : list mv) : t :=
  zero_filled (fix_nan (torch_pld_m p1 p2 p3)).       (* distance.fix_nan(); distance.zero_filled() *)

(* ---- torch/representation/points.py:37-42: zero-filled coordinates of one point -------------- *)
Definition torch_points (p : list mv) : list t := map zero_filled p.

(* ---- tensorflow/representation (plain tensors, no mask) -------------------------------------- *)
Definition div_no_nan (x y : t) : t := if eqb O y (zero O) then zero O else div O x y.  (* tf.math.divide_no_nan *)
(* distance.py:30-35 *)
Definition tf_distance (p1 p2 : list t) : t := sqrt O (sum O (map sq (map2 (sub O) p1 p2))).
(* angle.py:34-42 *)
Definition tf_angle (p1 p2 : list t) : t :=
  match map2 (sub O) p2 p1 with
  | xs :: ys :: _ => atan (div_no_nan ys xs)
  | _ => zero O
  end.
(* inner_angle.py:24-26 *)
Definition tf_vnorm (v : list t) : list t :=
  let v_mag := sqrt O (sum O (map sq v)) in map (fun x => div_no_nan x v_mag) v.
(* inner_angle.py:64-74 *)
Definition tf_inner_slopes (p1 p2 p3 : list t) : t :=
  sum O (map2 (mul O) (tf_vnorm (map2 (sub O) p1 p2)) (tf_vnorm (map2 (sub O) p3 p2))).
Definition tf_inner_angle (p1 p2 p3 : list t) : t := nan_to_zero (acos (tf_inner_slopes p1 p2 p3)).
(* point_line_distance.py:53-65 *)
Definition tf_pld (p1 p2 p3 : list t) : t :=
  let a := tf_distance p1 p2 in let b := tf_distance p2 p3 in let c := tf_distance p1 p3 in
  let s := div O (add O (add O a b) c) two in
  let squared := mul O (mul O (mul O s (sub O s a)) (sub O s b)) (sub O s c) in
  let area := sqrt O squared in
  div_no_nan (mul O area two) b.

(* ---- numpy/representation/distance.py:29-33 (numpy.ma; [valid] = not ma's mask) --------------
   ma subtraction / ma.power: mask = or of the masks (valid = and); .sum(axis=-1) adds the valid
   cells only and is masked iff every cell is; ma.sqrt masks its domain error (x < 0); .filled(0).
   ma's additional "result not finite => masked" rule cannot fire on finite valid coordinates in
   exact arithmetic and is not modelled (DESIGN section 9). *)
Definition np_distance (p1 p2 : list mv) : t :=
  let diff := map2 (m_arith (sub O)) p1 p2 in
  let square := map (m_un sq) diff in
  let s := sum O (map (fun c : mv => if snd c then fst c else zero O) square) in
  let all_masked := forallb (fun c : mv => negb (snd c)) square in
  if all_masked then zero O else if ltb O s (zero O) then zero O else sqrt O s.
End Repr.

(* ---- tensors: row-major data of shape (points, batch, len, D) -> list of cells ---------------- *)
Fixpoint chunk {A} (fuel d : nat) (l : list A) : list (list A) :=
  match fuel with
  | 0 => []
  | S f => match l with [] => [] | _ => firstn d l :: chunk f d (skipn d l) end
  end.
Definition cells {A} (d : nat) (l : list A) : list (list A) := chunk (length l) d l.
Definition map3 {A B C E} (f : A -> B -> C -> E) (a : list A) (b : list B) (c : list C) : list E :=
  map (fun p => f (fst (fst p)) (snd (fst p)) (snd p)) (combine (combine a b) c).
Definition lift2 {A Y} (d : nat) (f : list A -> list A -> Y) (p1 p2 : list A) : list Y :=
  map2 f (cells d p1) (cells d p2).
Definition lift3 {A Y} (d : nat) (f : list A -> list A -> list A -> Y) (p1 p2 p3 : list A) : list Y :=
  map3 f (cells d p1) (cells d p2) (cells d p3).
