(* The boolean tests of R_ops decide the order and the equality of the reals; [of_nat] is INR. *)
From Coq Require Import Reals Lra ZArith.
Require Import Num.
Local Open Scope R_scope.

(* the fields of R_ops are the operations of R: [rsimp] unfolds them everywhere *)
Ltac rsimp := cbn [T zero one add sub mul div opp Num.sqrt Num.abs leb ltb eqb of_Z R_ops] in *.
(* equations between terms of type [T R_ops] are equations between reals *)
Ltac req := change (T R_ops) with R in *.

Lemma Rleb_true x y : Rleb x y = true <-> x <= y.
Proof. unfold Rleb. destruct (Rle_dec x y); split; intros; try reflexivity; try discriminate; lra. Qed.
Lemma Rleb_false x y : Rleb x y = false <-> y < x.
Proof. unfold Rleb. destruct (Rle_dec x y); split; intros; try reflexivity; try discriminate; lra. Qed.
Lemma Rltb_true x y : Rltb x y = true <-> x < y.
Proof. unfold Rltb. destruct (Rlt_dec x y); split; intros; try reflexivity; try discriminate; lra. Qed.
Lemma Rltb_false x y : Rltb x y = false <-> y <= x.
Proof. unfold Rltb. destruct (Rlt_dec x y); split; intros; try reflexivity; try discriminate; lra. Qed.
Lemma Reqb_true x y : Reqb x y = true <-> x = y.
Proof. unfold Reqb. destruct (Req_EM_T x y); split; intros; try reflexivity; try discriminate; lra. Qed.
Lemma Reqb_false x y : Reqb x y = false <-> x <> y.
Proof. unfold Reqb. destruct (Req_EM_T x y); split; intros; try reflexivity; try discriminate; lra. Qed.
Lemma Reqb_refl x : Reqb x x = true.
Proof. now apply Reqb_true. Qed.

Lemma of_nat_INR n : Num.of_nat R_ops n = INR n.
Proof. unfold Num.of_nat. cbn [of_Z R_ops]. symmetry. apply INR_IZR_INZ. Qed.
