(* C03, consumption clause: bytes a windowed stream read hands to the decoder ([consumed]) are exactly the three
   info fields plus the window of the data and confidence blocks; with the simulation theorem's
   "pulled grows no faster than consumed" this bounds the bytes pulled from the stream by
   header + 10 + prefetch + window, whatever the file length. *)
From Coq Require Import ZArith NArith List Lia ZifyBool ZifyN ZifyNat Bool.
Require Import ListN Result Bytes Prog Codec ProgLemmas CodecRT PoseRead PoseReadLemmas StreamLemmas WindowLemmas StreamRead C03_Window.
Import ListNotations.
Open Scope N_scope.

Lemma block_ret_consumed {A} q n (g : bytes -> A) sr x sr' :
  skipped sr <= off sr ->
  run_stream q (Block n (fun b => Ret (g b))) sr = Ok (x, sr') ->
  consumed sr' = consumed sr + n /\ skipped sr' <= off sr'.
Proof.
  intros Hso H. cbn [run_stream] in H.
  destruct (expect q n sr) as [r1|e] eqn:He; [|discriminate].
  destruct (expect_off _ _ _ _ He) as [Ho Hs].
  destruct (off r1 - skipped r1 + n <=? lenN (buf r1)); [|discriminate].
  injection H as _ <-. unfold consumed. cbn [off skipped]. lia.
Qed.

Lemma run_stream_skip_if {A} q (c : bool) n (k : prog A) sr :
  run_stream q (skip_if c n k) sr = run_stream q k (if c then sskip n sr else sr).
Proof. destruct c; reflexivity. Qed.
Lemma skip_if_consumed (c : bool) n r : skipped r <= off r ->
  consumed (if c then sskip n r else r) = consumed r /\
  skipped (if c then sskip n r else r) <= off (if c then sskip n r else r).
Proof. intros H. destruct c; [|auto]. unfold consumed, sskip. cbn [off skipped]. lia. Qed.

Lemma read_frames_consumed q frames cells s e sr x sr' :
  skipped sr <= off sr ->
  run_stream q (read_frames frames cells s e) sr = Ok (x, sr') ->
  fst x = (end0 e frames - start0 s)%Z /\
  consumed sr' = consumed sr + Z.to_N (4 * fst x * cells) /\ skipped sr' <= off sr' /\ (0 <= 4 * fst x * cells)%Z.
Proof.
  intros Hso H. rewrite read_frames_eq in H. destruct (_ && _); [discriminate|].
  rewrite run_stream_skip_if, run_stream_bind in H.
  destruct (run_stream q (zblock _ _) _) as [[t ra]|er] eqn:Hz; [|discriminate].
  unfold zblock in Hz. destruct (Z.ltb_spec (4 * (end0 e frames - start0 s) * cells) 0) as [|Hn]; [discriminate|].
  apply block_ret_consumed in Hz; [|apply skip_if_consumed, Hso]. destruct Hz as [Hc Hs].
  rewrite run_stream_skip_if in H. injection H as <- <-. cbn [fst].
  rewrite (proj1 (skip_if_consumed _ _ ra Hs)), Hc, (proj1 (skip_if_consumed _ _ sr Hso)).
  split; [reflexivity|]. split; [reflexivity|]. split; [apply skip_if_consumed, Hs|exact Hn].
Qed.

Lemma Z2N_frame_bytes f c : (0 <= 4 * f * c)%Z -> (0 <= c)%Z -> Z.to_N (4 * f * c) = 4 * Z.to_N f * Z.to_N c.
Proof.
  intros H Hc. destruct (Z.eq_dec c 0) as [->|Hne]; [rewrite Z.mul_0_r; cbn; lia|].
  assert (Hf : (0 <= f)%Z) by nia.
  rewrite !Z2N.inj_mul by lia. reflexivity.
Qed.

Lemma info3_consumed q sr x sr' : skipped sr <= off sr -> run_stream q info3 sr = Ok (x, sr') ->
  consumed sr' = consumed sr + 10 /\ skipped sr' <= off sr'.
Proof.
  intros Hso H. unfold info3 in H.
  rewrite run_stream_bind in H. destruct (run_stream q rd_u32 sr) as [[fps r1]|er] eqn:H1; [|discriminate].
  destruct (block_ret_consumed q _ _ _ _ _ Hso H1) as [Hc1 Hs1].
  rewrite run_stream_bind in H. destruct (run_stream q rd_u32 r1) as [[F r2]|er] eqn:H2; [|discriminate].
  destruct (block_ret_consumed q _ _ _ _ _ Hs1 H2) as [Hc2 Hs2].
  rewrite run_stream_bind in H. destruct (run_stream q rd_u16 r2) as [[P r3]|er] eqn:H3; [|discriminate].
  destruct (block_ret_consumed q _ _ _ _ _ Hs2 H3) as [Hc3 Hs3].
  injection H as _ <-. split; [lia|exact Hs3].
Qed.

(* the windowed v0.2 body decoder: 10 bytes of info fields, then the window of the data block and of the
   confidence block - [f] frames of [P] people, [T] points, [D] dims + 1 confidence, 4 bytes each *)
Lemma body_prog_consumed q h sf st ef et sr b sr' :
  skipped sr <= off sr ->
  run_stream q (body_prog h sf st ef et) sr = Ok (b, sr') ->
  exists f P T D, b_shape b = [f; P; T; D] /\ consumed sr' = consumed sr + 10 + 4 * P * T * (D + 1) * f.
Proof.
  intros Hso H. unfold body_prog in H.
  rewrite run_stream_bind in H. destruct (run_stream q info3 sr) as [[[[fps F] P] r3]|er] eqn:H3; [|discriminate].
  destruct (info3_consumed q _ _ _ Hso H3) as [Hc3 Hs3]. unfold body_rest in H.
  destruct (num_dims h) as [D|er]; cbn [plift pbind] in H; [|discriminate].
  destruct (resolve_start fps sf st) as [s|er]; cbn [plift pbind] in H; [|discriminate].
  destruct (resolve_end fps ef et) as [e|er]; cbn [plift pbind] in H; [|discriminate].
  rewrite run_stream_bind in H.
  destruct (run_stream q (read_frames _ _ s e) r3) as [[dat r4]|er] eqn:H4; [|discriminate].
  destruct (read_frames_consumed q _ _ _ _ _ _ _ Hs3 H4) as [Hx4 [Hc4 [Hs4 Hn4]]].
  rewrite run_stream_bind in H.
  destruct (run_stream q (read_frames _ _ s e) r4) as [[cnf r5]|er] eqn:H5; [|discriminate].
  destruct (read_frames_consumed q _ _ _ _ _ _ _ Hs4 H5) as [Hx5 [Hc5 [Hs5 Hn5]]].
  unfold mk_body in H. destruct (Z.leb_spec D 0) as [|HD]; [discriminate|]. cbn [plift run_stream] in H.
  injection H as <- <-. cbn [b_shape].
  exists (Z.to_N (fst dat)), P, (total_points h), (Z.to_N D). split; [reflexivity|].
  rewrite Hc5, Hc4, Hc3, Hx5, <- Hx4 in *.
  rewrite (Z2N_frame_bytes _ _ Hn4), (Z2N_frame_bytes _ _ Hn5), Z2N.inj_mul, N2Z.id by lia. ring.
Qed.

(* byte length of the header Pose.write emits for [p] *)
Definition header_len (p : wpose) : N :=
  match write_header (w_dims p) (w_comps p) with Ok h => lenN h | Err _ => 0 end.
(* bytes of frames [start, min(end, frames)) in the data and the confidence block:
   4 * people * points * (dims + 1) per frame *)
Definition window_bytes (p : wpose) (s e : option Z) : N :=
  4 * nth 1 (w_shape p) 0 * nth 2 (w_shape p) 0 * (nth 3 (w_shape p) 0 + 1)
    * Z.to_N (end0 e (frames_of p) - start0 s).

Section Theorems.
Variable legacy : vclass -> header -> rargs -> prog body.

Theorem read_stream_pulled_v02 m q a h o b pr' f P T D :
  MemoOK m -> any_arg a = true ->
  run_plain rd_header {| pbuf := q; poff := 0 |} = Ok (h, {| pbuf := q; poff := o |}) ->
  version_class (h_version h) = V02 ->
  conflict (a_sf a) (a_st a) = false -> conflict (a_ef a) (a_et a) = false ->
  run_plain (read_body legacy h a) {| pbuf := q; poff := o |} = Ok (b, pr') -> b_shape b = [f; P; T; D] ->
  snd (read_stream legacy m q a) <= o + 10 + prefetch_len m + 4 * P * T * (D + 1) * f.
Proof.
  intros Hm Ha Hh Hv Hc1 Hc2 Hbody Hsh.
  assert (Hrb : read_body legacy h a = read_v0_2 h (a_sf a) (a_st a) (a_ef a) (a_et a))
    by (unfold read_body, read_body_with; now rewrite Hv).
  destruct (stream_handoff legacy m q a h o Hm Ha Hh) as [sr [HP [Ho [Hl [Hp ->]]]]].
  rewrite Hrb in *.
  destruct (pre_fwd q _ sr o b pr' (v2prog_read_v0_2 _ _ _ _ _) HP Ho Hl Hbody) as [sr' [Hrun [_ Hpc]]].
  rewrite Hrun. cbn [snd].
  rewrite read_v0_2_shape, Hc1, Hc2 in Hrun. cbn [orb] in Hrun.
  assert (Hso : skipped sr <= off sr) by (destruct HP as [Hk _]; lia).
  destruct (body_prog_consumed _ _ _ _ _ _ _ _ _ Hso Hrun) as [f' [P' [T' [D' [Hsh' Hcons]]]]].
  rewrite Hsh in Hsh'. injection Hsh' as <- <- <- <-. unfold consumed in *. lia.
Qed.

(* For written files: nothing in the bound depends on the frames outside the window or on the length of the file. *)
Theorem read_stream_pulled_bound m p bs a s e :
  MemoOK m -> write_pose p = Ok bs -> wf_arrays p -> 1 <= nth 3 (w_shape p) 0 ->
  any_arg a = true ->
  conflict (a_sf a) (a_st a) = false -> conflict (a_ef a) (a_et a) = false ->
  resolve_start (fps_word p) (a_sf a) (a_st a) = Ok s -> resolve_end (fps_word p) (a_ef a) (a_et a) = Ok e ->
  valid_window p s e ->
  snd (read_stream legacy m bs a) <= header_len p + 10 + prefetch_len m + window_bytes p s e.
Proof.
  intros Hm H Hwf HD Ha Hc1 Hc2 Hrs Hre [Hv1 Hv2].
  destruct (write_pose_ok _ _ H) as [F [P [T [D [h [b [Hs [Hcs [Hnd [Htp [Hh [Hb Hbs]]]]]]]]]]]].
  unfold header_len, window_bytes, frames_of in *. rewrite Hh. rewrite Hs in *. cbn [nth] in *.
  pose proof (read_body_window_rt p b F P T D _ _ _ _ s e Hs Hcs Hwf Hnd Htp HD Hb Hc1 Hc2 Hrs Hre Hv1 Hv2 h []) as Hbody.
  rewrite app_nil_r, <- Hbs, <- (read_body_dispatch legacy p a) in Hbody.
  refine (N.le_trans _ _ _ (read_stream_pulled_v02 m bs a _ _ _ _ (Z.to_N (end0 e (Z.of_N F) - start0 s)) P T D Hm Ha
                              (header_of_written p bs h b Hh Hbs) (canon_version p) Hc1 Hc2 Hbody _) _); [|lia].
  unfold window_body, canon_body. cbn [b_shape]. rewrite Hs. reflexivity.
Qed.
End Theorems.
