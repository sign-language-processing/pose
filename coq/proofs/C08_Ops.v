(* C08 - every shared operation maps the representation of a content to the representation (or the
   observation) of the reference result, on every backend. *)
From Coq Require Import ZArith NArith List Bool Lia.
Require Import ListFacts Result F32 Codec C08_Body C08_Read C08_Spec C08_Lemmas C08_Ctor.
Import ListNotations.
Local Open Scope nat_scope.

Section Cfg.
Variables (mm : mmkind) (eo : bool).

Lemma Masked_eq {V M} s1 s2 (v v' : V) (m m' : M) : v = v' -> m = m' -> Masked s1 v s2 m = Masked s1 v' s2 m'.
Proof. now intros -> ->. Qed.

Lemma gat_map3 {X Y} (f : X -> Y) ix (l : t3 X) : gat ix (map3 f l) = map3 f (gat ix l).
Proof. unfold map3. apply gat_map. Qed.
(* The pattern of this file: the operation's result is literally the constructor applied to gathered / mapped
   parts of [rep b k]; [etransitivity] with [masked_rep] (or [masked_frep]) of the reference content turns the goal
   into equality of those parts, which the map / gather commutations close. *)
Lemma take_rep b fps ix k : kD k <> 0 ->
  take_frames (cfg_repaired mm eo) b fps ix (rep b k) = Ok (rep b (ref_frames fps ix k)).
Proof. intros HD. etransitivity; [|apply (masked_rep mm eo b (ref_frames fps ix k)); exact HD].
  unfold take_frames, rep, rows, kshape, kcshape. cbn [g_data g_cs g_conf dmapx set0 ref_frames k_fps kF kP kT kD k_pts].
  f_equal; [apply Masked_eq|]; apply gat_map3. Qed.
Lemma tf_safe_gat ix (pts : t3 point) : tf_safe_pts pts -> tf_safe_pts (gat ix pts).
Proof. unfold tf_safe_pts. intros H. now rewrite <- !gat_map3, H. Qed.
Lemma ok_for_gat b ix pts : ok_for b pts -> ok_for b (gat ix pts).
Proof. destruct b; cbn [ok_for]; trivial. apply tf_safe_gat. Qed.

Lemma select_frames_rep b idx k : kD k <> 0 -> idx <> [] -> in_range (kF k) idx ->
  select_frames (cfg_repaired mm eo) b idx (rep b k) = Ok (rep b (ref_frames (k_fps k) (map Z.to_nat idx) k)).
Proof. intros HD Hne Hin. unfold select_frames, extent. cbn [rep g_data dshape kshape nth].
  rewrite ix_list_in by assumption. cbn [rbind]. now apply take_rep. Qed.
(* [_gen]: the index computation may fail; its error is the operation's, hence the result under [rmap] *)
Lemma getitem_slice_gen b s k : kD k <> 0 ->
  getitem_slice (cfg_repaired mm eo) b s (rep b k) = rmap (fun ix => rep b (ref_frames (k_fps k) ix k)) (ix_slice b (kF k) s).
Proof. intros HD. unfold getitem_slice, extent. cbn [rep g_data dshape kshape nth g_fps].
  destruct (ix_slice b (kF k) s) as [ix|e]; cbn [rbind rmap]; [|reflexivity]. now apply take_rep. Qed.
Lemma slice_step_gen b by_ k : kD k <> 0 ->
  slice_step (cfg_repaired mm eo) b by_ (rep b k) =
  rmap (fun ix => rep b (ref_frames (fps_div (k_fps k) by_) ix k)) (ix_slice b (kF k) (every by_)).
Proof. intros HD. unfold slice_step, extent, every. cbn [rep g_data dshape kshape nth g_fps].
  destruct (ix_slice b (kF k) _) as [ix|e]; cbn [rbind rmap]; [|reflexivity]. now apply take_rep. Qed.
(* the frames kept by [::by] *)
Lemma slice_idx_every n by_ : (0 < by_)%Z ->
  slice_idx n (every by_) = Ok (filter (fun i => (Z.of_nat i mod by_ =? 0)%Z) (seq 0 n)).
Proof. intros H. unfold slice_idx, every. cbn [s_step s_start s_stop].
  destruct (Z.eqb_spec by_ 0); [lia|]. destruct (Z.ltb_spec 0 by_); [|lia]. f_equal.
  apply filter_ext_in. intros i Hi. apply in_seq in Hi. now rewrite Z.sub_0_r, in_range_b by lia. Qed.
Lemma slice_zero_step b n s : s_step s = Some 0%Z -> ix_slice b n s = Err Value.
Proof. intros H. unfold ix_slice, slice_idx. rewrite H. destruct b; reflexivity. Qed.

Lemma getitem_int_rep b i k : kD k <> 0 ->
  getitem_int (cfg_repaired mm eo) b i (rep b k) = rmap (fun j => frep b (ref_frame j k)) (norm_wrap (kF k) i).
Proof. intros HD. unfold getitem_int, extent. cbn [rep g_data dshape kshape nth g_fps g_cs g_conf kcshape].
  destruct (norm_wrap (kF k) i) as [j|e]; cbn [rbind rmap]; [|reflexivity].
  etransitivity; [|apply (masked_frep mm eo b (ref_frame j k)); exact HD].
  unfold frep, rows. cbn [dmapx tl g_data ref_frame q_fps qP qT qD q_pts].
  f_equal; [apply Masked_eq|]; apply nth_map_nil. Qed.
Lemma norm_wrap_out n i : (i < - Z.of_nat n \/ Z.of_nat n <= i)%Z -> norm_wrap n i = Err Index.
Proof. intros H. unfold norm_wrap.
  destruct (Z.leb_spec 0 i), (Z.ltb_spec i (Z.of_nat n)), (Z.leb_spec (- Z.of_nat n) i), (Z.ltb_spec i 0); cbn [andb]; try reflexivity; lia. Qed.
Lemma tf_safe_nth j (pts : t3 point) : tf_safe_pts pts -> tf_safe_pts2 (nth j pts []).
Proof. unfold tf_safe_pts, tf_safe_pts2, map3, map2n. intros H.
  rewrite <- (nth_map_nil (map (fun x : point => is_zero32_daz (fst x)))), <- (nth_map_nil (map (fun x : point => is_zero32 (fst x)))).
  now rewrite H. Qed.

Lemma gat2_map3 {X Y} (f : X -> Y) ix (l : t3 X) : map (map (gat ix)) (map3 f l) = map3 f (map (map (gat ix)) l).
Proof. unfold map3. rewrite !map_map. apply map_ext; intros l2. rewrite !map_map. apply map_ext; intros l1. apply gat_map. Qed.
Lemma get_points_rep b idx k : kD k <> 0 -> idx <> [] -> in_range (kT k) idx ->
  get_points (cfg_repaired mm eo) b idx (rep b k) = Ok (rep b (ref_points (map Z.to_nat idx) k)).
Proof. intros HD Hne Hin. unfold get_points, extent. cbn [rep g_data dshape kshape nth g_fps g_cs g_conf kcshape].
  rewrite ix_list_in by assumption. cbn [rbind].
  etransitivity; [|apply (masked_rep mm eo b (ref_points (map Z.to_nat idx) k)); exact HD].
  unfold rep, rows, kshape, kcshape. cbn [g_data dmapx set2 ref_points k_fps kF kP kT kD k_pts].
  f_equal; [apply Masked_eq|]; apply gat2_map3. Qed.
Lemma tf_safe_gat2 ix (pts : t3 point) : tf_safe_pts pts -> tf_safe_pts (map (map (gat ix)) pts).
Proof. unfold tf_safe_pts. intros H. now rewrite <- !gat2_map3, H. Qed.
Lemma ok_for_gat2 b ix pts : ok_for b pts -> ok_for b (map (map (gat ix)) pts).
Proof. destruct b; cbn [ok_for]; trivial. apply tf_safe_gat2. Qed.

Lemma copy_rep b k : kD k <> 0 -> copy (cfg_repaired mm eo) b (rep b k) = Ok (rep b k).
Proof. intros HD. pose proof (masked_rep mm eo b k HD) as H. destruct b; exact H. Qed.

Lemma zipw_repeat_map {A B B' C} (f : A -> B -> C) (h : B' -> B) (l : list A) (y : B') n :
  zipw f l (repeat (h y) n) = zipw (fun a b => f a (h b)) l (repeat y n).
Proof. revert n; induction l as [|x l IH]; intros [|n]; cbn [zipw repeat]; try reflexivity. now rewrite IH. Qed.
Lemma rows_same_fst {X} (g : N -> X) d (h : point -> point) (pts : t3 point) :
  (forall x, fst (h x) = fst x) -> rows g d (map3 h pts) = rows g d pts.
Proof. intros H. unfold rows. rewrite map3_map3. apply map3_ext. intros x. now rewrite H. Qed.
Lemma zero_filled_np k : kD k <> 0 -> zero_filled (cfg_repaired mm eo) Np (rep Np k) = Ok (rep Np (ref_zero k)).
Proof. intros HD. unfold zero_filled. rewrite copy_rep by exact HD. cbn [rbind rep g_data g_fps g_cs g_conf]. f_equal.
  unfold rep, kshape, kcshape, ref_zero. cbn [k_fps kF kP kT kD k_pts]. f_equal.
  - f_equal.
    + unfold rows. rewrite zip4_map3, map3_map3. reflexivity.
    + symmetry. apply rows_same_fst. reflexivity.
  - rewrite map3_map3. reflexivity. Qed.
Lemma zero_filled_mt b k : b <> Np -> kD k <> 0 -> ok_for b (k_pts k) ->
  zero_filled (cfg_repaired mm eo) b (rep b k) =
  Ok {| g_fps := k_fps k; g_data := Plain (kshape k) (map3 snd (k_pts (ref_zero k))); g_cs := kcshape k; g_conf := map3 fst (k_pts k) |}.
Proof. intros Hb HD Hok. unfold zero_filled. rewrite copy_rep by exact HD. cbn [rbind].
  assert (E : zip4 (zf_cell ZfWhere) (map3 snd (k_pts k)) (rows (fun w => negb (is_zero32 w)) (kD k) (k_pts k))
              = map3 snd (k_pts (ref_zero k))).
  { unfold rows, ref_zero. cbn [k_pts]. rewrite zip4_map3, map3_map3. apply map3_ext. intros x. cbn [snd fst].
    rewrite (zipw_repeat_map (zf_cell ZfWhere) negb). apply zipw_ext. intros w m. now destruct m. }
  destruct b; [contradiction| |]; cbn [rep g_data g_fps g_cs g_conf cfg_repaired torch_zf tf_zf];
    rewrite shape_eqb_refl; cbn [negb]; unfold stored.
  - now rewrite E.
  - cbn [ok_for] in Hok. rewrite tf_rows by exact Hok. now rewrite E. Qed.

End Cfg.

Lemma bk_np_or_not (b : bk) : b = Np \/ b <> Np.
Proof. destruct b; [now left|right; discriminate|right; discriminate]. Qed.
Lemma map3_ext_in {X Y} (P : X -> Prop) (f g : X -> Y) (l : t3 X) :
  Forall (Forall (Forall P)) l -> (forall x, P x -> f x = g x) -> map3 f l = map3 g l.
Proof. intros H Hfg. unfold map3. apply map_ext_in. intros l2 H2. apply map_ext_in. intros l1 H1. apply map_ext_in. intros x Hx.
  apply Hfg. rewrite Forall_forall in H. specialize (H _ H2). rewrite Forall_forall in H. specialize (H _ H1).
  rewrite Forall_forall in H. now apply H. Qed.
(* a row of the rebuilt mask: all of a point's cells carry the same bit *)
Lemma rows_all (g : N -> bool) d e (pts : t3 point) : d <> 0 ->
  map3 (fun r => repeat (forallb (fun z => z) r) e) (rows g d pts) = rows g e pts.
Proof. intros Hd. unfold rows. rewrite map3_map3. apply map3_ext. intros x. now rewrite forallb_repeat. Qed.

Section Kernel.
Variable dot : list N -> list N -> N.
Variable eo : bool.
Lemma vecmat_length m v : length (vecmat dot m v) = m_cols m.
Proof. unfold vecmat, mcols. now rewrite !map_length, seq_length. Qed.
(* what is visible of the product: the reference row for a valid point, +0.0 for a missing one *)
Definition vis_row (m : matrix) (x : point) : list N :=
  if is_zero32 (fst x) then repeat zero32 (m_cols m) else vecmat dot m (snd x).
(* the content after a product: the points of k with rows [h x] of the matrix's width *)
Definition with_rows (m : matrix) (h : point -> list N) (k : core) : core :=
  {| k_fps := k_fps k; kF := kF k; kP := kP k; kT := kT k; kD := m_cols m;
     k_pts := map3 (fun x : point => (fst x, h x)) (k_pts k) |}.
Lemma rows_with_rows {X} (g : N -> X) d m h k : rows g d (k_pts (with_rows m h k)) = rows g d (k_pts k).
Proof. apply rows_same_fst. reflexivity. Qed.
Lemma obs_with_rows b m h k : ok_for b (k_pts k) -> observe b (rep b (with_rows m h k)) = obs_core (with_rows m h k).
Proof. intros H. apply obs_rep. destruct b; cbn [ok_for] in *; trivial. unfold tf_safe_pts in *. cbn [with_rows k_pts].
  now rewrite !map3_map3. Qed.
Lemma visible_core m k h : (forall x, length (h x) = m_cols m) ->
  o_val (visible (obs_core (with_rows m h k)))
  = map3 (fun x : point => if is_zero32 (fst x) then repeat zero32 (m_cols m) else h x) (k_pts k).
Proof. intros Hlen. unfold visible, obs_core, rows. cbn [o_valid o_val with_rows k_pts kD].
  rewrite !map3_map3, zip4_map3. apply map3_ext. intros x. cbn [fst snd].
  rewrite zipw_repeat_r by (rewrite Hlen; lia). destruct (is_zero32 (fst x)); cbn [negb].
  - rewrite <- (Hlen x). clear. induction (h x) as [|w l IH]; cbn [map length repeat]; [reflexivity|]. now rewrite IH.
  - apply map_id. Qed.
Lemma vis_row_length m x : length (vis_row m x) = m_cols m.
Proof. unfold vis_row. destruct (is_zero32 (fst x)); [apply repeat_length|apply vecmat_length]. Qed.
Lemma visible_ref_matmul m k :
  o_val (visible (obs_core (ref_matmul dot m k))) = map3 (vis_row m) (k_pts k).
Proof. change (ref_matmul dot m k) with (with_rows m (vis_row m) k). rewrite visible_core by apply vis_row_length.
  apply map3_ext. intros x. unfold vis_row. now destruct (is_zero32 (fst x)). Qed.
Lemma visible_eq (o1 o2 : obs) : o_fps o1 = o_fps o2 -> o_shape o1 = o_shape o2 -> o_valid o1 = o_valid o2 ->
  o_cshape o1 = o_cshape o2 -> o_conf o1 = o_conf o2 -> o_val (visible o1) = o_val (visible o2) -> visible o1 = visible o2.
Proof. intros H1 H2 H3 H4 H5 H6. unfold visible in *. cbn [o_val] in H6. rewrite H1, H2, H4, H5, H6. now rewrite H3. Qed.
(* rows that are right at every valid point of a well-formed content are visibly the reference product *)
Lemma visible_as_ref m k h : (forall x, length (h x) = m_cols m) -> rows_ok k ->
  (forall x, length (snd x) = kD k -> is_zero32 (fst x) = false -> h x = vecmat dot m (snd x)) ->
  visible (obs_core (with_rows m h k)) = visible (obs_core (ref_matmul dot m k)).
Proof. intros Hlen Hrows Hh. change (ref_matmul dot m k) with (with_rows m (vis_row m) k). apply visible_eq; try reflexivity.
  - unfold obs_core. cbn [o_valid]. now rewrite !rows_with_rows.
  - unfold obs_core, with_rows. cbn [o_conf k_pts]. now rewrite !map3_map3.
  - rewrite (visible_core m k h Hlen), (visible_core m k _ (vis_row_length m)). apply (map3_ext_in _ _ _ _ Hrows). intros x Hx.
    unfold vis_row. destruct (is_zero32 (fst x)) eqn:Z; [reflexivity|now apply Hh]. Qed.

Lemma set_last4 e a b c d : set_last e [a; b; c; d] = [a; b; c; e].
Proof. reflexivity. Qed.
(* ma.dot multiplies the zero-filled rows *)
Lemma matmul_np mm m k : kD k <> 0 -> m_rows m = kD k -> m_cols m <> 0 ->
  matmul dot (cfg_repaired mm eo) Np m (rep Np k) =
  Ok (rep Np (with_rows m (fun x : point => vecmat dot m (zipw (fun w (miss : bool) => if miss then zero32 else w)
                                                            (snd x) (repeat (is_zero32 (fst x)) (kD k)))) k)).
Proof. intros HD Hr Hc. unfold matmul. cbn [rep g_data dshape kshape last_dim last g_fps g_cs g_conf].
  rewrite Hr, Nat.eqb_refl. cbn [negb].
  etransitivity; [|apply (masked_rep mm eo Np (with_rows m _ k)); exact Hc].
  cbn [ctor]. unfold rep, kshape, kcshape. rewrite !rows_with_rows. cbn [g_data with_rows k_fps kF kP kT kD k_pts stored].
  rewrite !set_last4, rows_all by exact HD. f_equal; [apply Masked_eq; [|reflexivity]|].
  - unfold rows. rewrite zip4_map3, !map3_map3. reflexivity.
  - rewrite map3_map3. reflexivity. Qed.
(* Torch / TF multiply the stored rows; the mask kept as it is fits only a square matrix, the mask rebuilt from the
   rows (DESIGN F16a) fits any width *)
Lemma matmul_mt mm b m k : b <> Np -> kD k <> 0 -> m_rows m = kD k -> m_cols m <> 0 -> (mm = MmKeep -> m_cols m = kD k) ->
  matmul dot (cfg_repaired mm eo) b m (rep b k) = Ok (rep b (with_rows m (fun x : point => vecmat dot m (snd x)) k)).
Proof. intros Hb HD Hr Hc Hsq. unfold matmul. cbn [rep g_data dshape kshape last_dim last g_fps g_cs g_conf].
  rewrite Hr, Nat.eqb_refl. cbn [negb].
  assert (Ev : map3 snd (k_pts (with_rows m (fun x : point => vecmat dot m (snd x)) k)) = map3 (vecmat dot m) (map3 snd (k_pts k)))
    by (cbn [with_rows k_pts]; now rewrite !map3_map3).
  assert (Ec : map3 fst (k_pts (with_rows m (fun x : point => vecmat dot m (snd x)) k)) = map3 fst (k_pts k))
    by (cbn [with_rows k_pts]; now rewrite !map3_map3).
  destruct b; [contradiction| |]; cbn [cfg_repaired torch_mm tf_mm];
    (etransitivity; [|apply (masked_rep mm eo _ (with_rows m (fun x : point => vecmat dot m (snd x)) k)); exact Hc]);
    unfold rep, kshape, kcshape; rewrite !rows_with_rows, Ev, Ec; cbn [g_data with_rows k_fps kF kP kT kD]; rewrite !set_last4;
    (destruct mm; [now rewrite (Hsq eq_refl)|now rewrite rows_all]). Qed.

(* every backend, either shape of the MaskedTensor mask *)
Lemma matmul_visible mm b m k : kD k <> 0 -> ok_for b (k_pts k) -> rows_ok k -> m_rows m = kD k -> m_cols m <> 0 ->
  (b <> Np -> mm = MmKeep -> m_cols m = kD k) ->
  rmap (fun y => visible (observe b y)) (matmul dot (cfg_repaired mm eo) b m (rep b k)) = Ok (visible (obs_core (ref_matmul dot m k))).
Proof. intros HD Hok Hrows Hr Hc Hsq. destruct (bk_np_or_not b) as [->|Hb].
  - rewrite matmul_np by assumption. cbn [rmap]. f_equal. rewrite obs_with_rows by exact Hok.
    apply visible_as_ref; [intros; apply vecmat_length|exact Hrows|]. intros x Hx Hz.
    rewrite Hz, zipw_repeat_r by lia. now rewrite map_id.
  - rewrite matmul_mt by auto. cbn [rmap]. f_equal. rewrite obs_with_rows by exact Hok.
    apply visible_as_ref; [intros; apply vecmat_length|exact Hrows|reflexivity]. Qed.
End Kernel.

Lemma flatten_rep b k : b <> Tf ->
  flatten b (rep b k) =
  if fps_zero (k_fps k) then Err ZeroDiv else if Nat.eqb (kF k * (kP k * (kT k * 1))) 0 then Err Value else Ok (ref_flatten k).
Proof. intros Hb. destruct b; [| |contradiction]; reflexivity. Qed.
