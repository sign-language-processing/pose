(* C20 - the F15 repair is conservative: on every well-formed homogeneous batch on which the pinned
   shortcut (max_len == 1) returned a result, the repaired collator returns the same result. *)
From Coq Require Import List ZArith Arith Bool Lia.
Require Import Result Tensor C20_Collate C20_Spec C20_Pad C20_Rows.
Import ListNotations.

Lemma nats_eqb_eq a : forall b, nats_eqb a b = true -> a = b.
Proof.
  induction a as [|x a IH]; intros [|y b] H; cbn [nats_eqb] in H; try discriminate; [reflexivity|].
  apply andb_true_iff in H. destruct H as [Hx Ha]. apply Nat.eqb_eq in Hx. subst. f_equal. now apply IH.
Qed.

Lemma tstack0_ok_shapes {X} (t0 : tensor X) r o : tstack0 (t0 :: r) = Ok o -> forall t, In t (t0 :: r) -> shape t = shape t0.
Proof.
  intros H t Ht. unfold tstack0 in H.
  destruct (forallb (fun t => nats_eqb (shape t) (shape t0)) (t0 :: r)) eqn:E; [|discriminate].
  rewrite forallb_forall in E. apply nats_eqb_eq. now apply E.
Qed.

Lemma stack_ok_same_len masked tail x0 r o :
  Forall (good masked tail) (x0 :: r) -> stack masked (x0 :: r) = Ok o -> forall x, In x (x0 :: r) -> len_of x = len_of x0.
Proof.
  intros HG H x Hx.
  rewrite stack_kind in H by (eapply Forall_impl; [|exact HG]; intros y Hy; apply Hy).
  assert (Ht : exists t, tstack0 (map tl_t (x0 :: r)) = Ok t)
    by (destruct (tstack0 (map tl_t (x0 :: r))) as [t|e]; [eexists; reflexivity|destruct masked; discriminate H]).
  destruct Ht as [t Ht]. unfold len_of.
  now rewrite (tstack0_ok_shapes (tl_t x0) (map tl_t r) t Ht (tl_t x) (in_map tl_t _ x Hx)).
Qed.

Theorem repair_conservative masked tail pv batch o :
  good_batch masked tail pv batch ->
  pad_tensors_with sc_pinned batch pv = Ok o -> pad_tensors batch pv = Ok o.
Proof.
  intros G H. unfold pad_tensors. rewrite (pad_tensors_master _ _ _ _ _ sc_repaired_sound G).
  rewrite (pad_tensors_with_good masked tail pv batch sc_pinned G) in H.
  destruct (sc_pinned (map len_of batch) (Lmax batch)); [|exact H].
  (* the pinned shortcut was taken and stack succeeded: every length equals the first, hence the maximum *)
  rewrite <- H. symmetry. destruct G as (Hne & HG & _). apply stack_unpadded; [exact Hne|exact HG|].
  destruct batch as [|x0 r] eqn:Eb; [congruence|]. rewrite <- Eb in *.
  assert (Hsame : forall x, In x batch -> len_of x = len_of x0) by (rewrite Eb in *; exact (stack_ok_same_len masked tail x0 r o HG H)).
  destruct (Lmax_attained batch Hne) as (xm & Hin & Hxm).
  intros x Hx. now rewrite <- Hxm, (Hsame x Hx), (Hsame xm Hin).
Qed.
