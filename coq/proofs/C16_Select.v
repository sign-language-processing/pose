(* C16: select_frames returns exactly the requested frames; slice_step returns frames 0, k, 2k, ... and divides fps. *)
From Coq Require Import ZArith List Bool Arith Lia SpecFloat.
Require Import Result F32 C16_Frames C16_Lists.
Import ListNotations.
Local Open Scope nat_scope.

Definition frames_at {A} (d : A) (l : list A) (idx : list nat) : list A := map (fun i => nth i l d) idx.
Definition body_at {A} (d : A) (b : body A) (idx : list nat) : body A :=
  mkB (fps b) (frames_at d (dat b) idx) (frames_at d (msk b) idx) (frames_at d (cnf b) idx).

Lemma select_exact {A} (d : A) be (b : body A) idx :
  wf_body b -> Forall (fun i => i < frames b) idx -> (be = TF -> idx <> []) ->
  select_frames be b (map Z.of_nat idx) = Ok (body_at d b idx).
Proof. intros [Hm Hc] Hr Hne. unfold select_frames, frames in *.
  assert (Ht : is_tf be && match map Z.of_nat idx with [] => true | _ :: _ => false end = false).
  { destruct be; try reflexivity. destruct idx; [exfalso; now apply Hne|reflexivity]. }
  rewrite Ht. rewrite (gather_nat d) by exact Hr. cbn [rbind].
  rewrite (gather_nat d) by (rewrite Hm; exact Hr). cbn [rbind].
  rewrite (gather_nat d) by (rewrite Hc; exact Hr). reflexivity. Qed.
Lemma select_ok_inv {A} (d : A) be (b : body A) idx r :
  select_frames be b (map Z.of_nat idx) = Ok r -> r = body_at d b idx /\ Forall (fun i => i < frames b) idx.
Proof. unfold select_frames. destruct (is_tf be && _); [discriminate|].
  destruct (gather _ (dat b) _) as [x|e] eqn:H1; cbn [rbind]; [|discriminate].
  destruct (gather _ (msk b) _) as [y|e] eqn:H2; cbn [rbind]; [|discriminate].
  destruct (gather _ (cnf b) _) as [z|e] eqn:H3; cbn [rbind]; [|discriminate].
  intros [= <-]. apply (gather_nat_inv d) in H1, H2, H3. destruct H1 as [-> Hr], H2 as [-> _], H3 as [-> _].
  split; [reflexivity|exact Hr]. Qed.
Lemma select_out_of_range {A} be (b : body A) idx i :
  In i idx -> frames b <= i -> exists e, select_frames be b (map Z.of_nat idx) = Err e.
Proof. intros Hi Hge. destruct (select_frames be b (map Z.of_nat idx)) as [r|e] eqn:H; [|now exists e]. exfalso.
  unfold select_frames in H. destruct (is_tf be && _); [discriminate|].
  destruct (gather _ (dat b) _) as [x|e] eqn:H1; cbn [rbind] in H; [|discriminate].
  apply gather_nat_range in H1. rewrite Forall_forall in H1. specialize (H1 i Hi). unfold frames in Hge. lia. Qed.

Definition step_indexes (n by' : nat) : list nat := map (fun j => j * by') (seq 0 ((n + by' - 1) / by')).
Lemma step_frames_and_fps {A} (d : A) be (b : body A) (k : positive) r :
  wf_body b -> slice_step be b (Zpos k) = Ok r ->
  r = body_at d (mkB (sf64_div (fps b) (sf64_of_Z (Zpos k))) (dat b) (msk b) (cnf b)) (step_indexes (frames b) (Pos.to_nat k)).
Proof. intros [Hm Hc]. unfold slice_step. destruct (is_inf_sf _); [discriminate|]. intros [= <-].
  pose proof (Pos2Nat.is_pos k) as Hk.
  unfold body_at, frames_at, step_indexes, frames. cbn [fps dat msk cnf]. rewrite !map_map.
  rewrite !strideN_stride. change (N.to_nat 0) with 0. change (N.to_nat (N.pos k)) with (Pos.to_nat k).
  rewrite !(stride_spec d) by exact Hk.
  rewrite Hm, Hc. reflexivity. Qed.
Lemma step_zero {A} be (b : body A) : slice_step be b 0 = Err Value.
Proof. reflexivity. Qed.
Lemma pose_slice_step_inv {H A} be (ps : pose H A) by' ps' :
  pose_slice_step true false be ps by' = Ok ps' ->
  header ps' = header ps /\ slice_step be (pbody ps) by' = Ok (pbody ps').
Proof. unfold pose_slice_step. cbn [negb]. destruct (slice_step be (pbody ps) by') as [b|e]; cbn [rbind]; [|discriminate].
  intros [= <-]. split; reflexivity. Qed.
Lemma step_indexes_spec n by' : 1 <= by' ->
  forall i, In i (step_indexes n by') <-> (exists j, i = j * by' /\ i < n).
Proof. intros Hb i. unfold step_indexes. rewrite in_map_iff. split.
  - intros [j [<- Hj]]. apply in_seq in Hj. exists j. split; [reflexivity|].
    destruct Hj as [_ Hj]. cbn [Nat.add] in Hj.
    set (q := (n + by' - 1) / by') in *.
    assert (H2 : by' * q <= n + by' - 1) by (apply Nat.mul_div_le; lia). rewrite Nat.mul_comm in H2.
    assert (H3 : S j * by' <= q * by') by (apply Nat.mul_le_mono_r; lia). cbn [Nat.mul] in H3. lia.
  - intros [j [-> Hj]]. exists j. split; [reflexivity|]. apply in_seq. split; [lia|]. cbn [Nat.add].
    apply (Nat.div_le_lower_bound (n + by' - 1) by' (S j)); [lia|]. rewrite Nat.mul_comm. cbn [Nat.mul]. lia. Qed.

Example select_example :
  select_frames Torch (mkB (sf64_of_Z 30) [10;11;12;13] [20;21;22;23] [30;31;32;33]) [3;1;1]%Z
  = Ok (mkB (sf64_of_Z 30) [13;11;11] [23;21;21] [33;31;31]).
Proof. reflexivity. Qed.
Example step_example :
  slice_step TF (mkB (sf64_of_Z 30) [10;11;12;13;14] [20;21;22;23;24] [30;31;32;33;34]) 2
  = Ok (mkB (sf64_of_Z 15) [10;12;14] [20;22;24] [30;32;34]).
Proof. vm_compute. reflexivity. Qed.
