(* C12 - a state satisfying the invariant is serialisable: against Codec.write_pose (the model of Pose.write,
   pose.py:66-98, with its four sanity checks) every check passes, and the mask a reader derives from the
   written confidences (Codec.mk_body) is the pose's mask. *)
From Coq Require Import List Arith Bool ZArith NArith Lia.
Require Import ListN Result Bytes F32 Tensor Codec.
Require CodecRT.
Require Import C12_Model C12_Tab C12_Inv C12_Reach.
Import ListNotations.
Open Scope nat_scope.

(* a concrete pose handed to Pose.write whose shapes / point counts / format lengths / confidence zero-ness are the state's *)
Definition hdr_matches (h : C12_Model.header) (comps : list wcomponent) : Prop :=
  Forall2 (fun c wc => length (c_points c) = length (wc_points wc) /\ c_fmt c = length (wc_format wc)) h comps.
Record abstracts (st : state) (wp : wpose) : Prop := {
  ab_np : s_be st = Np;
  ab_hdr : hdr_matches (s_hdr st) (w_comps wp);
  ab_shape : w_shape wp = map N.of_nat (shape (s_mask st));
  ab_cshape : w_cshape wp = map N.of_nat (shape (s_cz st));
  ab_cz : data (s_cz st) = map (fun w => is_zero32 (f64_to_f32 w)) (w_conf wp) }.

Lemma fold_zmax_const (l : list Z) (n : Z) : l <> [] -> Forall (fun x => x = n) l -> (0 <= n)%Z -> fold_right Z.max 0%Z l = n.
Proof.
  intros Hne H Hn. induction H as [|x l Hx Hl IH]; [congruence|]. cbn [fold_right]. subst x.
  destruct l as [|y l']; [cbn; lia|]. rewrite IH by discriminate. lia.
Qed.
Lemma num_dims_of_uniform (comps : list wcomponent) D :
  comps <> [] -> Forall (fun wc => length (wc_format wc) = S D) comps -> num_dims_of (map wc_format comps) = Ok (Z.of_nat D).
Proof.
  intros Hne H. unfold num_dims_of. destruct (map wc_format comps) as [|f0 r] eqn:E.
  - destruct comps; [congruence|discriminate].
  - rewrite <- E. f_equal.
    rewrite (fold_zmax_const _ (Z.of_nat (S D))); [lia| | |lia].
    + destruct comps; [congruence|discriminate].
    + rewrite !Forall_map. eapply Forall_impl; [|exact H]. intros wc Hwc. cbv beta. unfold lenN. rewrite Hwc. lia.
Qed.
Lemma total_points_w_matches h comps : hdr_matches h comps -> total_points_w comps = N.of_nat (C12_Model.total_points h).
Proof.
  induction 1 as [|c wc h comps [Hp _] _ IH]; [reflexivity|].
  unfold total_points_w in *. cbn [map sumN fold_right]. rewrite total_points_cons.
  fold (sumN (map (fun c0 => lenN (wc_points c0)) comps)). rewrite IH. unfold lenN. rewrite <- Hp. lia.
Qed.
Lemma hdr_matches_fmt h comps D :
  hdr_matches h comps -> Forall (fun c => c_fmt c = S D) h -> Forall (fun wc => length (wc_format wc) = S D) comps.
Proof.
  induction 1 as [|c wc h comps [_ Hf] _ IH]; intros HF; [constructor|].
  inversion HF as [|c' h' Hc' Hh']; subst. constructor; [congruence|apply IH; exact Hh'].
Qed.
Lemma hdr_matches_nonempty h comps : hdr_matches h comps -> h <> [] -> comps <> [].
Proof. intros H Hne E. subst comps. inversion H. congruence. Qed.

Theorem write_checks_pass st wp : Inv st -> abstracts st wp ->
  write_pose wp = (do h <- write_header (w_dims wp) (w_comps wp); do b <- write_body wp; Ok (h ++ b)).
Proof.
  intros [F [P [T [D [Hne [Hfmt [HT [Hm [Hc _]]]]]]]]] [_ Hh Hs Hcs _].
  unfold write_pose. rewrite Hs, Hm. cbn [map].
  pose proof (hdr_matches_nonempty _ _ Hh Hne) as Hne'.
  pose proof (hdr_matches_fmt _ _ D Hh Hfmt) as Hfmt'.
  rewrite (num_dims_of_uniform _ D Hne' Hfmt'). cbn [rbind].
  rewrite nat_N_Z, Z.eqb_refl. cbn [negb].
  rewrite (total_points_w_matches _ _ Hh), HT, N.eqb_refl. cbn [negb].
  rewrite Hcs, Hc. cbn [map]. rewrite CodecRT.eq_shape_refl. cbn [negb]. reflexivity.
Qed.

Lemma mk_body_mask fps F P T D dat conf b : mk_body fps F P T D dat conf = Ok b -> b_mask b = map is_zero32 conf.
Proof. unfold mk_body. destruct (D <=? 0)%Z; [discriminate|]. intros H. injection H as <-. reflexivity. Qed.

Theorem reader_mask st wp F P T D : Inv st -> abstracts st wp -> shape (s_mask st) = [F; P; T; D] ->
  forall f p t d, f < F -> p < P -> t < T -> d < D ->
    get4 (s_mask st) f p t d = nth (ravel [F; P; T] [f; p; t]) (map is_zero32 (map f64_to_f32 (w_conf wp))) false.
Proof.
  intros [F' [P' [T' [D' [_ [_ [_ [Hm [Hc [_ [Wc Hcell]]]]]]]]]]] [_ _ _ _ Hcz] Hm' f p t d Hf Hp Ht Hd.
  rewrite Hm in Hm'. injection Hm' as -> -> -> ->.
  rewrite Hcell by assumption. unfold get3, tget. rewrite Hc, Hcz, map_map. reflexivity.
Qed.

Theorem reachable_serialisable s0 st wp :
  Inv s0 -> reachable s0 st -> abstracts st wp ->
  write_pose wp = (do h <- write_header (w_dims wp) (w_comps wp); do b <- write_body wp; Ok (h ++ b))
  /\ forall F P T D, shape (s_mask st) = [F; P; T; D] ->
     forall fps dat b, mk_body fps (N.of_nat F) (N.of_nat P) (N.of_nat T) (Z.of_nat D) dat (map f64_to_f32 (w_conf wp)) = Ok b ->
     forall f p t d, f < F -> p < P -> t < T -> d < D ->
       get4 (s_mask st) f p t d = nth (ravel [F; P; T] [f; p; t]) (b_mask b) false.
Proof.
  intros H0 R A. pose proof (reachable_inv _ _ H0 R) as HI. split; [apply (write_checks_pass st wp HI A)|].
  intros F P T D Hm fps dat b Hb f p t d Hf Hp Ht Hd.
  rewrite (mk_body_mask _ _ _ _ _ _ _ _ Hb). apply (reader_mask st wp F P T D HI A Hm); assumption.
Qed.
