(* C16 - frame selection, stepping and dropout (definitions only; proofs are in proofs/C16_*.v).

   A body is its frame rate plus three parallel per-frame channels (values, validity, confidence): every
   operation here indexes the first axis only, so a frame is an opaque token of type A.  All float
   computations are IEEE-754 functions of Coq's SpecFloat (binary64 for the generic code, binary32 for
   the TensorFlow code), bit-exact and closed under the global context.  Randomness is an explicit
   argument: [sample] = what random.sample returned, [perm] = what tf.random.shuffle returned. *)
From Coq Require Import ZArith List Bool Arith SpecFloat QArith_base.
Require Import Result F32.
Import ListNotations.

Inductive backend := NumPy | Torch | TF.
Definition is_tf (be : backend) : bool := match be with TF => true | _ => false end.
Definition is_torch (be : backend) : bool := match be with Torch => true | _ => false end.
(* negative indices wrap in NumPy / Torch fancy indexing; tf.gather on CPU raises InvalidArgumentError *)
Definition wraps (be : backend) : bool := negb (is_tf be).

Record body (A : Type) := mkB { fps : spec_float; dat : list A; msk : list A; cnf : list A }.
Arguments mkB {A}. Arguments fps {A}. Arguments dat {A}. Arguments msk {A}. Arguments cnf {A}.
Definition frames {A} (b : body A) : nat := length (dat b).
Definition wf_body {A} (b : body A) : Prop := length (msk b) = length (dat b) /\ length (cnf b) = length (dat b).

(* ---- one index of a fancy-indexing / gather operation over an axis of length n ---- *)
Definition norm_index (wrap : bool) (n : nat) (i : Z) : result nat :=
  if (0 <=? i)%Z && (i <? Z.of_nat n)%Z then Ok (Z.to_nat i)
  else if wrap && (- Z.of_nat n <=? i)%Z && (i <? 0)%Z then Ok (Z.to_nat (Z.of_nat n + i))
  else Err Index.
Definition gather {A} (wrap : bool) (l : list A) (idx : list Z) : result (list A) :=
  rmapM (fun i => do k <- norm_index wrap (length l) i;
                  match nth_error l k with Some x => Ok x | None => Err Index end) idx.

(* pose_body.py:546-567 (data[frame_indexes], confidence[frame_indexes]); torch/masked/tensor.py:49-60
   (tensor[key], mask[key]); tensorflow/pose_body.py:52-68 + tensorflow/masked/tensor.py:358-375
   (tf.gather of tensor, mask, confidence).  tf.gather of an empty Python list has float indices and raises. *)
Definition select_frames {A} (be : backend) (b : body A) (idx : list Z) : result (body A) :=
  if is_tf be && (match idx with [] => true | _ => false end) then Err Type_
  else
    do d <- gather (wraps be) (dat b) idx;
    do m <- gather (wraps be) (msk b) idx;
    do c <- gather (wraps be) (cnf b) idx;
    Ok (mkB (fps b) d m c).

(* x[::by] for by >= 1: keep an element, skip by-1, ... *)
Fixpoint stride {A} (by' skip : nat) (l : list A) : list A :=
  match l with
  | [] => []
  | x :: r => match skip with O => x :: stride by' (by' - 1) r | S s => stride by' s r end
  end.
(* the same with binary counters (the step can be astronomically large); proofs/C16_Lists.v: strideN = stride *)
Fixpoint strideN {A} (by' skip : N) (l : list A) : list A :=
  match l with
  | [] => []
  | x :: r => if (skip =? 0)%N then x :: strideN by' (by' - 1)%N r else strideN by' (skip - 1)%N r
  end.
Definition is_inf_sf (x : spec_float) : bool := match x with S754_infinity _ => true | _ => false end.
(* pose_body.py:376-394: data[::by], confidence[::by], fps / by.  by = 0: "slice step cannot be zero";
   by < 0 walks backwards from the last frame (NumPy, TensorFlow) or raises (Torch);
   float / int converts the int (OverflowError when it does not fit a double). *)
Definition slice_step {A} (be : backend) (b : body A) (by' : Z) : result (body A) :=
  match by' with
  | Z0 => Err Value
  | Zpos p =>
      let k := Npos p in
      let d := sf64_of_Z by' in
      if is_inf_sf d then Err Overflow
      else Ok (mkB (sf64_div (fps b) d) (strideN k 0 (dat b)) (strideN k 0 (msk b)) (strideN k 0 (cnf b)))
  | Zneg p =>
      let k := Npos p in
      let d := sf64_of_Z by' in
      if is_torch be then Err Value
      else if is_inf_sf d then Err Overflow
      else Ok (mkB (sf64_div (fps b) d) (strideN k 0 (rev (dat b))) (strideN k 0 (rev (msk b))) (strideN k 0 (rev (cnf b))))
  end.

(* ---- floats ---- *)
(* int(x) / tf.cast(x, int32): truncation toward zero; None on inf / nan *)
Definition sf_trunc (x : spec_float) : option Z :=
  match x with
  | S754_zero _ => Some 0%Z
  | S754_finite s m e =>
      let v := match e with
               | Z0 => Zpos m
               | Zpos p => (Zpos m * Z.pow_pos 2 p)%Z
               | Zneg p => (Zpos m / Z.pow_pos 2 p)%Z
               end in
      Some (if s then (- v)%Z else v)
  | _ => None
  end.
(* the rational number a finite float denotes (m * 2^e); 0 for zeros - used to state "about that fraction" *)
Definition sf_Q (x : spec_float) : QArith_base.Q :=
  match x with
  | S754_finite s m e =>
      let v := match e with
               | Z0 => QArith_base.Qmake (Zpos m) 1
               | Zpos p => QArith_base.Qmake (Zpos m * Z.pow_pos 2 p) 1
               | Zneg p => QArith_base.Qmake (Zpos m) (Pos.pow 2 p)
               end in
      if s then QArith_base.Qopp v else v
  | _ => QArith_base.Qmake 0 1
  end.
Definition sf_nonneg (x : spec_float) : bool :=
  match x with S754_zero _ => true | S754_finite s _ _ => negb s | _ => false end.
(* Python int * float: the int is converted first (OverflowError beyond the double range) *)
Definition int_times_float (n : nat) (x : spec_float) : result spec_float :=
  let f := sf64_of_Z (Z.of_nat n) in
  if is_inf_sf f then Err Overflow else Ok (sf64_mul f x).
Definition py_int (x : spec_float) : result Z :=
  match sf_trunc x with Some z => Ok z | None => Err Value end.

(* pose_body.py:590  min(int(data_len * dropout_percent), int(data_len * 0.99));  [c] is the cap constant *)
Definition cap_count (c : spec_float) (n : nat) : result Z := do x <- int_times_float n c; py_int x.
Definition asked_count (n : nat) (p : spec_float) : result Z := do x <- int_times_float n p; py_int x.
Definition drop_count (c : spec_float) (n : nat) (p : spec_float) : result Z :=
  do a <- asked_count n p; do k <- cap_count c n; Ok (Z.min a k).

Definition memb (i : nat) (s : list nat) : bool := existsb (Nat.eqb i) s.
Fixpoint nodupb (s : list nat) : bool :=
  match s with [] => true | x :: r => negb (memb x r) && nodupb r end.
(* what random.sample(range(0, n), k) can return: k distinct elements of range(n) *)
Definition valid_sample (n k : nat) (s : list nat) : bool :=
  Nat.eqb (length s) k && nodupb s && forallb (fun i => Nat.ltb i n) s.
(* pose_body.py:592  [i for i in range(0, data_len) if i not in dropout_indexes] *)
Definition complement (n : nat) (s : list nat) : list nat := filter (fun i => negb (memb i s)) (seq 0 n).

(* pose_body.py:569-594.  random.sample raises ValueError for a negative or too large sample size. *)
Definition dropout_given {A} (c : spec_float) (be : backend) (b : body A) (p : spec_float) (sample : list nat)
  : result (body A * list nat) :=
  let n := frames b in
  do k <- drop_count c n p;
  if (k <? 0)%Z || (Z.of_nat n <? k)%Z then Err Value
  else
    let kept := complement n sample in
    do r <- select_frames be b (map Z.of_nat kept);
    Ok (r, kept).
(* the number of elements the sample oracle must have for this call (None when the call raises before sampling) *)
Definition sample_size (c : spec_float) (n : nat) (p : spec_float) : option nat :=
  match drop_count c n p with
  | Ok k => if (k <? 0)%Z || (Z.of_nat n <? k)%Z then None else Some (Z.to_nat k)
  | Err _ => None
  end.
(* pose_body.py:596-615: the fraction is one draw u of numpy.random.uniform(low, high) *)
Definition dropout_uniform {A} (c : spec_float) (be : backend) (b : body A) (u : spec_float) (sample : list nat) :=
  dropout_given c be b u sample.
(* pose_body.py:617-636: the fraction is |g| for one draw g of numpy.random.normal(mean, std) *)
Definition dropout_normal {A} (c : spec_float) (be : backend) (b : body A) (g : spec_float) (sample : list nat) :=
  dropout_given c be b (SFabs g) sample.

(* the three public variants at once: how the fraction is obtained *)
Inductive draw := Given (p : spec_float) | Uniform (u : spec_float) | Normal (g : spec_float).
Definition fraction (d : draw) : spec_float := match d with Given p => p | Uniform u => u | Normal g => SFabs g end.
Definition dropout {A} (c : spec_float) (be : backend) (b : body A) (d : draw) (sample : list nat) :=
  match d with
  | Given p => dropout_given c be b p sample
  | Uniform u => dropout_uniform c be b u sample
  | Normal g => dropout_normal c be b g sample
  end.
(* [sample] is something random.sample can return in this call *)
Definition possible_draw (c : spec_float) (n : nat) (p : spec_float) (sample : list nat) : Prop :=
  exists k, sample_size c n p = Some k /\ valid_sample n k sample = true.
(* the cap leaves at least one frame: 0 <= int(n * c) < n *)
Definition cap_ok (c : spec_float) (n : nat) : Prop := exists k, cap_count c n = Ok k /\ (0 <= k < Z.of_nat n)%Z.
Definition cap_okb (c : spec_float) (n : nat) : bool :=
  match cap_count c n with Ok k => (0 <=? k)%Z && (k <? Z.of_nat n)%Z | Err _ => false end.

(* ---- TensorFlow variant (tensorflow/pose_body.py:70-143), float32 arithmetic ---- *)
Definition sf32_of_Z (z : Z) : spec_float := binary_normalize 24 128 z 0 false.
Definition sf32_mul := SFmul 24 128.
Fixpoint insert (x : nat) (l : list nat) : list nat :=
  match l with [] => [x] | y :: r => if Nat.leb x y then x :: l else y :: insert x r end.
Definition isort (l : list nat) : list nat := fold_right insert [] l.       (* tf.sort *)
Definition valid_perm (n : nat) (perm : list nat) : bool := valid_sample n n perm.
Definition int32_ok (z : Z) : bool := (-2147483648 <=? z)%Z && (z <? 2147483648)%Z.
(* number of frames to drop: tf.cast(tf.cast(n, float32) * p, int32)  (truncation; out of range is undefined) *)
Definition tf_drop_count (n : nat) (p : spec_float) : result Z :=
  match sf_trunc (sf32_mul (sf32_of_Z (Z.of_nat n)) p) with
  | Some d => if int32_ok d then Ok d else Err Overflow
  | None => Err Value
  end.
(* repaired code (proposed-fixes/F10-tf-dropout.diff):
     number_drop   = cast_int32(squeeze(cast_float32(n) * p))
     number_sample = maximum(1, n - number_drop)
     select        = sort(shuffle(range(n))[:number_sample])                                        *)
Definition tf_keep_count (n : nat) (d : Z) : Z := Z.max 1 (Z.of_nat n - d).
Definition tf_dropout_given {A} (b : body A) (p : spec_float) (perm : list nat) : result (body A * list nat) :=
  let n := frames b in
  do d <- tf_drop_count n p;
  let kept := isort (firstn (Z.to_nat (tf_keep_count n d)) perm) in
  do r <- (match kept with
           | [] => Ok (mkB (fps b) [] [] [])          (* an int32 index tensor of shape [0] gathers nothing *)
           | _ => select_frames TF b (map Z.of_nat kept)
           end);
  Ok (r, kept).
(* a Python float fraction is converted to float32 by the multiplication *)
Definition tf_dropout_given_py {A} (b : body A) (p64 : spec_float) (perm : list nat) :=
  tf_dropout_given b (round32 p64) perm.
(* tensorflow/pose_body.py:96-117: the fraction is one float32 draw of tf.random.uniform *)
Definition tf_dropout_uniform {A} (b : body A) (u : spec_float) (perm : list nat) := tf_dropout_given b u perm.
(* tensorflow/pose_body.py:119-143: one float32 draw of tf.random.normal, negative values clipped to zero *)
Definition sf_max0 (g : spec_float) : spec_float :=
  match SFcompare g (S754_zero false) with Some Lt => S754_zero false | _ => g end.
Definition tf_dropout_normal {A} (b : body A) (g : spec_float) (perm : list nat) := tf_dropout_given b (sf_max0 g) perm.

Definition tf_fraction (d : draw) : spec_float := match d with Given p => p | Uniform u => u | Normal g => sf_max0 g end.
Definition tf_dropout {A} (b : body A) (d : draw) (perm : list nat) :=
  match d with
  | Given p => tf_dropout_given b p perm
  | Uniform u => tf_dropout_uniform b u perm
  | Normal g => tf_dropout_normal b g perm
  end.

(* ---- the TensorFlow code as pinned (before the repair), kept to state what was wrong (F10) ----
     number_sample = int32(maximum(1.0, round(float32(n) * p)));  idxs = range(n - 1)
     select = sort(shuffle(idxs)[:number_sample])                                       *)
(* tf.round: half to even *)
Definition sf_round_even (x : spec_float) : option Z :=
  match x with
  | S754_zero _ => Some 0%Z
  | S754_finite s m e =>
      let v := match e with
               | Z0 => Zpos m
               | Zpos p => (Zpos m * Z.pow_pos 2 p)%Z
               | Zneg p =>
                   let d := Z.pow_pos 2 p in
                   let q := (Zpos m / d)%Z in let r := (Zpos m mod d)%Z in
                   if (2 * r <? d)%Z then q else if (d <? 2 * r)%Z then (q + 1)%Z
                   else if Z.even q then q else (q + 1)%Z
               end in
      Some (if s then (- v)%Z else v)
  | _ => None
  end.
Definition tf_pinned_keep_count (n : nat) (p : spec_float) : result Z :=
  match sf_round_even (sf32_mul (sf32_of_Z (Z.of_nat n)) p) with
  | Some r => if int32_ok r then Ok (Z.max 1 r) else Err Overflow
  | None => Err Value
  end.
(* [perm1] is a permutation of range(n - 1) *)
Definition tf_pinned_dropout_given {A} (b : body A) (p : spec_float) (perm1 : list nat) : result (body A * list nat) :=
  let n := frames b in
  do k <- tf_pinned_keep_count n p;
  let kept := isort (firstn (Z.to_nat k) perm1) in
  do r <- (match kept with
           | [] => Ok (mkB (fps b) [] [] [])
           | _ => select_frames TF b (map Z.of_nat kept)
           end);
  Ok (r, kept).

(* ---- pose level (pose.py:192-228, 320-384): the header object is passed on unchanged ---- *)
Record pose (H A : Type) := mkP { header : H; pbody : body A }.
Arguments mkP {H A}. Arguments header {H A}. Arguments pbody {H A}.
Definition with_header {H A} (ps : pose H A) (r : result (body A * list nat)) : result (pose H A * list nat) :=
  do x <- r; Ok (mkP (header ps) (fst x), snd x).
Definition pose_dropout_uniform {H A} c be (ps : pose H A) u sample := with_header ps (dropout_uniform c be (pbody ps) u sample).
Definition pose_dropout_normal {H A} c be (ps : pose H A) g sample := with_header ps (dropout_normal c be (pbody ps) g sample).
Definition pose_tf_dropout_uniform {H A} (ps : pose H A) u perm := with_header ps (tf_dropout_uniform (pbody ps) u perm).
Definition pose_tf_dropout_normal {H A} (ps : pose H A) g perm := with_header ps (tf_dropout_normal (pbody ps) g perm).
(* Pose.__getattr__ (pose.py:347-384): [listed] = the name is in pass_through_methods, [header_has] = the header
   class has an attribute of that name (then the header method's result would replace the header - not modelled) *)
Definition pose_slice_step {H A} (listed header_has : bool) (be : backend) (ps : pose H A) (by' : Z) : result (pose H A) :=
  if negb listed then Err Key
  else do b <- slice_step be (pbody ps) by';
       if header_has then Err NotImplemented else Ok (mkP (header ps) b).
