(* The stream reader (BytesIOReader) simulates the plain reader (BufferReader) on the same bytes:
   invariant of the buffer / offsets, forward simulation for programs without bytes_left()/advance(),
   and the consumption bound (bytes pulled from the stream). *)
From Coq Require Import ZArith NArith List Lia ZifyBool ZifyN ZifyNat Bool.
Require Import ListN Result Bytes Prog ProgLemmas.
Import ListNotations.
Open Scope N_scope.

Lemma run_stream_bind {A B} file (p : prog A) (f : A -> prog B) : forall r,
  run_stream file (pbind p f) r =
  match run_stream file p r with Ok (a, r') => run_stream file (f a) r' | Err e => Err e end.
Proof.
  induction p as [a|n k IH|n k IH|n k IH|k IH|e]; intros r; cbn [pbind run_stream]; try reflexivity.
  - destruct (expect file n r) as [r1|e]; [|reflexivity].
    destruct (off r1 - skipped r1 + n <=? lenN (buf r1)); [apply IH|reflexivity].
  - apply IH.
  - apply IH.
  - apply IH.
Qed.

(* invariant: from some index [j] at or before the read position on, the buffer is file[j+skipped ..); what the
   buffer holds before [j] is not constrained, the decoder never returns there *)
Definition Inv (file : bytes) (r : sreader) : Prop :=
  skipped r <= off r /\
  exists j, j <= off r - skipped r /\ off r - skipped r <= lenN (buf r) /\
    dropN j (buf r) = takeN (lenN (buf r) - j) (dropN (j + skipped r) file).

(* comparing lengths in the buffer equation: the retained buffer ends at [j] or inside the file *)
Lemma inv_open file r : Inv file r ->
  skipped r <= off r /\
  exists j, j <= off r - skipped r /\ off r - skipped r <= lenN (buf r) /\
    dropN j (buf r) = takeN (lenN (buf r) - j) (dropN (j + skipped r) file) /\
    (lenN (buf r) = j \/ skipped r + lenN (buf r) <= lenN file).
Proof.
  intros [Hso [j [Hj [Hi Heq]]]]. split; [exact Hso|]. exists j. split; [exact Hj|]. split; [exact Hi|]. split; [exact Heq|].
  apply (f_equal lenN) in Heq. rewrite lenN_dropN, lenN_takeN, lenN_dropN in Heq. lia.
Qed.

Definition chunk (file : bytes) (k : N) (r : sreader) : bytes := takeN k (dropN (skipped r + lenN (buf r)) file).
Lemma read_chunk_ok file k r r1 : read_chunk file k r = Ok r1 ->
  buf r1 = buf r ++ chunk file k r /\ off r1 = off r /\ skipped r1 = skipped r /\
  pulled r1 = pulled r + lenN (chunk file k r).
Proof. unfold read_chunk, chunk. destruct (buf r ++ _) eqn:E; [discriminate|]. intros [= <-]. cbn [buf off skipped pulled].
  rewrite <- E. auto. Qed.

Lemma expect_off q n r r1 : expect q n r = Ok r1 -> off r1 = off r /\ skipped r1 = skipped r.
Proof.
  unfold expect. destruct (bytes_left r <? Z.of_N n)%Z.
  - intros H. apply read_chunk_ok in H. tauto.
  - intros [= <-]. auto.
Qed.

Lemma inv_read_chunk file k r r1 : Inv file r -> read_chunk file k r = Ok r1 -> Inv file r1.
Proof.
  intros [Hso [j [Hj [Hi Heq]]]] Hrc. destruct (read_chunk_ok _ _ _ _ Hrc) as [Hb [Ho [Hs _]]]. unfold chunk in Hb.
  assert (E : dropN j (buf r1) = takeN (lenN (buf r) - j + k) (dropN (j + skipped r) file)).
  { rewrite Hb, dropN_app_le, Heq by lia.
    replace (skipped r + lenN (buf r)) with (lenN (buf r) - j + (j + skipped r)) by lia.
    rewrite <- (dropN_dropN (lenN (buf r) - j)). apply takeN_app_takeN. }
  unfold Inv. rewrite Ho, Hs. split; [exact Hso|]. exists j. split; [exact Hj|]. split; [rewrite Hb, lenN_app; lia|].
  (* the new tail is a prefix of the file's tail, so it is that prefix of its own length *)
  rewrite <- lenN_dropN, E. apply pre_takeN.
Qed.

Lemma inv_skip file r n : Inv file r -> Inv file (sskip n r).
Proof.
  intros [Hso [j [Hj [Hi _]]]]. unfold sskip, Inv; cbn [buf off skipped]. split; [lia|].
  exists (off r - skipped r). rewrite lenN_takeN.
  split; [lia|]. split; [lia|].
  rewrite dropN_all by (rewrite lenN_takeN; lia).
  replace (N.min (off r - skipped r) (lenN (buf r)) - (off r - skipped r)) with 0 by lia.
  now rewrite takeN_0.
Qed.

Lemma inv_take q r n : Inv q r -> off r - skipped r + n <= lenN (buf r) ->
  (n = 0 \/ off r + n <= lenN q) /\
  Inv q {| buf := buf r; off := off r + n; skipped := skipped r; pulled := pulled r |} /\
  forall s, takeN n (dropN (off r - skipped r) (buf r)) = takeN n (dropN (off r) (q ++ s)).
Proof.
  intros H Hfit. destruct (inv_open _ _ H) as [Hso [j [Hj [Hi [Heq Hl]]]]].
  split; [lia|]. split.
  - unfold Inv; cbn [buf off skipped]. split; [lia|]. exists j. split; [lia|]. split; [lia|exact Heq].
  - intros s. destruct (N.eq_dec n 0) as [->|Hn]; [now rewrite !takeN_0|].
    replace (dropN (off r - skipped r) (buf r)) with (dropN (off r - skipped r - j) (dropN j (buf r)))
      by (rewrite dropN_dropN; f_equal; lia).
    rewrite Heq, dropN_takeN, dropN_dropN.
    replace (off r - skipped r - j + (j + skipped r)) with (off r) by lia.
    rewrite takeN_takeN_le, dropN_app_le by lia. symmetry. apply takeN_app_le. rewrite lenN_dropN. lia.
Qed.

(* expect_to_read(n), then the slice.  An empty block is always served - also beyond the end of the stream, where
   the plain reader refuses it. *)
Lemma inv_block q r n : Inv q r ->
  match expect q n r with
  | Ok r1 =>
      off r1 = off r /\ skipped r1 = skipped r /\ pulled r <= pulled r1 /\ pulled r1 <= pulled r + n /\
      if off r1 - skipped r1 + n <=? lenN (buf r1)
      then (n = 0 \/ off r + n <= lenN q) /\
           Inv q {| buf := buf r1; off := off r1 + n; skipped := skipped r1; pulled := pulled r1 |} /\
           forall s, takeN n (dropN (off r1 - skipped r1) (buf r1)) = takeN n (dropN (off r) (q ++ s))
      else ~ (n = 0 \/ off r + n <= lenN q)
  | Err _ => ~ (n = 0 \/ off r + n <= lenN q)
  end.
Proof.
  intros HI. destruct (inv_open _ _ HI) as [Hso [j [Hj [Hi [_ Hl]]]]]. unfold expect, bytes_left.
  destruct (Z.ltb_spec (Z.of_N (lenN (buf r)) - Z.of_N (off r) + Z.of_N (skipped r)) (Z.of_N n)) as [Hlt|Hge].
  - remember (Z.to_N (Z.of_N n - (Z.of_N (lenN (buf r)) - Z.of_N (off r) + Z.of_N (skipped r)))) as k eqn:Hk.
    assert (Hc : lenN (chunk q k r) = N.min k (lenN q - (skipped r + lenN (buf r))))
      by (unfold chunk; now rewrite lenN_takeN, lenN_dropN).
    destruct (read_chunk q k r) as [r1|e] eqn:Hrc.
    + pose proof (inv_read_chunk _ _ _ _ HI Hrc) as HI1.
      destruct (read_chunk_ok _ _ _ _ Hrc) as [Hb [Ho [Hs Hp]]].
      split; [exact Ho|]. split; [exact Hs|]. split; [lia|]. split; [lia|].
      destruct (N.leb_spec (off r1 - skipped r1 + n) (lenN (buf r1))) as [Hfit|Hfit].
      * rewrite <- Ho. apply inv_take; assumption.
      * rewrite Hb, lenN_app, Hc in Hfit. lia.
    + (* EOFError: the buffer was empty and the stream has nothing at the position *)
      unfold read_chunk in Hrc. fold (chunk q k r) in Hrc.
      destruct (buf r ++ chunk q k r) eqn:E; [|discriminate].
      apply (f_equal lenN) in E. rewrite lenN_app, Hc in E. change (lenN []) with 0 in E. lia.
  - split; [reflexivity|]. split; [reflexivity|]. split; [lia|]. split; [lia|].
    destruct (N.leb_spec (off r - skipped r + n) (lenN (buf r))) as [Hfit|]; [|lia].
    apply inv_take; assumption.
Qed.

(* programs of the v0.2 reader: no bytes_left(), no advance() *)
Fixpoint v2prog {A} (p : prog A) : Prop :=
  match p with
  | Block _ k => forall b, v2prog (k b)
  | Skip _ k => v2prog k
  | Adv _ _ | BytesLeft _ => False
  | _ => True
  end.
Lemma v2prog_bind {A B} (p : prog A) (f : A -> prog B) : v2prog p -> (forall a, v2prog (f a)) -> v2prog (pbind p f).
Proof. induction p as [a|n k IH|n k IH|n k IH|k IH|e]; cbn [pbind v2prog]; intros Hp Hf; auto; contradiction. Qed.
Lemma noSkip_v2prog {A} (p : prog A) : noSkip p -> v2prog p.
Proof. induction p as [a|n k IH|n k IH|n k IH|k IH|e]; cbn [noSkip v2prog]; intros H; auto; contradiction. Qed.
Lemma v2prog_plift {A} (r : result A) : v2prog (plift r).
Proof. destruct r; exact I. Qed.

(* the stream holds [q]; the plain reader holds [q ++ s] (s = [] : the same bytes; s <> [] : the stream is a
   truncation of the plain reader's file) *)
Definition Sim (q s : bytes) (p : preader) (r : sreader) : Prop :=
  pbuf p = q ++ s /\ poff p = off r /\ Inv q r.
(* consumed r = bytes handed to the decoder so far *)
Definition consumed (r : sreader) : N := off r - skipped r.

Theorem sim_fwd {A} q s (p : prog A) : v2prog p -> forall pr sr a pr',
  Sim q s pr sr -> run_plain p pr = Ok (a, pr') ->
  match run_stream q p sr with
  | Ok (b, sr') => a = b /\ Sim q s pr' sr' /\
                   pulled sr' + consumed sr <= pulled sr + consumed sr' /\ pulled sr <= pulled sr'
  | Err _ => s <> []
  end.
Proof.
  induction p as [a|n k IH|n k IH|n k IH|k IH|e]; intros Hv pr sr a' pr' [Hb [Ho HI]] Hrun;
    cbn [run_plain run_stream v2prog] in *; try contradiction; try discriminate.
  - injection Hrun as <- <-. split; [reflexivity|]. split; [exact (conj Hb (conj Ho HI))|]. lia.
  - destruct (N.leb_spec (poff pr + n) (lenN (pbuf pr))) as [Hfit|]; [|discriminate].
    rewrite Hb, Ho in Hrun, Hfit.
    (* the stream's bytes end before the block: only possible when it is a truncation *)
    assert (Hshort : ~ (n = 0 \/ off sr + n <= lenN q) -> s <> []) by (intros Hno ->; rewrite app_nil_r in Hfit; lia).
    pose proof (inv_block q sr n HI) as Hex.
    destruct (expect q n sr) as [r1|e]; [|exact (Hshort Hex)].
    destruct Hex as [Ho1 [Hs1 [Hp1 [Hp2 Hex]]]].
    destruct (off r1 - skipped r1 + n <=? lenN (buf r1)); [|exact (Hshort Hex)].
    destruct Hex as [_ [HI2 Hdat]]. rewrite (Hdat s).
    assert (HS : Sim q s {| pbuf := q ++ s; poff := off sr + n |}
                     {| buf := buf r1; off := off r1 + n; skipped := skipped r1; pulled := pulled r1 |})
      by (split; [reflexivity|split; [cbn [poff off]; lia|exact HI2]]).
    specialize (IH _ (Hv _) _ _ a' pr' HS Hrun).
    destruct (run_stream q (k _) _) as [[b sr']|e]; [|exact IH].
    destruct IH as [E [HS' [Hc1 Hc2]]]. split; [exact E|]. split; [exact HS'|].
    unfold consumed in *. cbn [off skipped pulled] in *. destruct HI as [Hso _]. lia.
  - specialize (IH Hv {| pbuf := pbuf pr; poff := poff pr + n |} (sskip n sr) a' pr').
    assert (HS : Sim q s {| pbuf := pbuf pr; poff := poff pr + n |} (sskip n sr)).
    { unfold Sim; cbn [pbuf poff]. split; [exact Hb|]. split; [cbn [sskip off]; lia|]. apply inv_skip; exact HI. }
    specialize (IH HS Hrun).
    destruct (run_stream q k (sskip n sr)) as [[b sr']|e]; [|exact IH].
    destruct IH as [E [HS' [Hc1 Hc2]]]. split; [exact E|]. split; [exact HS'|].
    unfold consumed in *. cbn [sskip off skipped pulled] in *. destruct HI as [Hso _]. lia.
Qed.
