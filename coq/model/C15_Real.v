(* C15 - the real-number instance used by the theorems (definitions only; never extracted). *)
From Coq Require Import Reals ZArith List.
Require Import Result Num C15_Spatial.
Import ListNotations.

(* math.ceil on reals: the integer z with z - 1 < x <= z *)
Definition R_ceil (x : R) : option Z := Some (1 - up (- x))%Z.

Notation rpoint := (point R_ops).
Notation rframes := (frames R_ops).

(* ---- vocabulary of the statements ---- *)
(* a relation between points lifted to bodies (same frames / people / points structure) *)
Definition rel3 {A B} (Rp : A -> B -> Prop) (b : list (list (list A))) (b' : list (list (list B))) : Prop :=
  Forall2 (Forall2 (Forall2 Rp)) b b'.
Definition all3 {A} (P : A -> Prop) (b : list (list (list A))) : Prop := Forall (Forall (Forall P)) b.

Definition masks (p : rpoint) : list bool := map snd (pcs p).
Definition coords (p : rpoint) : list R := map fst (pcs p).
(* a point is missing when all its coordinates are masked *)
Definition missing (p : rpoint) : bool := allmasked R_ops p.
(* the k-th coordinate of p is observed and equals x *)
Definition observes (p : rpoint) (k : nat) (x : R) : Prop := nth_error (pcs p) k = Some (x, false).

(* bodies as the library builds them (from arrays or files): D coordinates per point, one mask bit per point,
   confidence 0 => missing.  All five operations preserve this (the lemmas flip_point_wf, mzip_wf, matmul_point_wf, box_point_wf in proofs/). *)
Definition wf_point (D : nat) (p : rpoint) : Prop :=
  length (pcs p) = D /\ masks p = repeat (missing p) D /\ (pc p = 0%R -> missing p = true).
Definition wf_body (D : nat) (b : rframes) : Prop := all3 (wf_point D) b.

(* same confidence and the same missing pattern *)
Definition same_conf_mask (p p' : rpoint) : Prop := pc p' = pc p /\ masks p' = masks p.
(* ... and every observed coordinate unchanged *)
Definition same_observed (p p' : rpoint) : Prop :=
  same_conf_mask p p' /\ forall k x, observes p k x -> observes p' k x.

Definition is_min (m : R) (l : list R) : Prop := In m l /\ forall x, In x l -> (m <= x)%R.
Definition is_max (m : R) (l : list R) : Prop := In m l /\ forall x, In x l -> (x <= m)%R.
Definition is_ceil (z : Z) (x : R) : Prop := (IZR z - 1 < x <= IZR z)%R.
(* [lo, hi] is the smallest interval containing every element of l *)
Definition smallest_interval (lo hi : R) (l : list R) : Prop :=
  (forall x, In x l -> lo <= x <= hi)%R /\
  (forall lo' hi', (forall x, In x l -> lo' <= x <= hi')%R -> (lo' <= lo /\ hi <= hi')%R).

(* linear combination of two bodies of the same structure, coordinate by coordinate (masks and confidences of the first) *)
Definition lin_point (a : R) (p : rpoint) (b : R) (q : rpoint) : rpoint :=
  @mkP R_ops (zipw (fun c c' : R * bool => ((a * fst c + b * fst c')%R, snd c)) (pcs p) (pcs q)) (pc p).
Definition zip3 {A B C} (f : A -> B -> C) (X : list (list (list A))) (Y : list (list (list B))) : list (list (list C)) :=
  zipw (zipw (zipw f)) X Y.
Definition lin (a : R) (X : rframes) (b : R) (Y : rframes) : rframes := zip3 (fun p q => lin_point a p b q) X Y.

(* augmentation: the first two coordinates go through the 2x2 matrix (a00 a01; a10 a11) as a row vector *)
Definition aug_coords (a00 a01 a10 a11 : R) (l : list R) : list R :=
  match l with x0 :: x1 :: rest => (x0 * a00 + x1 * a10)%R :: (x0 * a01 + x1 * a11)%R :: rest | _ => l end.
(* header dimensions (width, height, depth) by axis *)
Definition dim_of (dims : Z * Z * Z) (d : nat) : Z :=
  match d with 0%nat => fst (fst dims) | 1%nat => snd (fst dims) | _ => snd dims end.
(* a component (list of points) without any observed point *)
Definition all_missing (cpts : list rpoint) : bool := forallb missing cpts.
