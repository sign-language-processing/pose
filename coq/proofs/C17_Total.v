(* C17 - totality of the masked (PyTorch, NumPy) representations over X_ops (IEEE special values
   over exact reals, model/C17_XReal.v): exactly 0 wherever an input point is missing - whatever
   NaN / infinity / finite garbage lies under the mask - and never NaN or infinite, including the
   degenerate configurations (coincident points, vertical limbs, collinear triples).
   The Torch models fill by [zero_filled] (`torch.where`, the code of /repo); filling by `tensor.mul(mask)`
   ([zero_filled_mul], the variant proposed-fixes/F9-zero-filled.diff removes) fails both clauses: end of the file. *)
From Coq Require Import Reals List Lra Bool.
Require Import Num C17_Repr C17_Spec C17_XReal C17_Vec C17_Real.
Import ListNotations.
Local Open Scope R_scope.

Local Notation XO := X_ops.
Local Notation xm := (mv X_ops).
Local Notation rsqrt := R_sqrt.sqrt.

Section WithTranscendentals.
Variables atan acos : R -> R.
Local Notation x_atan := (C17_XReal.x_atan atan).
Local Notation x_acos := (C17_XReal.x_acos acos).

(* a tensor is admissible when every VALID coordinate is finite; anything may sit under the mask *)
Definition valid_fin (p : list xm) : Prop := Forall (fun c => snd c = true -> is_fin (fst c)) p.
Definition all_valid (p : list xm) : bool := forallb snd p.
Definition fins (v : list R) : list xm := map (fun r => (Fin r, true)) v.

Lemma is_fin_Fin r : is_fin (Fin r). Proof. exists r. reflexivity. Qed.

Lemma xdiv_fin x y : y <> 0 -> xdiv (Fin x) (Fin y) = Fin (x / y).
Proof. intros H. cbn [xdiv]. destruct (Req_EM_T y 0); [contradiction|reflexivity]. Qed.
Lemma xdiv_by_0 x y : y = 0 -> xdiv (Fin x) (Fin y) = if Req_EM_T x 0 then NaN else if Rlt_dec 0 x then PInf else NInf.
Proof. intros ->. cbn [xdiv]. destruct (Req_EM_T 0 0) as [_|N]; [reflexivity|contradiction N; reflexivity]. Qed.
Lemma xdiv_0_0 x y : x = 0 -> y = 0 -> xdiv (Fin x) (Fin y) = NaN.
Proof. intros -> E. rewrite xdiv_by_0 by exact E. destruct (Req_EM_T 0 0) as [_|N]; [reflexivity|contradiction N; reflexivity]. Qed.
Lemma all_valid_fins p : valid_fin p -> all_valid p = true -> exists v, p = fins v /\ length v = length p.
Proof.
  induction p as [|[x m] p IH]; intros Hv Ha; [exists []; split; reflexivity|].
  inversion Hv as [|c q Hc Hq]; subst. cbn [all_valid forallb snd] in Ha. apply andb_true_iff in Ha. destruct Ha as [Hm Hr].
  cbn [snd] in Hm. subst m. destruct (Hc eq_refl) as [r Hr']. cbn [fst] in Hr'. subst x.
  destruct (IH Hq Hr) as [v [-> Hl]]. exists (r :: v). split; [reflexivity|]. cbn [length]. rewrite Hl. reflexivity.
Qed.
Lemma fins_length v : length (fins v) = length v. Proof. apply map_length. Qed.

Section Masks.
Variable O : ops.
Lemma marith_mask (f : T O -> T O -> T O) : forall p1 p2 : list (mv O), length p1 = length p2 ->
  forallb snd (map2 (m_arith O f) p1 p2) = forallb snd p1 && forallb snd p2.
Proof.
  apply list_ind2; [reflexivity|]. intros [x mx] [y my] a b _ IH. rewrite map2_cons. cbn [forallb m_arith snd fst]. rewrite IH.
  destruct mx, my, (forallb snd a), (forallb snd b); reflexivity.
Qed.
Lemma mun_mask (f : T O -> T O) (p : list (mv O)) : forallb snd (map (m_un O f) p) = forallb snd p.
Proof. induction p as [|c p IH]; [reflexivity|]. cbn [map forallb m_un snd]. rewrite IH. reflexivity. Qed.
Lemma mun_snd (f : T O -> T O) (a : mv O) : snd (m_un O f a) = snd a. Proof. reflexivity. Qed.
Lemma msum_snd (l : list (mv O)) : snd (m_sum O l) = forallb snd l. Proof. reflexivity. Qed.
Lemma dist_m_mask p1 p2 : length p1 = length p2 ->
  snd (torch_dist_m O p1 p2) = forallb snd p1 && forallb snd p2.
Proof. intros H. unfold torch_dist_m. rewrite mun_snd, msum_snd, mun_mask, marith_mask by exact H. reflexivity. Qed.
Lemma mdiv_stack_mask (v : list (mv O)) (mag : mv O) : snd mag = forallb snd v ->
  forallb snd (map (fun c => m_div O c mag) v) = forallb snd v.
Proof.
  intros Hmag. destruct (snd mag) eqn:E.
  - clear Hmag. induction v as [|c v IH]; [reflexivity|]. cbn [map forallb]. unfold m_div at 1, m_arith at 1. cbn [snd].
    rewrite E, andb_true_r, IH. reflexivity.
  - destruct v as [|c v]; [cbn in Hmag; discriminate|]. rewrite <- Hmag. cbn [map forallb]. unfold m_div at 1, m_arith at 1.
    cbn [snd]. rewrite E, andb_false_r. reflexivity.
Qed.
Lemma vnorm_mask (v : list (mv O)) : forallb snd (torch_vnorm O v) = forallb snd v.
Proof. unfold torch_vnorm. apply mdiv_stack_mask. rewrite mun_snd, msum_snd, mun_mask. reflexivity. Qed.
(* a coordinate is masked in the squared differences as soon as it is masked in one of the points *)
Lemma sq_diff_all_masked : forall p1 p2 : list (mv O), length p1 = length p2 ->
  forallb (fun c => negb (snd c)) p1 = true \/ forallb (fun c => negb (snd c)) p2 = true ->
  forallb (fun c : mv O => negb (snd c)) (map (m_un O (sq O)) (map2 (m_arith O (sub O)) p1 p2)) = true.
Proof.
  apply (list_ind2 (fun p1 p2 => _ \/ _ -> _ = true)); [reflexivity|].
  intros [x mx] [y my] a b _ IH H. rewrite map2_cons. cbn [map forallb m_un m_arith snd fst] in *.
  destruct H as [H|H]; apply andb_true_iff in H; destruct H as [H1 H2]; rewrite IH by (try (left; exact H2); right; exact H2).
  - destruct mx; [discriminate|]. reflexivity.
  - destruct my; [discriminate|]. rewrite andb_false_r. reflexivity.
Qed.
End Masks.

Lemma masked_zero_distance p1 p2 : length p1 = length p2 -> all_valid p1 && all_valid p2 = false ->
  torch_distance XO p1 p2 = Fin 0.
Proof. intros Hl Hm. unfold torch_distance, zero_filled. rewrite dist_m_mask by exact Hl. unfold all_valid in Hm. rewrite Hm. reflexivity. Qed.
Lemma x_atan_0 : atan 0 = 0 -> x_atan (Fin 0) = Fin 0.
Proof. intros atan_0. cbn [C17_XReal.x_atan]. rewrite atan_0. reflexivity. Qed.
(* the angle only looks at the X and Y coordinates *)
Lemma masked_zero_angle x1 y1 r1 x2 y2 r2 : atan 0 = 0 -> snd x1 && snd y1 && snd x2 && snd y2 = false ->
  torch_angle XO x_atan (x1 :: y1 :: r1) (x2 :: y2 :: r2) = Fin 0.
Proof.
  intros atan_0 Hm. unfold torch_angle, torch_angle_with. rewrite !map2_cons.
  unfold m_div, m_arith, fix_nan, zero_filled. cbn [fst snd].
  assert (E : snd y2 && snd y1 && (snd x2 && snd x1) = false) by (destruct (snd x1), (snd y1), (snd x2), (snd y2); try discriminate; reflexivity).
  rewrite E. apply x_atan_0. exact atan_0.
Qed.
Lemma xeqb_fin0 : eqb XO (Fin 0) (Fin 0) = true.
Proof. cbn [eqb XO xeqb]. unfold Reqb. destruct (Req_EM_T 0 0) as [_|N]; [reflexivity|exfalso; apply N; reflexivity]. Qed.
Lemma inner_slopes_mask p1 p2 p3 : length p1 = length p2 -> length p3 = length p2 ->
  snd (torch_inner_slopes XO p1 p2 p3) = all_valid p1 && all_valid p2 && all_valid p3.
Proof.
  intros L1 L3. unfold torch_inner_slopes, m_sum. cbn [snd].
  pose proof (vnorm_mask XO) as Hv.
  assert (Ll : forall a b : list xm, length a = length b -> length (torch_vnorm XO (map2 (m_arith XO (sub XO)) a b)) = length a).
  { intros a b H. unfold torch_vnorm. rewrite map_length. apply map2_length, H. }
  rewrite marith_mask by (rewrite !Ll by congruence; congruence).
  rewrite !Hv, !marith_mask by congruence. unfold all_valid.
  destruct (forallb snd p1), (forallb snd p2), (forallb snd p3); reflexivity.
Qed.
Lemma masked_zero_inner_angle p1 p2 p3 : length p1 = length p2 -> length p3 = length p2 ->
  all_valid p1 && all_valid p2 && all_valid p3 = false -> torch_inner_angle XO x_acos p1 p2 p3 = Fin 0.
Proof.
  intros L1 L3 Hm. unfold torch_inner_angle, m_un, zero_filled. cbn [snd fst]. rewrite inner_slopes_mask by assumption.
  rewrite Hm. unfold nan_to_zero. destruct (eqb XO (zero XO) (zero XO)); reflexivity.
Qed.
Lemma pld_mask p1 p2 p3 : length p1 = length p2 -> length p2 = length p3 ->
  snd (torch_pld_m XO p1 p2 p3) = all_valid p1 && all_valid p2 && all_valid p3.
Proof.
  intros L1 L2. unfold torch_pld_m. cbn zeta. unfold m_scalar, m_arith, m_un. cbn [snd]. rewrite !dist_m_mask by congruence. unfold all_valid.
  destruct (forallb snd p1), (forallb snd p2), (forallb snd p3); reflexivity.
Qed.
Lemma masked_zero_pld p1 p2 p3 : length p1 = length p2 -> length p2 = length p3 ->
  all_valid p1 && all_valid p2 && all_valid p3 = false -> torch_pld XO p1 p2 p3 = Fin 0.
Proof.
  intros L1 L2 Hm. unfold torch_pld, zero_filled, fix_nan. cbn [snd]. rewrite pld_mask by assumption. rewrite Hm. reflexivity.
Qed.
Lemma masked_zero_numpy p1 p2 : length p1 = length p2 ->
  forallb (fun c : xm => negb (snd c)) p1 = true \/ forallb (fun c : xm => negb (snd c)) p2 = true ->
  np_distance XO p1 p2 = Fin 0.
Proof.
  intros Hl Hm. unfold np_distance. rewrite (sq_diff_all_masked XO p1 p2 Hl Hm). reflexivity.
Qed.

Lemma xsum_fins (v : list R) : sum XO (map fst (fins v)) = Fin (fold_right Rplus 0 v).
Proof. induction v as [|x v IH]; [reflexivity|]. unfold sum, fins in *. cbn [map fst fold_right]. rewrite IH. reflexivity. Qed.
Lemma fins_all_valid v : forallb snd (fins v) = true.
Proof. induction v as [|x v IH]; [reflexivity|exact IH]. Qed.
Lemma msub_fins : forall a b : list R, map2 (m_arith XO (sub XO)) (fins a) (fins b) = fins (vsub a b).
Proof. induction a as [|x a IH]; intros [|y b]; try reflexivity. unfold fins, vsub in *. cbn [map]. rewrite !map2_cons. cbn [map]. rewrite IH. reflexivity. Qed.
Lemma msq_fins (v : list R) : map (m_un XO (sq XO)) (fins v) = fins (map (fun x => x * x) v).
Proof. unfold fins. rewrite !map_map. reflexivity. Qed.
Lemma sumsq_eq_dot (v : list R) : fold_right Rplus 0 (map (fun x => x * x) v) = dot v v.
Proof. induction v as [|x v IH]; [reflexivity|]. cbn [map fold_right]. rewrite IH, dot_cons. reflexivity. Qed.
Lemma xsqrt_nonneg r : 0 <= r -> xsqrt (Fin r) = Fin (rsqrt r).
Proof. intros H. cbn [xsqrt]. destruct (Rle_dec 0 r) as [_|N]; [reflexivity|contradiction]. Qed.
Lemma dist_m_fins a b : torch_dist_m XO (fins a) (fins b) = (Fin (euclid a b), true).
Proof.
  unfold torch_dist_m, m_un, m_sum. cbn [fst snd]. rewrite msub_fins, msq_fins, xsum_fins, fins_all_valid, sumsq_eq_dot.
  cbn [sqrt XO]. rewrite xsqrt_nonneg by apply dot_self_nonneg. reflexivity.
Qed.

Lemma never_nan_distance p1 p2 : length p1 = length p2 -> valid_fin p1 -> valid_fin p2 -> is_fin (torch_distance XO p1 p2).
Proof.
  intros Hl V1 V2. unfold torch_distance, zero_filled. rewrite dist_m_mask by exact Hl.
  destruct (forallb snd p1) eqn:E1; [|apply is_fin_Fin]. destruct (forallb snd p2) eqn:E2; [|apply is_fin_Fin]. cbn [andb].
  destruct (all_valid_fins p1 V1 E1) as [a [-> _]]. destruct (all_valid_fins p2 V2 E2) as [b [-> _]].
  rewrite dist_m_fins. apply is_fin_Fin.
Qed.

Lemma x_atan_total (a : xv) : a <> NaN -> is_fin (x_atan a).
Proof. destruct a; intros H; try (eexists; reflexivity). contradiction. Qed.
Lemma nan_to_zero_not_nan (a : xv) : nan_to_zero XO a <> NaN.
Proof.
  unfold nan_to_zero. destruct a; cbn [eqb XO xeqb zero]; try discriminate.
  destruct (Reqb r r); discriminate.
Qed.
Lemma never_nan_angle p1 p2 : is_fin (torch_angle XO x_atan p1 p2).
Proof.
  unfold torch_angle, torch_angle_with. destruct (map2 (m_arith XO (sub XO)) p2 p1) as [|xs [|ys r]]; try apply is_fin_Fin.
  apply x_atan_total. unfold zero_filled, fix_nan. cbn [fst snd].
  destruct (snd (m_div XO ys xs)); [apply nan_to_zero_not_nan|discriminate].
Qed.

Lemma x_acos_fin_or_nan (a : xv) : is_fin (x_acos a) \/ x_acos a = NaN.
Proof.
  destruct a; cbn [C17_XReal.x_acos]; try (right; reflexivity).
  destruct (Rle_dec (-1) r); [|right; reflexivity]. destruct (Rle_dec r 1); [left; apply is_fin_Fin|right; reflexivity].
Qed.
Lemma never_nan_inner_angle p1 p2 p3 : is_fin (torch_inner_angle XO x_acos p1 p2 p3).
Proof.
  unfold torch_inner_angle, m_un, zero_filled. cbn [fst snd].
  destruct (snd (torch_inner_slopes XO p1 p2 p3)).
  - destruct (x_acos_fin_or_nan (fst (torch_inner_slopes XO p1 p2 p3))) as [[r ->] | ->].
    + unfold nan_to_zero. cbn [eqb XO xeqb]. destruct (Reqb r r); apply is_fin_Fin.
    + apply is_fin_Fin.
  - unfold nan_to_zero. destruct (eqb XO (zero XO) (zero XO)); apply is_fin_Fin.
Qed.

Lemma never_nan_pld p1 p2 p3 : length p1 = length p2 -> length p2 = length p3 ->
  valid_fin p1 -> valid_fin p2 -> valid_fin p3 -> is_fin (torch_pld XO p1 p2 p3).
Proof.
  intros L1 L2 V1 V2 V3.
  destruct (all_valid p1 && all_valid p2 && all_valid p3) eqn:Hm; [|rewrite masked_zero_pld by assumption; apply is_fin_Fin].
  apply andb_true_iff in Hm. destruct Hm as [Hm E3]. apply andb_true_iff in Hm. destruct Hm as [E1 E2].
  destruct (all_valid_fins p1 V1 E1) as [q1 [-> Q1]]. destruct (all_valid_fins p2 V2 E2) as [q2 [-> Q2]].
  destruct (all_valid_fins p3 V3 E3) as [q3 [-> Q3]]. rewrite !fins_length in *.
  unfold torch_pld, torch_pld_m. rewrite !dist_m_fins.
  (* the one geometric fact used: coincident line points make the other two sides equal *)
  assert (Hac : euclid q2 q3 = 0 -> euclid q1 q2 = euclid q1 q3).
  { intros Eb. apply euclid_zero_iff in Eb; [rewrite Eb; reflexivity|congruence]. }
  revert Hac. generalize (euclid q1 q2), (euclid q2 q3), (euclid q1 q3). intros a b c Hac.
  unfold fix_nan, zero_filled, two. cbv [m_scalar m_arith m_un fst snd andb add sub mul div of_Z XO xadd xsub xmul sqrt].
  rewrite (xdiv_fin (a + b + c) 2) by lra. cbv [xsub xmul].
  set (s := (a + b + c) / 2). set (sqd := s * (s - a) * (s - b) * (s - c)).
  unfold nan_to_zero. cbn [xsqrt]. destruct (Rle_dec 0 sqd) as [Hpos|Hneg].
  - cbn [xmul]. destruct (Req_dec b 0) as [Eb|Nb].
    + (* b = 0 forces a = c, hence the radicand is 0 and the quotient 0/0 = NaN, repaired by fix_nan *)
      assert (Hs0 : sqd = 0) by (unfold sqd, s; rewrite Eb, (Hac Eb); field).
      rewrite Hs0, sqrt_0, xdiv_0_0 by (ring || exact Eb). cbn [eqb XO xeqb zero]. apply is_fin_Fin.
    + rewrite xdiv_fin by exact Nb. cbn [eqb XO xeqb]. destruct (Reqb _ _); apply is_fin_Fin.
  - cbn [xmul xdiv eqb XO xeqb zero]. apply is_fin_Fin.
Qed.

Lemma never_nan_numpy p1 p2 : valid_fin p1 -> valid_fin p2 -> is_fin (np_distance XO p1 p2).
Proof.
  intros V1 V2. unfold np_distance.
  set (sqs := map (m_un XO (sq XO)) (map2 (m_arith XO (sub XO)) p1 p2)).
  destruct (forallb (fun c : xm => negb (snd c)) sqs); [apply is_fin_Fin|].
  assert (Hs : exists r, 0 <= r /\ sum XO (map (fun c : xm => if snd c then fst c else zero XO) sqs) = Fin r).
  { unfold sqs. clear sqs. revert p2 V2. induction p1 as [|[x mx] p1 IH]; intros [|[y my] p2] V2;
      try (exists 0; split; [lra|reflexivity]).
    inversion V1 as [|c1 q1 Hc1 Hq1]; subst. inversion V2 as [|c2 q2 Hc2 Hq2]; subst.
    destruct (IH Hq1 p2 Hq2) as [r [Hr Hsum]]. rewrite map2_cons. cbn [map m_un m_arith fst snd sum fold_right] in *.
    unfold sum in Hsum. rewrite Hsum. destruct mx, my; cbn [andb]; try (exists r; split; [exact Hr|cbn [add XO xadd zero]; f_equal; ring]).
    destruct (Hc1 eq_refl) as [u ->]. destruct (Hc2 eq_refl) as [v ->]. cbn [sq sub mul add XO xsub xmul xadd].
    exists ((u - v) * (u - v) + r). split; [|reflexivity]. pose proof (Rle_0_sqr (u - v)) as H. unfold Rsqr in H. lra. }
  destruct Hs as [r [Hr ->]]. cbn [ltb XO xltb zero]. unfold Rltb. destruct (Rlt_dec r 0) as [L|_]; [lra|].
  cbn [sqrt XO]. rewrite xsqrt_nonneg by exact Hr. apply is_fin_Fin.
Qed.

Lemma x_distance_is_real a b : torch_distance XO (fins a) (fins b) = Fin (euclid a b).
Proof. unfold torch_distance. rewrite dist_m_fins. reflexivity. Qed.
Lemma x_angle_fins x1 y1 r1 x2 y2 r2 :
  torch_angle XO x_atan (fins (x1 :: y1 :: r1)) (fins (x2 :: y2 :: r2)) =
  x_atan (nan_to_zero XO (xdiv (Fin (y2 - y1)) (Fin (x2 - x1)))).
Proof. unfold torch_angle, torch_angle_with. rewrite msub_fins. reflexivity. Qed.
Lemma x_angle_vertical x y1 y2 r1 r2 : y1 <> y2 ->
  torch_angle XO x_atan (fins (x :: y1 :: r1)) (fins (x :: y2 :: r2)) = Fin (if Rlt_dec y1 y2 then PI / 2 else - (PI / 2)).
Proof.
  intros H. rewrite x_angle_fins, xdiv_by_0 by ring.
  destruct (Req_EM_T (y2 - y1) 0) as [E|_]; [exfalso; apply H; lra|].
  destruct (Rlt_dec 0 (y2 - y1)) as [L|NL]; destruct (Rlt_dec y1 y2) as [L'|NL']; try lra; reflexivity.
Qed.
Lemma x_angle_coincident x y r1 r2 : atan 0 = 0 -> torch_angle XO x_atan (fins (x :: y :: r1)) (fins (x :: y :: r2)) = Fin 0.
Proof. intros atan_0. rewrite x_angle_fins, xdiv_0_0 by ring. exact (x_atan_0 atan_0). Qed.

(* filling by multiplication (tensor.mul(mask)) violates both clauses, since NaN * 0 = NaN: defect F9 *)
Lemma pinned_distance_nan_under_mask :
  torch_distance_pinned XO [(NaN, false); (Fin 2, false)] [(Fin 1, true); (Fin 3, true)] = NaN.
Proof. reflexivity. Qed.
Lemma pinned_angle_vertical_limb_under_mask :
  torch_angle_pinned XO x_atan [(Fin 1, false); (Fin 2, false)] [(Fin 1, true); (Fin 3, true)] = NaN.
Proof.
  unfold torch_angle_pinned, torch_angle_with. rewrite !map2_cons.
  unfold m_div, m_arith, fix_nan, zero_filled_mul. cbn [fst snd andb div sub mul XO xsub]. rewrite xdiv_by_0 by ring.
  destruct (Req_EM_T (3 - 2) 0) as [E|_]; [lra|]. destruct (Rlt_dec 0 (3 - 2)) as [_|N]; [|lra].
  unfold nan_to_zero. cbn [eqb XO xeqb zero xmul]. unfold inf_times. destruct (Req_EM_T 0 0) as [_|N]; [reflexivity|exfalso; apply N; reflexivity].
Qed.
End WithTranscendentals.
