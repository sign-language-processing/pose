(* C06 - a read depends only on bytes and arguments, never on earlier reads or callers; results share no
   mutable state. *)
From Coq Require Import ZArith NArith List Bool Lia.
Require Import Tree Graph GraphEdit C06_Graph C06_GraphRun C06_GraphProofs.
Require Import ListN Result Bytes Prog Codec PoseRead PoseReadLemmas StreamLemmas StreamRead StreamBack StreamIndep C03_Window C06_Heap C06_HeapProofs CodecGenTie.
Import ListNotations.
Open Scope N_scope.

(* Value level: for ANY byte string and arguments, under every consistent memo, Pose.read returns what it
   returns with an empty memo; hence along any history of reads (the memo threaded through) every result is the
   stateless one. *)
Theorem C06_memo_never_changes_a_read :
  forall legacy m buffer a, MemoOK m -> fst (read_bytes legacy m buffer a) = fst (read_bytes legacy None buffer a).
Proof. exact read_bytes_memo_neutral. Qed.
Print Assumptions C06_memo_never_changes_a_read.
Theorem C06_history_of_reads :
  forall legacy ops m, MemoOK m ->
    run_reads legacy m ops = map (fun ba => fst (read_bytes legacy None (fst ba) (snd ba))) ops.
Proof.
  intros legacy ops. induction ops as [|[b a] ops IH]; intros m Hm; [reflexivity|]. cbn [run_reads map fst snd].
  rewrite (read_bytes_memo_neutral legacy m b a Hm). f_equal. apply IH. now apply read_bytes_memo_ok.
Qed.
Print Assumptions C06_history_of_reads.

(* Object level (heap of header objects; callers mutate only what they hold): after ANY sequence of reads,
   in-place edits of earlier results and copies, a read returns - as a value, its header object dereferenced in
   the resulting heap - exactly the fresh-process result. *)
Theorem C06_read_history_independent :
  forall legacy ops buffer a,
    let s := run_h legacy hinit ops in
    pose_of (snd (read_h legacy s buffer a)) (fst (read_h legacy s buffer a)) = fst (read_bytes legacy None buffer a).
Proof. exact read_history_independent. Qed.
Print Assumptions C06_read_history_independent.
(* ... the objects handed to callers are pairwise distinct and never the memo's object; *)
Theorem C06_no_sharing :
  forall legacy ops, let s := run_h legacy hinit ops in
    NoDup (handed s) /\ (forall c, hmem s = Some c -> ~ In (hm_addr c) (handed s)).
Proof. exact no_sharing. Qed.
Print Assumptions C06_no_sharing.
(* ... a read hands out a new object; *)
Theorem C06_read_result_is_fresh :
  forall legacy s buffer a ad b, HInv s -> fst (read_h legacy s buffer a) = Ok (ad, b) ->
    ~ In ad (handed s) /\ In ad (handed (snd (read_h legacy s buffer a))) /\
    (forall c, hmem (snd (read_h legacy s buffer a)) = Some c -> hm_addr c <> ad).
Proof. exact read_h_fresh. Qed.
Print Assumptions C06_read_result_is_fresh.
(* ... an in-place edit changes the edited object only; *)
Theorem C06_mutation_is_local :
  forall legacy s k f ad other, HInv s -> nth_error (handed s) k = Some ad -> other <> ad ->
    deref (fst (step_h legacy s (HMutate k f))) other dummy_header = deref s other dummy_header.
Proof.
  intros legacy s k f ad other HI Hk Hne. cbn [step_h]. rewrite Hk. cbn [fst]. unfold deref; cbn [heap].
  apply nth_set_nth_other. congruence.
Qed.
Print Assumptions C06_mutation_is_local.
(* ... and copy() yields a new object with an equal header, leaving every other object as it was. *)
Theorem C06_copy_is_disjoint :
  forall legacy s k ad, HInv s -> nth_error (handed s) k = Some ad ->
    let s' := fst (step_h legacy s (HCopy k)) in
    exists ad', handed s' = handed s ++ [ad'] /\ ~ In ad' (handed s) /\ ad' <> ad /\
                deref s' ad' dummy_header = deref s ad dummy_header /\
                (forall x, In x (handed s) -> deref s' x dummy_header = deref s x dummy_header).
Proof.
  intros legacy s k ad [_ [_ [_ Hlt]]] Hk. cbn [step_h]. rewrite Hk. cbn [alloc fst hand_out handed].
  exists (length (heap s)). split; [reflexivity|].
  pose proof (nth_error_In _ _ Hk) as Hin. split; [intros H; apply Hlt in H; lia|]. split; [apply Hlt in Hin; lia|].
  unfold deref; cbn [heap]. split; [apply nth_middle|]. intros x Hx. apply app_nth1. now apply Hlt.
Qed.
Print Assumptions C06_copy_is_disjoint.
Theorem C06_invariant_reachable :
  forall legacy ops, HInv (run_h legacy hinit ops).
Proof. exact (fun legacy ops => hinv_run legacy ops hinit hinv_init). Qed.
Print Assumptions C06_invariant_reachable.

(* Object-graph level (model/C06_Graph.v): EVERY mutable object of a pose is a cell of the heap - the Pose, its header, the
   dimensions object, the list of components, each component, its points / limbs / colours lists, the body, and the data, mask
   and confidence buffers.  [cells_of s k] are the cells the k-th pose handed out is made of, [memo_cells s] those of the
   memoised header, [pose_at s k] what a caller reads through the k-th pose.
   After ANY history of reads, in-place edits (of any cell reachable from any pose handed out) and copies:
   a read returns a new Pose object holding exactly the pose a fresh process reads; *)
Theorem C06_graph_history_independent :
  forall legacy ops buffer a,
    let s := run_g legacy ginit ops in
    let r := read_g legacy s buffer a in
    match fst (read_bytes legacy None buffer a) with
    | Ok p => exists ap, fst r = Ok ap /\ pose_at (snd r) (length (ghanded s)) = Some p
    | Err e => fst r = Err e
    end.
Proof.
  intros legacy ops buffer a s r.
  pose proof (read_g_value legacy s buffer a (ginv_run legacy ops ginit ginv_init)) as H. unfold handed_out in H.
  destruct (fst (read_bytes legacy None buffer a)) as [p|e]; [|exact (proj1 H)].
  destruct H as [ap [H1 [_ H3]]]. exists ap. split; assumption.
Qed.
Print Assumptions C06_graph_history_independent.
(* no cell belongs to two poses handed out (by reads or by copy()), nor to a pose and the memo; *)
Theorem C06_graph_no_sharing :
  forall legacy ops, let s := run_g legacy ginit ops in
    (forall i j x, i <> j -> In x (cells_of s i) -> ~ In x (cells_of s j)) /\
    (forall j x, In x (memo_cells s) -> ~ In x (cells_of s j)).
Proof. intros legacy ops s. apply no_sharing_g, ginv_run, ginv_init. Qed.
Print Assumptions C06_graph_no_sharing.
(* an in-place edit through one pose leaves every other pose handed out - value and cells - and what the memo holds untouched,
   and does not change which cells the edited pose is made of; *)
Theorem C06_graph_edit_is_local :
  forall legacy s k path g, GInv s ->
    let s' := fst (step_g legacy s (GEdit k path g)) in
    (forall j, j <> k -> pose_at s' j = pose_at s j /\ cells_of s' j = cells_of s j) /\
    memo_view_g s' = memo_view_g s /\ memo_cells s' = memo_cells s /\ cells_of s' k = cells_of s k.
Proof. exact edit_is_local. Qed.
Print Assumptions C06_graph_edit_is_local.
(* so do the structural edits - a newly built object (PoseHeaderDimensions(..), a new mask or coordinate array, a new list)
   assigned to an attribute, or the last element popped from a list such as header.components; *)
Theorem C06_graph_structural_edit_is_local :
  forall legacy s o, GInv s ->
    match o with GAssign _ _ _ _ | GPop _ _ => True | _ => False end ->
    let k := match o with GAssign k _ _ _ | GPop k _ => k | _ => 0%nat end in
    let s' := fst (step_g legacy s o) in
    (forall j, j <> k -> pose_at s' j = pose_at s j /\ cells_of s' j = cells_of s j) /\
    memo_view_g s' = memo_view_g s /\ memo_cells s' = memo_cells s.
Proof. exact structural_edit_is_local. Qed.
Print Assumptions C06_graph_structural_edit_is_local.
(* a read leaves every pose handed out before as it was; *)
Theorem C06_graph_read_keeps_others :
  forall legacy s buffer a, GInv s -> forall j, (j < length (ghanded s))%nat ->
    pose_at (snd (read_g legacy s buffer a)) j = pose_at s j /\ cells_of (snd (read_g legacy s buffer a)) j = cells_of s j.
Proof. exact read_g_keeps_others. Qed.
Print Assumptions C06_graph_read_keeps_others.
(* copy() hands out a new Pose object with the source's header, values and confidences and the mask re-derived as the body
   constructor does - equal to the source whenever the source marks its zero-confidence points missing
   (C06_graph_copy_consistent) - its cells disjoint from its source's by C06_graph_no_sharing, and leaves every other pose as it was; *)
Theorem C06_graph_copy_is_equal :
  forall legacy s k root, GInv s -> nth_error (ghanded s) k = Some root ->
    let s' := fst (step_g legacy s (GCopy k)) in
    ghanded s' = ghanded s ++ [length (gheap s') - 1]%nat /\ pose_at s' (length (ghanded s)) = option_map copy_pose (pose_at s k) /\
    (forall j, (j < length (ghanded s))%nat -> pose_at s' j = pose_at s j /\ cells_of s' j = cells_of s j).
Proof. exact copy_is_equal. Qed.
Print Assumptions C06_graph_copy_is_equal.
Theorem C06_graph_copy_consistent :
  forall p, or_maskb (b_mask (p_body p)) (b_conf (p_body p)) = b_mask (p_body p) -> copy_pose p = p.
Proof. intros p H. unfold copy_pose. rewrite H. destruct p as [h [f sh d c m]]. reflexivity. Qed.
Print Assumptions C06_graph_copy_consistent.
(* the invariant behind them holds in every reachable state, and the extracted runner threads exactly these states. *)
Theorem C06_graph_invariant_reachable : forall legacy ops, GInv (run_g legacy ginit ops).
Proof. exact (fun legacy ops => ginv_run legacy ops ginit ginv_init). Qed.
Print Assumptions C06_graph_invariant_reachable.
Theorem C06_graph_runner_states : forall legacy ops s, snd (run_flags legacy s ops) = run_g legacy s ops.
Proof.
  intros legacy ops. induction ops as [|o ops IH]; intros s; [reflexivity|]. cbn [run_flags run_g].
  destruct (step_g legacy s o) as [s' r]. cbn [fst]. specialize (IH s'). destruct (run_flags legacy s' ops) as [fl s'']. exact IH.
Qed.
Print Assumptions C06_graph_runner_states.
Theorem C06_graph_example :
  let s := run_g no_legacy ginit ex_ghistory in
  length (ghanded s) = 3%nat /\
  option_map (fun p => h_dims (p_header p)) (pose_at s 0) = Some (1, 2, 3) /\
  option_map (fun p => h_dims (p_header p)) (pose_at s 1) = Some (1, 2, 3) /\
  pose_at s 2 = match fst (read_bytes no_legacy None ex_file no_args) with Ok p => Some p | Err _ => None end /\
  pose_at s 2 <> None /\ pose_at s 2 <> pose_at s 0 /\
  (length (cells_of s 0) = length (cells_of s 1) /\ length (cells_of s 1) = length (cells_of s 2) /\ (10 <= length (cells_of s 2))%nat) /\
  NoDup (memo_cells s ++ cells_of s 0 ++ cells_of s 1 ++ cells_of s 2).
Proof.
  vm_compute. repeat split; try reflexivity; try discriminate; try lia. apply NoDup_nodup_eq. reflexivity.
Qed.
Print Assumptions C06_graph_example.
Theorem C06_graph_example_structural :
  let s := run_g no_legacy ginit ex_ghistory2 in
  length (ghanded s) = 3%nat /\
  option_map (fun p => (h_dims (p_header p), length (h_comps (p_header p)))) (pose_at s 0) = Some ((9, 9, 9), 1%nat) /\
  option_map (fun p => (h_dims (p_header p), length (h_comps (p_header p)))) (pose_at s 1) = Some ((9, 9, 9), 1%nat) /\
  pose_at s 2 = match fst (read_bytes no_legacy None ex_file no_args) with Ok p => Some p | Err _ => None end /\
  option_map (fun p => length (h_comps (p_header p))) (pose_at s 2) = Some 2%nat /\
  NoDup (memo_cells s ++ cells_of s 0 ++ cells_of s 1 ++ cells_of s 2).
Proof. vm_compute. repeat split; try reflexivity. apply NoDup_nodup_eq. reflexivity. Qed.
Print Assumptions C06_graph_example_structural.

(* Streams at the object-graph level.  [GReadS file a] is Pose.read of a seekable stream (BytesIOReader when a window is asked
   for).  After ANY history - byte reads, stream reads, in-place and structural edits, copies - a windowed stream read hands out a
   new Pose object holding the pose the same read returns in a fresh process (or raises where that one raises); earlier results
   keep their values and cells; the invariant (hence no sharing) holds in every reachable state including those reached through
   stream reads (C06_graph_invariant_reachable quantifies over all six kinds of operation). *)
Theorem C06_graph_stream_history_independent :
  forall legacy ops file a, any_arg a = true -> (forall h, v2prog (read_body legacy h a)) ->
    let s := run_g legacy ginit ops in
    let r := read_gs legacy s file a in
    match fst (fst (read_stream legacy None file a)) with
    | Ok p => exists ap, fst r = Ok ap /\ pose_at (snd r) (length (ghanded s)) = Some p
    | Err _ => exists e, fst r = Err e
    end.
Proof.
  intros legacy ops file a Ha Hv s r.
  pose proof (read_gs_value legacy s file a (ginv_run legacy ops ginit ginv_init) Ha Hv) as H. cbv zeta in H.
  destruct (fst (fst (read_stream legacy None file a))) as [p|e]; [|exact (proj1 H)].
  destruct H as [ap [H1 [_ H3]]]. exists ap. split; assumption.
Qed.
Print Assumptions C06_graph_stream_history_independent.
Theorem C06_graph_stream_read_keeps_others :
  forall legacy s file a, GInv s -> forall j, (j < length (ghanded s))%nat ->
    pose_at (snd (read_gs legacy s file a)) j = pose_at s j /\ cells_of (snd (read_gs legacy s file a)) j = cells_of s j.
Proof. exact read_gs_keeps_others. Qed.
Print Assumptions C06_graph_stream_read_keeps_others.
Theorem C06_graph_example_stream :
  let s := run_g no_legacy ginit ex_ghistory3 in
  length (ghanded s) = 3%nat /\
  option_map (fun p => h_dims (p_header p)) (pose_at s 0) = Some (1, 2, 3) /\
  pose_at s 1 = match fst (fst (read_stream no_legacy None ex_file ex_win)) with Ok p => Some p | Err _ => None end /\
  pose_at s 1 <> None /\ pose_at s 1 <> pose_at s 0 /\
  pose_at s 2 = match fst (read_bytes no_legacy None ex_file no_args) with Ok p => Some p | Err _ => None end /\
  NoDup (memo_cells s ++ cells_of s 0 ++ cells_of s 1 ++ cells_of s 2).
Proof. vm_compute. repeat split; try reflexivity; try discriminate. apply NoDup_nodup_eq. reflexivity. Qed.
Print Assumptions C06_graph_example_stream.

(* Value level, full strength: a windowed stream read of ANY byte string under ANY sound memo returns what it returns in a fresh
   process (same pose, or both raise); the partial statement below has the exact error-free form *)
Theorem C06_stream_windowed :
  forall legacy m q a, MemoOK m -> any_arg a = true -> (forall h, v2prog (read_body legacy h a)) ->
    same_outcome (fst (fst (read_stream legacy m q a))) (fst (fst (read_stream legacy None q a))).
Proof. exact read_stream_memo_independent. Qed.
Print Assumptions C06_stream_windowed.
Theorem C06_stream_memo_stays_sound :
  forall legacy m q a, MemoOK m -> MemoOK (snd (fst (read_stream legacy m q a))).
Proof. exact read_stream_memo_ok. Qed.
Print Assumptions C06_stream_memo_stays_sound.

(* streams (partial: the windowed clause covers reads whose bytes result is Ok and v0.2 bodies) *)
Theorem C06_stream_windowed_partial :
  forall legacy m q a pose, MemoOK m -> any_arg a = true ->
    (forall h r, run_plain rd_header {| pbuf := q; poff := 0 |} = Ok (h, r) -> v2prog (read_body legacy h a)) ->
    fst (read_bytes legacy None q a) = Ok pose ->
    fst (fst (read_stream legacy m q a)) = Ok pose.
Proof.
  intros legacy m q a pose Hm Ha Hv Hok. rewrite <- (read_bytes_memo_neutral legacy m q a Hm) in Hok.
  now destruct (read_stream_as_bytes legacy m q a pose Hm Ha Hv Hok).
Qed.
Print Assumptions C06_stream_windowed_partial.
Theorem C06_stream_full :
  forall legacy m q a, MemoOK m -> any_arg a = false ->
    fst (fst (read_stream legacy m q a)) = fst (read_bytes legacy None q a).
Proof. intros legacy m q a Hm Ha. rewrite (read_stream_noargs legacy m q a Ha). apply read_bytes_memo_neutral, Hm. Qed.
Print Assumptions C06_stream_full.

(* non-vacuity: read, rename the result's component, copy it, read again: the second read is not renamed *)
Theorem C06_example_history :
  let s := run_h no_legacy hinit ex_history in
  handed s = [0; 2; 3]%nat /\ length (heap s) = 4%nat /\
  deref s 0%nat dummy_header <> deref s 3%nat dummy_header /\
  exists c, hmem s = Some c /\ hm_addr c = 1%nat.
Proof. vm_compute. split; [reflexivity|]. split; [reflexivity|]. split; [discriminate|]. eexists. split; reflexivity. Qed.
Print Assumptions C06_example_history.

(* ties: the deep copies the model relies on are in the source *)
Theorem C06_tie_header_read : Gen_Codec.header_read = exp_header_read.
Proof. exact header_read_tie. Qed.
Print Assumptions C06_tie_header_read.
Theorem C06_tie_set_cache : Gen_Codec.cache_set_cache = exp_cache_set_cache.
Proof. exact cache_set_cache_tie. Qed.
Print Assumptions C06_tie_set_cache.
Theorem C06_tie_check_cache : Gen_Codec.cache_check_cache = exp_cache_check_cache.
Proof. exact cache_check_cache_tie. Qed.
Print Assumptions C06_tie_check_cache.
Theorem C06_tie_calc_hash : Gen_Codec.cache_calc_hash = exp_cache_calc_hash.
Proof. exact cache_calc_hash_tie. Qed.
Print Assumptions C06_tie_calc_hash.
Theorem C06_tie_pose_copy : Gen_Codec.pose_copy = exp_pose_copy.
Proof. exact pose_copy_tie. Qed.
Print Assumptions C06_tie_pose_copy.
Theorem C06_tie_numpy_body_copy : Gen_Codec.numpy_body_copy = exp_numpy_body_copy.
Proof. exact numpy_body_copy_tie. Qed.
Print Assumptions C06_tie_numpy_body_copy.
Theorem C06_tie_pose_read : Gen_Codec.pose_read = exp_pose_read.
Proof. exact pose_read_tie. Qed.
Print Assumptions C06_tie_pose_read.
