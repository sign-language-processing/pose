(* C05: parsePose on a v0.0 file of the reference encoder (docs/specs/v0.0.md): every float of every person is found
   under its component name, point index and format letter; in particular the first person of each frame. *)
From Coq Require Import ZArith NArith List Lia ZifyBool ZifyN ZifyNat Bool Arith.
Require Import ListFacts ListN Result Bytes Utf8 Utf8S F32 Prog Codec ProgLemmas CodecRT
  C05_JsParser C05_Spec C05_View C05_Lemmas C05_Header C05_HeaderView C05_Body C05_Index C05_Main.
Import ListNotations.
Open Scope N_scope.

Lemma i16_rt z r : (-32768 <= z < 32768)%Z -> dec_i16 (enc_i16 z ++ r) = z.
Proof.
  intros Hz. unfold dec_i16, enc_i16. rewrite u16_rt by lia.
  destruct (Z.ltb_spec (Z.of_N (Z.to_N (z mod 65536))) 32768); lia.
Qed.
Lemma run_i16 k rest vars pre z post : (-32768 <= z < 32768)%Z ->
  run true (Fld KI16 k rest) vars (pre ++ enc_i16 z ++ post) (lenN pre)
  = run true rest (obj_set vars k (VNum z)) ((pre ++ enc_i16 z) ++ post) (lenN (pre ++ enc_i16 z)).
Proof. intros Hz. rewrite (run_fld KI16) by reflexivity. cbn [fld_val]. now rewrite i16_rt. Qed.

Fixpoint point_obj (fmt ws : list N) (vars : obj) : obj :=
  match fmt, ws with
  | c :: f, w :: r => point_obj f r (obj_set vars [c] (VF32 w))
  | _, _ => vars
  end.
Lemma run_point fmt : forall ws vars pre post, length ws = length fmt -> Forall word32 ws ->
  run true (point_schema fmt) vars (pre ++ flat_map enc_u32 ws ++ post) (lenN pre)
  = Some (point_obj fmt ws vars, lenN (pre ++ flat_map enc_u32 ws)).
Proof.
  induction fmt as [|c fmt IH]; intros [|w ws] vars pre post Hl Hw; try discriminate.
  - cbn [point_schema fold_right run flat_map point_obj app]. now rewrite app_nil_r.
  - inversion Hw as [|? ? Hw0 Hws]; subst. cbn [point_schema fold_right flat_map point_obj]. fold (point_schema fmt).
    rewrite <- app_assoc. rewrite run_f32 by exact Hw0.
    rewrite (IH ws _ (pre ++ enc_u32 w) post); [|cbn [length] in Hl; lia|exact Hws].
    now rewrite <- app_assoc.
Qed.
Lemma RS_point fmt ws : length ws = length fmt -> Forall word32 ws -> RS (point_schema fmt) (flat_map enc_u32 ws) (point_obj fmt ws []).
Proof. intros Hl Hw pre post. now apply run_point. Qed.
Lemma point_obj_other fmt : forall ws vars x, ~ In x fmt -> obj_get (point_obj fmt ws vars) [x] = obj_get vars [x].
Proof.
  induction fmt as [|c fmt IH]; intros [|w ws] vars x Hx; cbn [point_obj]; try reflexivity.
  rewrite IH by (intros H; apply Hx; now right). apply obj_get_set_other. intros [= E]. apply Hx. now left.
Qed.
Lemma point_obj_at fmt : forall ws vars d x, length ws = length fmt -> nth_error fmt d = Some x -> ~ In x (skipn (S d) fmt) ->
  obj_get (point_obj fmt ws vars) [x] = Some (VF32 (nth d ws 0)).
Proof.
  induction fmt as [|c fmt IH]; intros [|w ws] vars d x Hl Hd Hlater; try discriminate; [destruct d; discriminate|].
  destruct d as [|d]; cbn [nth_error point_obj nth skipn length] in *.
  - injection Hd as ->. rewrite point_obj_other by exact Hlater. now rewrite obj_get_set_same.
  - apply IH; [lia|exact Hd|exact Hlater].
Qed.

Definition points_val (c : jcomp) (pts : list (list N)) : value := VArr (map (fun ws => VObj (point_obj (jc_format c) ws [])) pts).
Fixpoint person_obj (comps : list jcomp) (floats : list (list (list N))) (vars : obj) : obj :=
  match comps, floats with
  | c :: cs, pts :: r => person_obj cs r (obj_set vars (jc_name c) (points_val c pts))
  | _, _ => vars
  end.
Definition enc_floats (floats : list (list (list N))) : bytes :=
  flat_map (fun comp => flat_map (fun pt => flat_map enc_u32 pt) comp) floats.
Definition wf_floats (comps : list jcomp) (floats : list (list (list N))) : Prop :=
  Forall2 (fun c pts => Z.of_N (lenN pts) = jc_npoints c /\
                        Forall (fun pt => length pt = length (jc_format c) /\ Forall word32 pt) pts) comps floats.
Definition comps_schema (comps : list jcomp) : schema :=
  fold_right (fun c r => Arr (jc_name c) (point_schema (jc_format c)) (LenConst (jc_npoints c)) FmtNone r) Done comps.
Lemma run_comps comps : forall floats vars pre post, wf_floats comps floats ->
  run true (comps_schema comps) vars (pre ++ enc_floats floats ++ post) (lenN pre)
  = Some (person_obj comps floats vars, lenN (pre ++ enc_floats floats)).
Proof.
  induction comps as [|c comps IH]; intros floats vars pre post Hwf; inversion Hwf as [|? pts ? fl [Hn Hp] Hrest]; subst.
  - cbn [comps_schema fold_right run enc_floats flat_map person_obj app]. now rewrite app_nil_r.
  - cbn [comps_schema fold_right enc_floats flat_map person_obj]. fold (comps_schema comps). fold (enc_floats fl).
    rewrite (flat_map_concat_map (fun pt => flat_map enc_u32 pt) pts). rewrite <- app_assoc.
    rewrite (run_arr _ _ _ _ _ _ _ _ _ _ (RS_map _ _ _ _ (fun pt Hpt => RS_point _ pt (proj1 Hpt) (proj2 Hpt)) _ Hp))
      by (rewrite <- Hn, lenN_map; apply eval_len_const).
    rewrite (IH fl _ (pre ++ concat (map (flat_map enc_u32) pts)) post Hrest).
    cbn [apply_fmt]. unfold points_val. rewrite map_map. now rewrite <- app_assoc.
Qed.
Definition jperson_obj (comps : list jcomp) (p : person0) : obj := person_obj comps (snd p) [(k_id, VNum (fst p))].
Lemma RS_person comps (p : person0) : (-32768 <= fst p < 32768)%Z -> wf_floats comps (snd p) ->
  RS (person_schema comps) (enc_person p) (jperson_obj comps p).
Proof.
  intros Hid Hwf pre post. unfold person_schema, enc_person. fold (comps_schema comps). fold (enc_floats (snd p)).
  rewrite <- app_assoc. rewrite run_i16 by exact Hid.
  rewrite (run_comps comps (snd p) _ (pre ++ enc_i16 (fst p)) post Hwf). now rewrite <- app_assoc.
Qed.
Lemma person_obj_other comps : forall floats vars name, ~ In name (map jc_name comps) ->
  obj_get (person_obj comps floats vars) name = obj_get vars name.
Proof.
  induction comps as [|c comps IH]; intros [|pts fl] vars name Hn; cbn [person_obj]; try reflexivity.
  rewrite IH by (intros H; apply Hn; now right). apply obj_get_set_other. intros E. apply Hn. now left.
Qed.
Lemma person_obj_at comps : forall floats vars n c, length floats = length comps -> nth_error comps n = Some c ->
  ~ In (jc_name c) (map jc_name (skipn (S n) comps)) ->
  obj_get (person_obj comps floats vars) (jc_name c) = Some (points_val c (nth n floats [])).
Proof.
  induction comps as [|c0 comps IH]; intros [|pts fl] vars n c Hl Hn Hlater; try discriminate; [destruct n; discriminate|].
  destruct n as [|n]; cbn [nth_error person_obj nth skipn length] in *.
  - injection Hn as ->. rewrite person_obj_other by exact Hlater. now rewrite obj_get_set_same.
  - apply IH; [lia|exact Hn|exact Hlater].
Qed.

Definition jframe_obj (comps : list jcomp) (people : list person0) : obj :=
  [(k__people, VNum (Z.of_N (lenN people))); (k_people, VArr (map (fun p => VObj (jperson_obj comps p)) people))].
Definition wf_people (comps : list jcomp) (people : list person0) : Prop :=
  lenN people < 65536 /\ Forall (fun p => (-32768 <= fst p < 32768)%Z /\ wf_floats comps (snd p)) people.
Lemma RS_frame comps people : wf_people comps people -> RS (frame_schema comps) (enc_frame people) (jframe_obj comps people).
Proof.
  intros [Hn Hp] pre post. unfold frame_schema, enc_frame. rewrite <- app_assoc. rewrite run_u16 by exact Hn.
  rewrite (flat_map_concat_map enc_person people).
  rewrite (run_arr _ _ _ _ _ _ _ _ _ _ (RS_map _ _ _ _ (fun p Hp => RS_person comps p (proj1 Hp) (proj2 Hp)) _ Hp))
    by (apply eval_len_var; rewrite lenN_map; reflexivity).
  cbn [run apply_fmt]. unfold jframe_obj. rewrite map_map. now rewrite <- !app_assoc.
Qed.

Definition zcomps (q : lpose0) : list component := map canon_comp (z_comps q).
Definition zjcomps (q : lpose0) : list jcomp := map jcomp_of_comp (zcomps q).
Definition body_obj_v00 (q : lpose0) : obj :=
  [(k_fps, VNum (Z.of_N (z_fps q))); (k__frames, VNum (Z.of_N (lenN (z_frames q))));
   (k_frames, VArr (map (fun f => VObj (jframe_obj (zjcomps q) f)) (z_frames q)))].

Lemma wf_person_floats (comps : list wcomponent) (p : person0) : Forall wcomp_plain comps -> wf_person comps p ->
  (-32768 <= fst p < 32768)%Z /\ wf_floats (map jcomp_of_comp (map canon_comp comps)) (snd p).
Proof.
  intros Hplain [Hid HF]. split; [exact Hid|]. unfold wf_floats.
  induction HF as [|c pts comps fl [Hn Hp] _ IH]; cbn [map]; constructor.
  - inversion Hplain as [|? ? [[_ [Hb _]] _] _]; subst.
    cbn [jcomp_of_comp canon_comp jc_npoints jc_format c_points c_format]. rewrite (strip_no_bom _ Hb).
    split; [unfold lenN; lia|exact Hp].
  - apply IH. now inversion Hplain.
Qed.

Lemma wf_frames q : wf_lpose0 q -> Forall wcomp_plain (z_comps q) -> Forall (wf_people (zjcomps q)) (z_frames q).
Proof.
  intros [_ [_ Hfr]] Hplain. eapply Forall_impl; [|exact Hfr]. intros people [Hn Hp]. split; [exact Hn|].
  eapply Forall_impl; [|exact Hp]. intros p Hwp. now apply wf_person_floats.
Qed.

Lemma parse_body_v00 q hv : wf_lpose0 q -> Forall wcomp_plain (z_comps q) ->
  parse (body_v00_schema (lenN hv) (zjcomps q))
        (hv ++ enc_u16 (z_fps q) ++ enc_u16 (lenN (z_frames q)) ++ flat_map enc_frame (z_frames q))
  = Some (body_obj_v00 q).
Proof.
  intros Hwf Hplain. pose proof (wf_frames q Hwf Hplain) as Hwfp. destruct Hwf as [Hfps [HnF _]].
  unfold parse, js_little, body_v00_schema. rewrite run_seek. change (0 + lenN hv) with (lenN hv).
  rewrite run_u16 by exact Hfps. rewrite run_u16 by exact HnF.
  rewrite <- (app_nil_r (flat_map enc_frame _)), flat_map_concat_map.
  rewrite (run_arr _ _ _ _ _ _ _ _ _ [] (RS_map _ _ _ _ (RS_frame _) _ Hwfp)) by (apply eval_len_var; rewrite lenN_map; reflexivity).
  cbn [run apply_fmt]. rewrite map_map. reflexivity.
Qed.

Theorem js_parse_v00 q bs : spec_v00 q = Ok bs -> wf_lpose0 q -> Forall wcomp_plain (z_comps q) ->
  exists h, write_header (z_dims q) (z_comps q) = Ok h /\
  parse_pose bs = Some {| jp_header := js_header_obj (header_of_v 0 (z_dims q) (z_comps q)) (lenN h);
                          jp_info := [(k_fps, VNum (Z.of_N (z_fps q))); (k__frames, VNum (Z.of_N (lenN (z_frames q))))];
                          jp_nframes := Z.of_nat (length (z_frames q));
                          jp_frame := fun i => if (i <? 0)%Z then VUndef
                                               else nth (Z.to_nat i) (map (fun f => VObj (jframe_obj (zjcomps q) f)) (z_frames q)) VUndef |}.
Proof.
  intros H Hwf Hplain.
  unfold spec_v00 in H. apply rbind_ok in H. destruct H as [h [Hh H]]. apply Ok_inj in H. subst bs.
  exists h. split; [exact Hh|].
  destruct (js_header_obj_eq_v 0 _ _ h (enc_u16 (z_fps q) ++ enc_u16 (lenN (z_frames q)) ++ flat_map enc_frame (z_frames q)) eq_refl Hh)
    as [Hparse Hlen].
  unfold parse_pose. rewrite Hparse, header_obj_version, header_comps_obj, header_obj_length.
  cbn [header_of_v h_version h_comps]. rewrite js_class_v00, N2Z.id, <- Hlen, (parse_body_v00 q _ Hwf Hplain).
  (* parsePose returns the body object without its frames array, and the array *)
  unfold body_obj_v00. kred. rewrite map_length. reflexivity.
Qed.

Open Scope nat_scope.
Lemma js_cell_v00 comps people j p n c l d x :
  nth_error people j = Some p -> wf_floats comps (snd p) ->
  nth_error comps n = Some c -> ~ In (jc_name c) (map jc_name (skipn (S n) comps)) -> (Z.of_nat l < jc_npoints c)%Z ->
  nth_error (jc_format c) d = Some x -> ~ In x (skipn (S d) (jc_format c)) ->
  js_cell (VObj (jframe_obj comps people)) j (jc_name c) l x = Some (VF32 (nth d (nth l (nth n (snd p) []) []) 0%N)).
Proof.
  intros Hj Hwp Hn Hlater Hl Hd Hxl. unfold js_cell, jframe_obj.
  change (obj_get [(k__people, ?a); (k_people, ?b)] k_people) with (Some b). cbv beta iota.
  rewrite (map_nth_error (fun p0 => VObj (jperson_obj comps p0)) j people Hj). unfold jperson_obj.
  rewrite (person_obj_at comps (snd p) _ n c (eq_sym (Forall2_length _ _ _ Hwp)) Hn Hlater).
  unfold points_val. cbv beta iota.
  destruct (Forall2_nth_error _ _ _ Hwp n c Hn) as [pts [Epts [Hnp Hfl]]]. rewrite (nth_error_nth _ _ [] Epts).
  destruct (nth_error pts l) as [ws|] eqn:Ews; [|apply nth_error_None in Ews; unfold lenN in Hnp; lia].
  rewrite (map_nth_error _ _ _ Ews), (nth_error_nth _ _ [] Ews).
  rewrite Forall_forall in Hfl. destruct (Hfl ws (nth_error_In _ _ Ews)) as [Hlw _].
  apply point_obj_at; [exact Hlw|exact Hd|exact Hxl].
Qed.

(* parsePose on a v0.0 file: header, fps, frame count, and for EVERY person p of every frame (in particular the first, which
   is all Pose.read keeps - props/C04.v C04_v00_decodes_bytes): frames[i].people[j][component][l][letter at position d] is the d-th float the
   file stores for that point (Python: coordinates are the floats 0 .. len-2, the confidence is the last one). *)
Theorem js_v00_eq q bs : spec_v00 q = Ok bs -> wf_lpose0 q -> Forall wcomp_plain (z_comps q) ->
  exists h jp, write_header (z_dims q) (z_comps q) = Ok h /\ parse_pose bs = Some jp /\
    header_view (jp_header jp) = Some (header_of_v 0 (z_dims q) (z_comps q), lenN h) /\
    vnum (obj_get (jp_info jp) k_fps) = Some (z_fps q) /\ jp_nframes jp = Z.of_nat (length (z_frames q)) /\
    forall i people j p, nth_error (z_frames q) i = Some people -> nth_error people j = Some p ->
      forall n c l d x, nth_error (zcomps q) n = Some c -> ~ In (c_name c) (map c_name (skipn (S n) (zcomps q))) ->
        l < length (c_points c) -> nth_error (c_format c) d = Some x -> ~ In x (skipn (S d) (c_format c)) ->
        js_cell (jp_frame jp (Z.of_nat i)) j (c_name c) l x = Some (VF32 (nth d (nth l (nth n (snd p) []) []) 0%N)).
Proof.
  intros H Hwf Hplain. destruct (js_parse_v00 q bs H Hwf Hplain) as [h [Hh Hparse]].
  exists h. eexists. split; [exact Hh|]. split; [exact Hparse|]. cbn [jp_header jp_info jp_nframes jp_frame].
  pose proof (plain_no_bom _ Hplain) as Hnb. fold (zcomps q) in Hnb.
  split; [apply header_view_obj; exact Hnb|].
  split; [kred; now rewrite vnum_of_N|]. split; [reflexivity|].
  intros i people j p Hi Hj n c l d x Hn Hlater Hl Hd Hxl.
  destruct (Z.ltb_spec (Z.of_nat i) 0) as [|_]; [lia|]. rewrite Nat2Z.id.
  rewrite (nth_error_nth _ _ VUndef (map_nth_error (fun f => VObj (jframe_obj (zjcomps q) f)) i (z_frames q) Hi)).
  assert (Hwp : wf_floats (zjcomps q) (snd p)).
  { pose proof (wf_frames q Hwf Hplain) as Hfr. rewrite Forall_forall in Hfr. destruct (Hfr people (nth_error_In _ _ Hi)) as [_ Hp].
    rewrite Forall_forall in Hp. exact (proj2 (Hp p (nth_error_In _ _ Hj))). }
  destruct (jcomp_nth (zcomps q) n c Hnb Hn Hlater) as [Hname [Hfmt [Hn' Hlater']]].
  rewrite <- Hname, <- Hfmt in *.
  apply (js_cell_v00 (zjcomps q) people j p n (jcomp_of_comp c) l d x Hj Hwp Hn' Hlater'); [|exact Hd|exact Hxl].
  cbn [jcomp_of_comp jc_npoints]. unfold lenN. lia.
Qed.
