(* C16: 0 <= int(n * CAP) < n for EVERY n >= 1 (no bound), hence the generic dropout always keeps a frame.
   The binary64 computation of the model (Coq's SpecFloat: binary_normalize, SFmul) is connected to Flocq's
   correctly-rounded operations (binary_normalize_correct, Bmult_correct), and the inequality is proved over the reals:
   x = RN(n), y = RN(x * c) with c <= 4095/4096 gives 0 <= y < n, and int(y) = floor(y) < n.
   Depends on the three axioms of Coq's real numbers and, through Flocq, on Classical_Prop.classic; the closed, bounded
   version is proofs/C16_Cap.v.  CAP is the regenerated source constant: [cap_small] is decided by computation. *)
From Coq Require Import ZArith Reals Lia Lra Psatz SpecFloat Bool List.
From Flocq Require Import Core Relative BinarySingleNaN.
From Flocq Require PrimFloat.
Require Import Result F32 C16_Frames C16_Dropout C16_Run.
Local Open Scope R_scope.

Definition fmt := FLT_exp (-1074) 53.
Definition rnd64 (x : R) : R := round radix2 fmt ZnearestE x.
Definition E20 : R := / 1048576.

Lemma rnd64_error x : exists e h, Rabs e <= E20 /\ Rabs h <= E20 /\ rnd64 x = x * (1 + e) + h.
Proof.
  destruct (error_N_FLT radix2 (-1074) 53 ltac:(lia) (fun t => negb (Z.even t)) x) as [e [h [He [Hh [_ Hr]]]]].
  assert (Hb : forall k, (k <= -19)%Z -> / 2 * bpow radix2 k <= E20).
  { intros k Hk. apply (bpow_le radix2) in Hk. change (bpow radix2 (-19)) with (/ 524288) in Hk. unfold E20. lra. }
  exists e, h. split; [exact (Rle_trans _ _ _ He (Hb (-52)%Z ltac:(discriminate)))|].
  split; [exact (Rle_trans _ _ _ Hh (Hb (-1074)%Z ltac:(discriminate))) | exact Hr].
Qed.

Lemma real_cap (n : Z) (c : R) : (1 <= n)%Z -> 0 <= c <= 4095 / 4096 ->
  0 <= rnd64 (IZR n) /\ 0 <= rnd64 (rnd64 (IZR n) * c) < IZR n /\ rnd64 (IZR n) * c <= rnd64 (IZR n).
Proof.
  intros Hn [Hc0 Hc1]. assert (HN : 1 <= IZR n) by (apply IZR_le; exact Hn).
  destruct (rnd64_error (IZR n)) as [e1 [h1 [He1 [Hh1 Hx]]]].
  set (x := rnd64 (IZR n)) in *.
  apply Rabs_le_inv in He1, Hh1. unfold E20 in *.
  assert (Hx0 : 0 <= x) by (rewrite Hx; nra).
  assert (Hx1 : x <= IZR n * (1 + / 1048576) + / 1048576) by (rewrite Hx; nra).
  destruct (rnd64_error (x * c)) as [e2 [h2 [He2 [Hh2 Hy]]]].
  apply Rabs_le_inv in He2, Hh2. unfold E20 in *.
  assert (Hz0 : 0 <= x * c) by nra.
  assert (Hz1 : x * c <= x * (4095 / 4096)) by nra.
  split; [exact Hx0|]. split; [split|nra].
  - unfold rnd64. apply round_ge_generic; [apply FLT_exp_valid; unfold Prec_gt_0; lia|apply valid_rnd_N|apply generic_format_0|exact Hz0].
  - rewrite Hy.
    assert (A1 : x * c * (1 + e2) <= x * c * (1 + / 1048576)) by (apply Rmult_le_compat_l; lra).
    assert (A2 : x * c * (1 + / 1048576) <= x * (4095 / 4096) * (1 + / 1048576)) by (apply Rmult_le_compat_r; lra).
    assert (Hy1 : x * c * (1 + e2) + h2 <= x * (4095 / 4096) * (1 + / 1048576) + / 1048576) by lra.
    eapply Rle_lt_trans; [exact Hy1|].
    assert (x * (4095 / 4096) * (1 + / 1048576) <= (IZR n * (1 + / 1048576) + / 1048576) * (4095 / 4096) * (1 + / 1048576)).
    { apply Rmult_le_compat_r; [lra|]. apply Rmult_le_compat_r; [lra|exact Hx1]. }
    lra.
Qed.

Notation Hp := PrimFloat.Hprec.
Notation Hm := PrimFloat.Hmax.
Notation bf := (binary_float FloatOps.prec FloatOps.emax).

Lemma SFmul_Bmult (x y : bf) :
  SFmul 53 1024 (B2SF x) (B2SF y) = B2SF (Bmult (prec_gt_0_ := Hp) (prec_lt_emax_ := Hm) mode_NE x y).
Proof. destruct x as [sx|sx| |sx mx ex Bx]; destruct y as [sy|sy| |sy my ey By]; try reflexivity.
  simpl. rewrite B2SF_SF2B. apply PrimFloat.binary_round_aux_equiv. Qed.

Lemma trunc_lt (m : positive) (e : Z) (n k : Z) :
  IZR (Zpos m) * bpow radix2 e < IZR n -> sf_trunc (S754_finite false m e) = Some k -> (0 <= k < n)%Z.
Proof. destruct e as [|p|p]; unfold sf_trunc; cbv beta iota zeta; intros H Hk;
  apply (f_equal (fun o => match o with Some z => z | None => 0%Z end)) in Hk; cbv beta iota in Hk; subst k.
  - change (bpow radix2 0) with 1 in H. rewrite Rmult_1_r in H. apply lt_IZR in H. lia.
  - change (bpow radix2 (Z.pos p)) with (IZR (Z.pow_pos 2 p)) in H. rewrite <- mult_IZR in H. apply lt_IZR in H.
    assert (0 < Z.pow_pos 2 p)%Z by (apply Zpower_pos_gt_0; reflexivity).
    assert (0 <= Z.pos m * Z.pow_pos 2 p)%Z by (apply Z.mul_nonneg_nonneg; lia). lia.
  - change (bpow radix2 (Z.neg p)) with (/ IZR (Z.pow_pos 2 p)) in H.
    assert (HD : (0 < Z.pow_pos 2 p)%Z) by (apply Zpower_pos_gt_0; reflexivity). set (D := Z.pow_pos 2 p) in *.
    assert (HDr : 0 < IZR D) by (apply IZR_lt; exact HD).
    pose proof (Z.mul_div_le (Z.pos m) D HD) as H1.
    pose proof (Z.div_pos (Z.pos m) D ltac:(lia) HD) as H3. split; [exact H3|].
    apply lt_IZR. apply IZR_le in H1. rewrite mult_IZR in H1.
    apply Rmult_lt_reg_l with (r := IZR D); [exact HDr|].
    eapply Rle_lt_trans; [exact H1|].
    replace (IZR (Z.pos m)) with (IZR D * (IZR (Z.pos m) * / IZR D)) by (field; lra).
    apply Rmult_lt_compat_l; [exact HDr|exact H]. Qed.

Lemma F2R_int (z : Z) : F2R (Float radix2 z 0) = IZR z.
Proof. unfold F2R. cbn [Fnum Fexp bpow]. ring. Qed.

(* int -> binary64: the correctly rounded integer, finite and non-negative, unless it overflows to infinity *)
Lemma sf64_of_Z_bridge (z : Z) : (1 <= z)%Z ->
  exists fB : bf, sf64_of_Z z = B2SF fB /\
    (is_inf_sf (B2SF fB) = true \/
     is_inf_sf (B2SF fB) = false /\ B2R fB = rnd64 (IZR z) /\ is_finite fB = true /\ Bsign fB = false /\
     rnd64 (IZR z) < bpow radix2 FloatOps.emax).
Proof. intros Hz. unfold sf64_of_Z.
  change (SpecFloat.binary_normalize 53 1024 z 0 false) with (SpecFloat.binary_normalize FloatOps.prec FloatOps.emax z 0 false).
  rewrite (PrimFloat.binary_normalize_equiv z 0 false).
  set (fB := binary_normalize FloatOps.prec FloatOps.emax Hp Hm mode_NE z 0 false). exists fB. split; [reflexivity|].
  pose proof (binary_normalize_correct FloatOps.prec FloatOps.emax Hp Hm mode_NE z 0 false) as HN.
  cbv zeta in HN. fold fB in HN. rewrite F2R_int in HN.
  change (round radix2 (fexp FloatOps.prec FloatOps.emax) (round_mode mode_NE) (IZR z)) with (rnd64 (IZR z)) in HN.
  destruct (Rlt_bool_spec (Rabs (rnd64 (IZR z))) (bpow radix2 FloatOps.emax)) as [Hlt|Hge].
  - right. destruct HN as [HR [HF HS]].
    assert (Hgt : Rcompare (IZR z) 0 = Gt) by (apply Rcompare_Gt, IZR_lt; lia). rewrite Hgt in HS.
    split; [destruct fB; try reflexivity; discriminate|]. split; [exact HR|]. split; [exact HF|]. split; [exact HS|].
    exact (Rle_lt_trans _ _ _ (Rle_abs _) Hlt).
  - left. rewrite HN. reflexivity. Qed.
(* the product of two finite non-negative floats, short of overflow: the correctly rounded product, finite, non-negative *)
Lemma sf64_mul_bridge (x y : bf) :
  is_finite x = true -> is_finite y = true -> Bsign x = false -> Bsign y = false ->
  Rabs (rnd64 (B2R x * B2R y)) < bpow radix2 FloatOps.emax ->
  exists p : bf, sf64_mul (B2SF x) (B2SF y) = B2SF p /\ B2R p = rnd64 (B2R x * B2R y) /\ is_finite p = true /\ Bsign p = false.
Proof. intros Fx Fy Sx Sy Hlt. unfold sf64_mul. rewrite SFmul_Bmult.
  pose proof (Bmult_correct FloatOps.prec FloatOps.emax Hp Hm mode_NE x y) as HM.
  change (round radix2 (fexp FloatOps.prec FloatOps.emax) (round_mode mode_NE) (B2R x * B2R y)) with (rnd64 (B2R x * B2R y)) in HM.
  rewrite Rlt_bool_true in HM by exact Hlt. destruct HM as [HR [HF HS]]. rewrite Fx, Fy in HF.
  set (p := Bmult mode_NE x y) in *. exists p. split; [reflexivity|]. split; [exact HR|]. split; [exact HF|].
  rewrite HS, Sx, Sy; [reflexivity|]. destruct p; try reflexivity; discriminate. Qed.
Lemma trunc_nonneg_lt (y : bf) (n k : Z) : is_finite y = true -> Bsign y = false -> B2R y < IZR n -> (1 <= n)%Z ->
  sf_trunc (B2SF y) = Some k -> (0 <= k < n)%Z.
Proof. intros Fy Sy Hlt Hn. destruct y as [s|s| |s m e B]; try discriminate.
  - cbn [B2SF sf_trunc]. intros [= <-]. lia.
  - cbn [Bsign] in Sy. subst s. cbn [B2SF]. apply (trunc_lt m e n k).
    cbn [B2R cond_Zopp] in Hlt. unfold F2R in Hlt. cbn [Fnum Fexp] in Hlt. exact Hlt. Qed.

Lemma cap_safe_all (c : spec_float) (mc : positive) (ec : Z) (Hv : valid_binary FloatOps.prec FloatOps.emax c = true) :
  c = S754_finite false mc ec -> SF2R radix2 c <= 4095 / 4096 ->
  forall n kc, (1 <= n)%nat -> cap_count c n = Ok kc -> (0 <= kc < Z.of_nat n)%Z.
Proof.
  intros Hc Hle n kc Hn. unfold cap_count, int_times_float.
  set (z := Z.of_nat n). assert (Hz : (1 <= z)%Z) by (unfold z; lia).
  destruct (sf64_of_Z_bridge z Hz) as [fB [-> [Hinf|[Hinf [HR [HF [HS Hlt]]]]]]]; rewrite Hinf; cbn [rbind]; [discriminate|].
  set (cB := SF2B c Hv). replace c with (B2SF cB) at 1 by apply B2SF_SF2B.
  assert (HcR : B2R cB = SF2R radix2 c) by apply B2R_SF2B.
  assert (Hc0 : 0 <= SF2R radix2 c).
  { rewrite Hc. unfold SF2R. cbn [cond_Zopp]. apply F2R_ge_0. cbn [Fnum]. lia. }
  destruct (real_cap z (SF2R radix2 c) Hz (conj Hc0 Hle)) as [Hx0 [[Hy0 Hy1] Hzc]].
  destruct (sf64_mul_bridge fB cB) as [yB [-> [HyR [HyF HyS]]]]; try assumption.
  - unfold cB. rewrite is_finite_SF2B, Hc. reflexivity.
  - unfold cB. rewrite Bsign_SF2B, Hc. reflexivity.
  - rewrite HR, HcR, Rabs_pos_eq by exact Hy0. eapply Rle_lt_trans; [|exact Hlt].
    unfold rnd64 at 1. apply round_le_generic; [apply FLT_exp_valid; unfold Prec_gt_0; lia|apply valid_rnd_N| |exact Hzc].
    unfold rnd64. apply generic_format_round; [apply FLT_exp_valid; unfold Prec_gt_0; lia|apply valid_rnd_N].
  - unfold py_int. destruct (sf_trunc (B2SF yB)) as [k|] eqn:Hk; [|discriminate]. intros [= <-].
    apply (trunc_nonneg_lt yB z k HyF HyS); [rewrite HyR, HR, HcR; exact Hy1 | exact Hz | exact Hk].
Qed.

(* c <= 4095/4096, decided on the mantissa / exponent *)
Definition cap_small (c : spec_float) : bool :=
  match c with
  | S754_finite false m e => (e <=? 0)%Z && (Zpos m * 4096 <=? 4095 * 2 ^ (- e))%Z
  | _ => false
  end.
Lemma cap_small_spec m e : cap_small (S754_finite false m e) = true -> SF2R radix2 (S754_finite false m e) <= 4095 / 4096.
Proof. unfold cap_small. intros H. apply andb_true_iff in H. destruct H as [He Hm]. apply Z.leb_le in He, Hm.
  unfold SF2R, F2R. cbn [cond_Zopp Fnum Fexp].
  replace e with (- (- e))%Z by lia. rewrite bpow_opp. rewrite <- IZR_Zpower by lia.
  set (D := (radix2 ^ (- e))%Z) in *.
  assert (HD : (0 < D)%Z) by (unfold D; apply Z.pow_pos_nonneg; [reflexivity|lia]).
  assert (HDr : 0 < IZR D) by (apply IZR_lt; exact HD).
  apply IZR_le in Hm. rewrite !mult_IZR in Hm. change (IZR (2 ^ (- e))) with (IZR D) in Hm.
  apply Rmult_le_reg_r with (r := IZR D); [exact HDr|]. rewrite Rmult_assoc, Rinv_l by lra. lra. Qed.

Lemma cap_c_facts : exists mc ec, cap_c = S754_finite false mc ec /\
  valid_binary FloatOps.prec FloatOps.emax cap_c = true /\ cap_small cap_c = true.
Proof. eexists. eexists. split; [reflexivity|]. split; vm_compute; reflexivity. Qed.
Lemma cap_safe_every_n n kc : (1 <= n)%nat -> cap_count cap_c n = Ok kc -> (0 <= kc < Z.of_nat n)%Z.
Proof. destruct cap_c_facts as [mc [ec [Hc [Hv Hs]]]]. intros Hn.
  apply (cap_safe_all cap_c mc ec Hv Hc); [|exact Hn]. rewrite Hc in Hs |- *. now apply cap_small_spec. Qed.
Lemma keeps_one_every_n {A} be (b : body A) d s r kept :
  (1 <= frames b)%nat -> possible_draw cap_c (frames b) (fraction d) s ->
  dropout cap_c be b d s = Ok (r, kept) -> (1 <= length kept)%nat.
Proof. intros Hn Hp H. destruct (dropped_count _ _ _ _ _ _ _ Hp H) as [a [kc [_ [Hc _]]]].
  apply (keeps_one_if_cap_ok cap_c be b d s r kept); [|exact Hp|exact H].
  exists kc. split; [exact Hc|]. now apply cap_safe_every_n. Qed.
