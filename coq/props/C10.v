(* C10 - masked tensors keep values and validity aligned under every operation.
   Statements, closed by [exact <lemma>] or, where the fact is immediate from the definitions, by a few lines.  [O] is any numeric type (Num.ops), [trig] any interpretation of
   cos/sin/tan/acos/asin/atan.  [repaired] / [pinned] are the two positions of the five source switches (model/C10_Masked.v);
   the tie lemmas at the end say which position the source is in. *)
From Coq Require Import List ZArith Bool.
Require Import ListFacts Result Tensor Num C10_Tensor C10_Masked C10_TensorLemmas C10_Aligned C10_RefBase C10_Stats C10_Refines
               C10_Examples C10_GenTie Gen_C10.
Import ListNotations.

(* ---- clause 1: identical shapes after any program (any length, any framework, any inputs whose value and mask shapes agree) *)
Theorem aligned : forall (O : ops) (trig : uname -> T O -> T O) (f : fw) (p : list (instr O)) (env env' : list (mt O)),
  Forall (al O) env -> run O trig repaired f p env = Ok env' -> Forall (al O) env'.
Proof. exact C10_Aligned.aligned. Qed.
Print Assumptions aligned.
(* only three of the switches matter for the shapes *)
Theorem aligned_gen : forall (O : ops) (trig : uname -> T O -> T O) (c : cfg) (f : fw) (p : list (instr O)),
  shape_safe c -> forall env env' : list (mt O), Forall (al O) env -> run O trig c f p env = Ok env' -> Forall (al O) env'.
Proof. exact C10_Aligned.aligned_gen. Qed.
Print Assumptions aligned_gen.
Example aligned_nonvacuous : exists env', run Z_ops z_trig repaired TF demo [m23] = Ok env' /\ length env' = 11.
Proof. exact demo_runs. Qed.
Print Assumptions aligned_nonvacuous.
Example aligned_nonvacuous_torch : exists env', run Z_ops z_trig repaired Torch (firstn 6 demo) [m23] = Ok env' /\ length env' = 8.
Proof. exact demo_torch_prefix_runs. Qed.
Print Assumptions aligned_nonvacuous_torch.

(* ---- clause 2: the result equals what the direct reference (one tensor of (value, valid) pairs) computes *)
Theorem run_refines_reference : forall (O : ops) (trig : uname -> T O -> T O),
  (forall x : T O, add O x (zero O) = x) ->
  (forall l : list (T O), nonzero O (count O l) = false -> l = []) ->
  forall (f : fw) (p : list (instr O)), prog_wf O p -> forall env env' : list (mt O), Forall (ok O) env ->
  run O trig repaired f p env = Ok env' ->
  rrun O trig f p (map (pair_of O) env) = Ok (map (pair_of O) env') /\ Forall (ok O) env'.
Proof. exact C10_Refines.run_refines. Qed.
Print Assumptions run_refines_reference.
Theorem step_refines_reference : forall (O : ops) (trig : uname -> T O -> T O),
  (forall x : T O, add O x (zero O) = x) ->
  (forall l : list (T O), nonzero O (count O l) = false -> l = []) ->
  forall (f : fw) (i : instr O) (env outs : list (mt O)), instr_wf O i -> Forall (ok O) env ->
  exec O trig repaired f i env = Ok outs ->
  rexec O trig f i (map (pair_of O) env) = Ok (map (pair_of O) outs) /\ Forall (ok O) outs.
Proof. exact C10_Refines.exec_refines. Qed.
Print Assumptions step_refines_reference.
Example refines_hypotheses_satisfiable :
  (forall x : T Z_ops, add Z_ops x (zero Z_ops) = x) /\ (forall l : list (T Z_ops), nonzero Z_ops (count Z_ops l) = false -> l = [])
  /\ prog_wf Z_ops demo /\ Forall (ok Z_ops) [m23].
Proof. exact (conj Z_add_0_r (conj Z_count_faithful (conj demo_wf m23_ok))). Qed.
Print Assumptions refines_hypotheses_satisfiable.
Example refines_nonvacuous : exists env', run Z_ops z_trig repaired TF demo [m23] = Ok env'
  /\ nth 8 env' m23 = (zt [3] [2; 4; 8]%Z, bt [3] [true; true; true]).
Proof. exact demo_mean. Qed.
Print Assumptions refines_nonvacuous.

(* ---- rule 1: structural operations move values and validity together (whatever the switches) *)
Theorem structural_moves_together : forall (O : ops) (trig : uname -> T O -> T O) (c : cfg) (f : fw) (i : instr O) (r : nat)
  (p : list nat -> result (list plan)) (env outs : list (mt O)),
  plans_of O f i = Some (r, p) -> Forall (ok O) env -> exec O trig c f i env = Ok outs ->
  rexec O trig f i (map (pair_of O) env) = Ok (map (pair_of O) outs) /\ Forall (ok O) outs.
Proof. exact C10_RefBase.structural_moves_together. Qed.
Print Assumptions structural_moves_together.
Example structural_nonvacuous : exists r p outs, plans_of Z_ops TF (ISplit Z_ops 0 (inr [2; 1]) 1%Z) = Some (r, p) /\
  exec Z_ops z_trig pinned TF (ISplit Z_ops 0 (inr [2; 1]) 1%Z) env3 = Ok outs /\ length outs = 2.
Proof. exact ex_structural. Qed.
Print Assumptions structural_nonvacuous.
Theorem cat_stack_move_together : forall (O : ops) (trig : uname -> T O -> T O) (c : cfg) (f : fw) (i : instr O) (env outs : list (mt O)),
  (exists os d, i = ICat O os d /\ Forall (operand_wf O) os) \/ (exists rs d, i = IStack O rs d) ->
  Forall (ok O) env -> exec O trig c f i env = Ok outs ->
  rexec O trig f i (map (pair_of O) env) = Ok (map (pair_of O) outs) /\ Forall (ok O) outs.
Proof. exact C10_RefBase.cat_stack_move_together. Qed.
Print Assumptions cat_stack_move_together.
Example cat_nonvacuous : exists outs, exec Z_ops z_trig pinned Torch (ICat Z_ops [OReg Z_ops 0; OPlain Z_ops (zt [1; 3] [7; 8; 9]%Z)] 0%Z) env3 = Ok outs
  /\ length outs = 1.
Proof. exact ex_cat. Qed.
Print Assumptions cat_nonvacuous.

(* ---- rule 2: an elementwise result is valid exactly when all its operands are *)
Theorem elementwise_valid_iff_all : forall (O : ops) (trig : uname -> T O -> T O) (c : cfg) (f : fw) (op : aop) (r r2 : nat)
  (env : list (mt O)) (v : tensor (T O)) (k : tensor bool),
  exec O trig c f (IArith O op r (OReg O r2)) env = Ok [(v, k)] ->
  exists m m2, get env r = Ok m /\ get env r2 = Ok m2 /\
    forall j, j < prod (shape k) ->
      (nth j (data k) false = true <-> bget false (shape k) (snd m) j = true /\ bget false (shape k) (snd m2) j = true).
Proof. intros O trig c f op r r2 env v k H. unfold exec in H; cbn [plans_of] in H. destruct (arith_ok O f op (OReg O r2)); [|discriminate].
  binv H. binv H. binv H. binv H. injection H as <- <-. exists x, x0. split; [reflexivity|]. split; [reflexivity|].
  apply bzip_ok in E2. destruct E2 as [ns [_ ->]]. intros j Hj. cbn [shape tabulate] in *. rewrite tabulate_nth by exact Hj.
  apply andb_true_iff. Qed.
Print Assumptions elementwise_valid_iff_all.
Example elementwise_nonvacuous : exec Z_ops z_trig pinned TF (IArith Z_ops Add 1 (OReg Z_ops 2)) env3
  = Ok [(zt [2; 2] [4; 5; 10; 11]%Z, bt [2; 2] [true; false; false; false])].
Proof. exact ex_elementwise. Qed.
Print Assumptions elementwise_nonvacuous.
Theorem elementwise_plain_keeps_validity : forall (O : ops) (trig : uname -> T O -> T O) (f : fw) (op : aop) (r : nat) (t : tensor (T O))
  (env : list (mt O)) (v : tensor (T O)) (k : tensor bool),
  exec O trig repaired f (IArith O op r (OPlain O t)) env = Ok [(v, k)] ->
  exists m, get env r = Ok m /\ shape k = shape v /\ forall j, j < prod (shape k) -> nth j (data k) false = bget false (shape k) (snd m) j.
Proof. intros O trig f op r t env v k H. unfold exec in H; cbn [plans_of] in H. destruct (arith_ok O f op (OPlain O t)); [|discriminate].
  binv H. binv H. cbn [plain_bcast repaired] in H. binv H. injection H as <- <-. exists x. split; [reflexivity|].
  apply broadcast_tabulate in E1. subst x1. split; [reflexivity|]. intros j Hj. now apply tabulate_nth. Qed.
Print Assumptions elementwise_plain_keeps_validity.
Example plain_nonvacuous : exec Z_ops z_trig repaired Torch (IArith Z_ops Mul 2 (OPlain Z_ops (zt [3] [1; 2; 3]%Z))) env3
  = Ok [(zt [2; 3] [3; 6; 9; 6; 12; 18]%Z, bt [2; 3] [true; true; true; false; false; false])].
Proof. exact ex_plain. Qed.
Print Assumptions plain_nonvacuous.

(* ---- rule 3: a strict sum is valid exactly when every summed element is *)
Theorem strict_sum_valid_iff_all : forall (O : ops) (trig : uname -> T O -> T O) (c : cfg) (f : fw) (r : nat) (d : option Z)
  (env : list (mt O)) (v : tensor (T O)) (k : tensor bool),
  exec O trig c f (ISum O r d) env = Ok [(v, k)] ->
  exists m dd, get env r = Ok m /\ norm_opt d (length (shape (snd m))) = Ok dd /\
    forall j, nth j (data k) false = true <->
              (j < length (data k) /\ forall b, In b (nth j (data (slices_opt false dd (snd m))) []) -> b = true).
Proof. intros O trig c f r d env v k H. unfold exec in H; cbn [plans_of] in H. destruct (sum_ok f d); [|discriminate].
  binv H. binv H. binv H. injection H as <- <-. exists x, x1. split; [reflexivity|]. split; [exact E1|].
  intros j. unfold tmap; cbn [data]. rewrite map_length.
  destruct (PeanoNat.Nat.lt_ge_cases j (length (data (slices_opt false x1 (snd x))))) as [Hj|Hj].
  - rewrite (nth_map_lt _ _ j [] false Hj), forallb_forall. split; [intros H; split; [exact Hj | exact H] | intros [_ H]; exact H].
  - rewrite nth_overflow by (now rewrite map_length). split; [discriminate | intros [Hj' _]; now apply PeanoNat.Nat.lt_nge in Hj']. Qed.
Print Assumptions strict_sum_valid_iff_all.
Example strict_sum_nonvacuous : exec Z_ops z_trig pinned Torch (ISum Z_ops 1 (Some (-1)%Z)) env3 = Ok [(zt [2] [3; 9]%Z, bt [2] [false; true])].
Proof. exact ex_sum. Qed.
Print Assumptions strict_sum_nonvacuous.

(* ---- rule 4: statistics use only valid elements and are valid where at least one exists
        ([mean_ref] / [var_ref] are what mean / variance compute per slice, by step_refines_reference) *)
Theorem statistics_use_only_valid : forall (O : ops) (l l' : list (T O * bool)), valid_values O l = valid_values O l' ->
  mean_ref O l = mean_ref O l' /\ var_ref O l = var_ref O l'.
Proof. intros O l l' H. unfold mean_ref, var_ref. now rewrite H. Qed.
Print Assumptions statistics_use_only_valid.
Theorem statistics_valid_iff_exists : forall (O : ops),
  (forall l : list (T O), nonzero O (count O l) = false -> l = []) -> eqb O (zero O) (zero O) = true ->
  forall l : list (T O * bool),
  (snd (mean_ref O l) = true <-> exists v, In (v, true) l) /\ (snd (var_ref O l) = true <-> exists v, In (v, true) l).
Proof. exact C10_Stats.statistics_valid_iff_exists. Qed.
Print Assumptions statistics_valid_iff_exists.
Example statistics_nonvacuous :
  valid_values Z_ops [(1, true); (5, false); (3, true)]%Z = valid_values Z_ops [(1, true); (-7, false); (3, true)]%Z
  /\ mean_ref Z_ops [(1, true); (5, false); (3, true)]%Z = (2%Z, true) /\ var_ref Z_ops [(1, true); (5, false); (3, true)]%Z = (1%Z, true)
  /\ mean_ref Z_ops [(5, false)]%Z = (0%Z, false).
Proof. exact ex_statistics. Qed.
Print Assumptions statistics_nonvacuous.
Example statistics_hypotheses_satisfiable :
  (forall l : list (T Z_ops), nonzero Z_ops (count Z_ops l) = false -> l = []) /\ eqb Z_ops (zero Z_ops) (zero Z_ops) = true.
Proof. exact (conj Z_count_faithful Z_eqb_zero). Qed.
Print Assumptions statistics_hypotheses_satisfiable.

(* ---- the pinned position of the switches (DESIGN section 7, F16) violates the statement: four witnesses *)
Theorem aligned_refuted_matmul : exists f p env env' m,
  Forall (ok Z_ops) env /\ run Z_ops z_trig pinned f p env = Ok env' /\ In m env' /\ misaligned m.
Proof. exact C10_Examples.aligned_refuted_matmul. Qed.
Print Assumptions aligned_refuted_matmul.
Theorem aligned_refuted_plain_broadcast : exists f p env env' m,
  Forall (ok Z_ops) env /\ run Z_ops z_trig pinned f p env = Ok env' /\ In m env' /\ misaligned m.
Proof. exact C10_Examples.aligned_refuted_plain_broadcast. Qed.
Print Assumptions aligned_refuted_plain_broadcast.
Theorem aligned_refuted_unsqueeze : exists p env env' m,
  Forall (ok Z_ops) env /\ run Z_ops z_trig pinned Torch p env = Ok env' /\ In m env' /\ misaligned m.
Proof. exact C10_Examples.aligned_refuted_unsqueeze. Qed.
Print Assumptions aligned_refuted_unsqueeze.
Theorem refines_refuted_variance : exists p env env', Forall (ok Z_ops) env /\ run Z_ops z_trig pinned TF p env = Ok env' /\
  rrun Z_ops z_trig TF p (map (pair_of Z_ops) env) <> Ok (map (pair_of Z_ops) env').
Proof. exact C10_Examples.refines_refuted_variance. Qed.
Print Assumptions refines_refuted_variance.

(* ---- ties to the source (gen/Gen_C10.v is regenerated on every run) *)
Theorem cfg_torch_tie : gen_cfg_torch = repaired.
Proof. reflexivity. Qed.
Print Assumptions cfg_torch_tie.
Theorem cfg_tf_tie : gen_cfg_tf = repaired.
Proof. reflexivity. Qed.
Print Assumptions cfg_tf_tie.
Theorem torch_whitelist_tie : torch_whitelist = map uname_name all_unames.
Proof. reflexivity. Qed.
Print Assumptions torch_whitelist_tie.
Theorem tf_whitelist_tie : tf_whitelist = map uname_name all_unames.
Proof. reflexivity. Qed.
Print Assumptions tf_whitelist_tie.
Theorem torch_methods_tie : torch_methods = lit_torch_methods.
Proof. reflexivity. Qed.
Print Assumptions torch_methods_tie.
Theorem torch_static_tie : torch_static = lit_torch_static.
Proof. reflexivity. Qed.
Print Assumptions torch_static_tie.
Theorem tf_methods_tie : tf_methods = lit_tf_methods.
Proof. reflexivity. Qed.
Print Assumptions tf_methods_tie.
Theorem tf_static_tie : tf_static = lit_tf_static.
Proof. reflexivity. Qed.
Print Assumptions tf_static_tie.

(* class structure of the source: overrides and attribute hooks (proofs/ClassesTie.v) *)
Require Import ClassesTie.
Theorem C10_tie_class_attr_hooks : Gen_Classes.attr_hooks = exp_attr_hooks.
Proof. exact attr_hooks_tie. Qed.
Print Assumptions C10_tie_class_attr_hooks.

