(* C18: the invariant of the locked reader system, for any number of threads and any schedule.
   - every thread's locals are consistent with its own job (PcOk); a finished thread holds [result_alone];
   - a thread inside a critical section holds the lock - so at most one is inside - and the memo is in the partial
     state that its program counter describes (CritOk);
   - while the lock is free the memo is Good (empty, or a sound entry). *)
From Coq Require Import ZArith NArith List Lia Bool.
Require Import ListN Result Bytes Prog Codec PoseRead PoseReadLemmas C18_Threads C18_Bytes C18_Local.
Import ListNotations.
Open Scope N_scope.

Section Inv.
Variable pf : option N -> N.

Definition BufOk (j : job) (b : bytes) : Prop := exists er, lookup_buffer pf j er = Ok b.
Definition PendOk (j : job) (pd : pending) : Prop :=
  result_alone j = pd_res pd /\
  SoundKey (pd_s pd) (pd_e pd) (py_slice (pd_s pd) (pd_e pd) (pd_buf pd)) (pd_h pd).
Definition PcOk (j : job) (p : pc) : Prop :=
  match p with
  | P_pf => True
  | P_acq1 b | P_h1 b | P_h2 b | P_cs b _ | P_ce b _ _ | P_hd b | P_he b _ | P_rel_miss b => BufOk j b
  | P_rel_hit r | P_rel_set r | P_done r => r = result_alone j
  | P_acq2 pd | P_ws pd | P_we pd | P_wh pd | P_tau pd | P_scs pd | P_sce pd _ | P_swk pd _ _ => PendOk j pd
  end.
Definition in_crit (p : pc) : bool :=
  match p with P_pf | P_acq1 _ | P_acq2 _ | P_done _ => false | _ => true end.
Definition Hit (m : gmemo) (b : bytes) : Prop :=
  exists k, g_hash m = Some k /\ slice_opt (g_start m) (g_end m) b = k.
Definition Written (pd : pending) (m : gmemo) : Prop :=
  g_start m = Some (pd_s pd) /\ g_end m = Some (pd_e pd) /\ g_header m = Some (pd_h pd).
Definition CritOk (p : pc) (m : gmemo) : Prop :=
  match p with
  | P_h1 _ | P_h2 _ | P_rel_miss _ | P_rel_hit _ | P_rel_set _ => Good m
  | P_cs _ hv => Good m /\ hv = g_hash m
  | P_ce _ hv sv => Good m /\ hv = g_hash m /\ sv = g_start m
  | P_hd b => Good m /\ Hit m b
  | P_he b hd => Good m /\ Hit m b /\ g_header m = Some hd
  | P_ws _ => True
  | P_we pd => g_start m = Some (pd_s pd)
  | P_wh pd => g_start m = Some (pd_s pd) /\ g_end m = Some (pd_e pd)
  | P_tau pd | P_scs pd => Written pd m
  | P_sce pd sv => Written pd m /\ sv = Some (pd_s pd)
  | P_swk pd sv ev => Written pd m /\ sv = Some (pd_s pd) /\ ev = Some (pd_e pd)
  | _ => True
  end.

Lemma hit_result j m b hd : Good m -> Hit m b -> BufOk j b -> g_header m = Some hd ->
  match g_end m with Some e => ROk hd e | None => RFail end = result_alone j.
Proof.
  intros [Hn|(s & e & k & h & -> & Hk)] (k' & Hh & Hs) (er & Hb) Hhd.
  - rewrite Hn in Hh. discriminate.
  - cbn [g_hash g_start g_end g_header] in *. injection Hh as <-. injection Hhd as <-.
    symmetry. apply (lookup_parse pf j er b h e Hb). apply Hk. exact Hs.
Qed.

Definition ThreadOk (j : job) (me : nat) (p : pc) (s : shared) : Prop :=
  PcOk j p /\ (in_crit p = true -> sh_lock s = Some me /\ CritOk p (sh_memo s)).
Definition FreeOk (s : shared) : Prop := sh_lock s = None -> Good (sh_memo s).

(* what one step of thread [me] from [s] to [s'], [p'] has to establish; the last clause is what keeps the lock
   holder's [CritOk] true while the others step *)
Definition StepOk (j : job) (me : nat) (s s' : shared) (p' : pc) : Prop :=
  ThreadOk j me p' s' /\ FreeOk s' /\ forall o, sh_lock s = Some o -> o <> me -> s' = s.

(* a step ends holding the lock (which it held before, or found free) or outside the critical sections (having
   released the lock, or touched nothing) *)
Lemma ends_holding j me s s' p' : sh_lock s' = Some me -> sh_lock s = Some me \/ sh_lock s = None ->
  PcOk j p' -> CritOk p' (sh_memo s') -> StepOk j me s s' p'.
Proof.
  intros L' L Hp Hk. split; [split; [exact Hp|intros _; exact (conj L' Hk)]|]. split.
  - intros Hn. congruence.
  - intros o Lo Hne. destruct L; congruence.
Qed.
Lemma ends_outside j me s s' p' : in_crit p' = false -> sh_lock s = Some me \/ s' = s ->
  PcOk j p' -> FreeOk s' -> StepOk j me s s' p'.
Proof.
  intros Hc L Hp F'. split; [split; [exact Hp|congruence]|]. split; [exact F'|].
  intros o Lo Hne. destruct L; congruence.
Qed.

Lemma tstep_ok j me p s : FreeOk s -> ThreadOk j me p s ->
  let (s', p') := tstep pf true j me p s in StepOk j me s s' p'.
Proof.
  intros F [Hp Hc].
  destruct p; cbn [tstep miss]; cbn [PcOk in_crit] in Hp, Hc; try (destruct (Hc eq_refl) as [L Hk]; cbn [CritOk] in Hk).
  - (* P_pf *) destruct (lookup_buffer pf j (g_end (sh_memo s))) as [b|e] eqn:E; (apply ends_outside; [reflexivity|now right| |exact F]).
    + exists (g_end (sh_memo s)). exact E.
    + symmetry. exact (lookup_err pf j _ e E).
  - (* P_acq1 *) destruct (sh_lock s) eqn:L.
    + apply ends_outside; [reflexivity|now right|exact Hp|exact F].
    + apply ends_holding; [reflexivity|now right|exact Hp|exact (F L)].
  - (* P_h1 *) destruct (g_hash (sh_memo s)); (apply ends_holding; [exact L|now left|exact Hp|exact Hk]).
  - (* P_h2 *) apply ends_holding; [exact L|now left|exact Hp|exact (conj Hk eq_refl)].
  - (* P_cs *) destruct Hk as (G & ->). apply ends_holding; [exact L|now left|exact Hp|exact (conj G (conj eq_refl eq_refl))].
  - (* P_ce *) destruct Hk as (G & -> & ->).
    destruct (hash_eqb _ _) eqn:E; (apply ends_holding; [exact L|now left|exact Hp|]); [|exact G].
    split; [exact G|]. unfold hash_eqb in E. destruct (g_hash (sh_memo s)) as [x|] eqn:Hh; [|discriminate].
    apply bytes_eqb_eq in E. exists x. split; [exact Hh|now symmetry].
  - (* P_hd *) destruct Hk as (G & Hh).
    destruct (g_header (sh_memo s)) eqn:E; (apply ends_holding; [exact L|now left|exact Hp|]).
    + exact (conj G (conj Hh E)).
    + exact G.
  - (* P_he *) destruct Hk as (G & Hh & Hhd).
    apply ends_holding; [exact L|now left|exact (hit_result j _ _ _ G Hh Hp Hhd)|exact G].
  - (* P_rel_hit *) apply ends_outside; [reflexivity|now left|exact Hp|intros _; exact Hk].
  - (* P_rel_miss *) destruct Hp as (er & Hb). pose proof (own_parse pf j er buf Hb) as O.
    unfold after_miss. destruct (parse_own j buf) as [[[h e] b']|e];
      (apply ends_outside; [reflexivity|now left| |intros _; exact Hk]).
    + exact O.
    + now symmetry.
  - (* P_acq2 *) destruct (sh_lock s) eqn:L.
    + apply ends_outside; [reflexivity|now right|exact Hp|exact F].
    + apply ends_holding; [reflexivity|now right|exact Hp|exact I].
  - (* P_ws *) apply ends_holding; [exact L|now left|exact Hp|reflexivity].
  - (* P_we *) apply ends_holding; [exact L|now left|exact Hp|exact (conj Hk eq_refl)].
  - (* P_wh *) apply ends_holding; [exact L|now left|exact Hp|exact (conj (proj1 Hk) (conj (proj2 Hk) eq_refl))].
  - (* P_tau *) apply ends_holding; [exact L|now left|exact Hp|exact Hk].
  - (* P_scs *) apply ends_holding; [exact L|now left|exact Hp|exact (conj Hk (proj1 Hk))].
  - (* P_sce *) destruct Hk as (W & ->).
    apply ends_holding; [exact L|now left|exact Hp|exact (conj W (conj eq_refl (proj1 (proj2 W))))].
  - (* P_swk: the last store of set_cache: the entry is complete again, and it is the sound one the thread parsed *)
    destruct Hk as ((W1 & W2 & W3) & -> & ->). destruct Hp as (Hr & Hs).
    apply ends_holding; [exact L|now left|now symmetry|]. right.
    exists (pd_s pd), (pd_e pd), (py_slice (pd_s pd) (pd_e pd) (pd_buf pd)), (pd_h pd).
    split; [|exact Hs]. cbn [with_memo sh_memo]. unfold set_hash. rewrite W1, W2, W3. reflexivity.
  - (* P_rel_set *) apply ends_outside; [reflexivity|now left|exact Hp|intros _; exact Hk].
  - (* P_done *) apply ends_outside; [reflexivity|now right|exact Hp|exact F].
Qed.

Definition Inv (jobs : list job) (st : state) : Prop :=
  length (st_pcs st) = length jobs /\ FreeOk (st_sh st) /\
  forall t j p, nth_error jobs t = Some j -> nth_error (st_pcs st) t = Some p -> ThreadOk j t p (st_sh st).

Lemma upd_length {A} (l : list A) : forall i x, length (upd l i x) = length l.
Proof. induction l as [|y r IH]; intros [|k] x; cbn [upd length]; try reflexivity. now rewrite IH. Qed.
Lemma nth_upd_same {A} (l : list A) : forall i x y, nth_error l i = Some y -> nth_error (upd l i x) i = Some x.
Proof. induction l as [|z r IH]; intros [|k] x y H; cbn [upd nth_error] in *; try discriminate; [reflexivity|now apply IH with y]. Qed.
Lemma nth_upd_other {A} (l : list A) : forall i u x, i <> u -> nth_error (upd l i x) u = nth_error l u.
Proof.
  induction l as [|z r IH]; intros [|k] [|u] x H; cbn [upd nth_error]; try reflexivity; try congruence.
  apply IH. congruence.
Qed.

Lemma step_inv jobs t st : Inv jobs st -> Inv jobs (step pf true jobs t st).
Proof.
  intros H. pose proof H as (Hlen & F & Hth). unfold step.
  destruct (nth_error (st_pcs st) t) as [p|] eqn:Ep; [|exact H].
  destruct (nth_error jobs t) as [j|] eqn:Ej; [|exact H].
  pose proof (tstep_ok j t p _ F (Hth t j p Ej Ep)) as T.
  destruct (tstep pf true j t p (st_sh st)) as [s' p']. destruct T as (Hp' & F' & Hfr).
  unfold Inv. cbn [st_sh st_pcs]. split; [now rewrite upd_length|]. split; [exact F'|].
  intros u ju q Hju Hq. destruct (Nat.eq_dec t u) as [<-|Hne].
  - rewrite (nth_upd_same _ _ _ _ Ep) in Hq. injection Hq as <-. rewrite Ej in Hju. injection Hju as <-. exact Hp'.
  - rewrite nth_upd_other in Hq by exact Hne. destruct (Hth u ju q Hju Hq) as [Hq1 Hq2]. split; [exact Hq1|].
    intros Hc. destruct (Hq2 Hc) as [L K]. rewrite (Hfr u L) by congruence. split; assumption.
Qed.

Lemma run_inv jobs sched : forall st, Inv jobs st -> Inv jobs (run pf true jobs sched st).
Proof.
  unfold run. induction sched as [|t r IH]; intros st H; cbn [fold_left]; [exact H|]. apply IH. now apply step_inv.
Qed.

Lemma init_inv jobs m0 : Good m0 -> Inv jobs (init jobs m0).
Proof.
  intros G. unfold init, Inv. cbn [st_sh st_pcs]. split; [apply map_length|]. split; [intros _; exact G|].
  intros t j p _ H. rewrite nth_error_map in H. destruct (nth_error jobs t); [|discriminate]. injection H as <-.
  split; [exact I|discriminate].
Qed.

Theorem finished_isolated jobs m0 sched t j r : Good m0 ->
  nth_error jobs t = Some j ->
  result_of (run pf true jobs sched (init jobs m0)) t = Some r ->
  r = result_alone j.
Proof.
  intros G Hj Hr. pose proof (run_inv jobs sched _ (init_inv jobs m0 G)) as (_ & _ & Hth).
  unfold result_of in Hr. destruct (nth_error (st_pcs _) t) as [p|] eqn:Ep; [|discriminate].
  destruct p; try discriminate. injection Hr as <-. exact (proj1 (Hth t j _ Hj Ep)).
Qed.

Theorem isolated_locked jobs m0 sched : Good m0 ->
  let st := run pf true jobs sched (init jobs m0) in
  complete st = true ->
  forall t j, nth_error jobs t = Some j -> result_of st t = Some (result_alone j).
Proof.
  intros G st Hc t j Hj.
  pose proof (run_inv jobs sched _ (init_inv jobs m0 G)) as (Hlen & _). fold st in Hlen.
  destruct (nth_error (st_pcs st) t) as [p|] eqn:Ep.
  - pose proof (proj1 (forallb_forall _ _) Hc p (nth_error_In _ _ Ep)) as Hd. destruct p; try discriminate Hd.
    assert (Hr : result_of st t = Some r) by (unfold result_of; now rewrite Ep).
    rewrite Hr. f_equal. exact (finished_isolated jobs m0 sched t j r G Hj Hr).
  - apply nth_error_None in Ep. rewrite Hlen in Ep. apply nth_error_None in Ep. congruence.
Qed.
End Inv.
