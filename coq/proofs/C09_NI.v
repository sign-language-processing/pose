(* C09 - non-interference of the pose operations: bodies that agree on what is visible give results that agree on
   what is visible.  Generic in the numeric instance and in the external numerics.  Here: what [agree] means on
   tensors and bodies, the constructors, selection of points and frames, matmul, zero-filling.  C09_NI2.v:
   normalisation, focus, boxes, interpolation, round trip, representations.  C09_NI3.v: the TensorFlow normalisation. *)
From Coq Require Import List Arith Bool Lia.
Require Import ListFacts Tensor Num Result C09_Masked C09_Ops C09_Core.
Import ListNotations.

Section Agree.
Variable O : ops.
Notation T := (Num.T O).
Notation cell := (cell O).
Notation vis1 := (vis1 O).
Notation rd := (rd O).
Notation dcell := (dcell O).
Notation agree := (agree O).
Notation agree_l := (agree_l O).
Notation body := (body O).

Lemma agree_mkT s l l' : agree_l l l' -> agree (mkT s l) (mkT s l').
Proof. intros H. unfold C09_Masked.agree, visible, tmap; cbn [shape data]. now f_equal. Qed.
(* tensors that agree are one shape around two lists of cells that agree; bodies carry the same confidences besides *)
Lemma agree_inv a a' : agree a a' -> exists s l l', a = mkT s l /\ a' = mkT s l' /\ agree_l l l'.
Proof. destruct a as [s l], a' as [s' l']. unfold C09_Masked.agree, visible, tmap; cbn [shape data]. intros H.
  injection H as <- Hl. now exists s, l, l'. Qed.
Lemma agree_body_inv (b b' : body) : agree_body O b b' ->
  exists s l l' c, b = mkB (mkT s l) c /\ b' = mkB (mkT s l') c /\ agree_l l l'.
Proof. destruct b as [[s l] c], b' as [[s' l'] c']. unfold agree_body, visible_body, visible, tmap; cbn [bdat bconf shape data].
  intros H. injection H as <- Hl <-. now exists s, l, l', c. Qed.
Lemma agree_shape a a' : agree a a' -> shape a = shape a'.
Proof. intros H. now destruct (agree_inv _ _ H) as (s & l & l' & -> & -> & _). Qed.
Lemma agree_data a a' : agree a a' -> agree_l (data a) (data a').
Proof. intros H. now destruct (agree_inv _ _ H) as (s & l & l' & -> & -> & Hl). Qed.
Lemma agree_body_mkB d d' (c : tensor T) : agree d d' -> agree_body O (mkB d c) (mkB d' c).
Proof. intros H. unfold agree_body, visible_body; cbn [bdat bconf]. now f_equal. Qed.

Lemma reindex_agree ns f a a' : agree a a' -> agree (reindex dcell ns f a) (reindex dcell ns f a').
Proof. unfold C09_Masked.agree, visible. rewrite !reindex_map. now intros ->. Qed.
Lemma transpose_agree axes a a' : agree a a' -> agree (transpose dcell axes a) (transpose dcell axes a').
Proof. intros H. unfold transpose. rewrite (agree_shape _ _ H). now apply reindex_agree. Qed.
Lemma take0_agree idx a a' : agree a a' -> agree (take0 dcell idx a) (take0 dcell idx a').
Proof. intros H. unfold take0. rewrite (agree_shape _ _ H). now apply reindex_agree. Qed.
Lemma sel_points_agree axes idx a a' : agree a a' -> agree (sel_points dcell axes idx a) (sel_points dcell axes idx a').
Proof. intros H. unfold sel_points. now apply transpose_agree, take0_agree, transpose_agree. Qed.
Lemma point_block_agree a a' p : agree a a' -> agree_l (point_block O a p) (point_block O a' p).
Proof. intros H. unfold point_block. rewrite (agree_shape _ _ H). now apply gather_agree, agree_data, transpose_agree. Qed.
Lemma tmap_agree g a a' : VC1 O g -> agree a a' -> agree (tmap g a) (tmap g a').
Proof. intros Hg H. destruct (agree_inv _ _ H) as (s & l & l' & -> & -> & Hl). apply agree_mkT. now apply agree_l_map. Qed.

Lemma VC1_ormask z : VC1 O (fun x : cell => (fst x, snd x || z)).
Proof. apply VC1_strict. intros a M. cbn [snd]. now rewrite M. Qed.
Lemma np_ctor_agree d d' c : agree d d' -> agree_body O (np_ctor O d c) (np_ctor O d' c).
Proof. intros H. destruct (agree_inv _ _ H) as (s & l & l' & -> & -> & Hl). unfold np_ctor; cbn [shape data].
  rewrite <- (agree_l_len O _ _ Hl). apply agree_body_mkB, agree_mkT, agree_l_tab. intros k.
  apply (VC1_ormask _ _ _ (rd_vis O _ _ k Hl)). Qed.
(* Euclidean distance of two lists of D-vectors, as MaskedTensor computes it *)
Lemma t_dist_agree n D a a' b b' : agree_l a a' -> agree_l b b' ->
  agree_l (ew1 O (tun O (sqrt O)) (red_last O n D (tsum O) (ew1 O (tun O (sqr O)) (ew O (tbin O (sub O)) a b))))
          (ew1 O (tun O (sqrt O)) (red_last O n D (tsum O) (ew1 O (tun O (sqr O)) (ew O (tbin O (sub O)) a' b')))).
(* one [ni] lemma per combinator of the term, outside in: the depth of [auto] is the nesting of the term *)
Proof. auto 6 with ni nocore. Qed.
End Agree.
#[export] Hint Resolve agree_mkT agree_data agree_body_mkB transpose_agree take0_agree sel_points_agree point_block_agree
  tmap_agree np_ctor_agree t_dist_agree : ni.

Section NI.
Variable O : ops.
Notation T := (Num.T O).
Notation cell := (cell O).
Notation vis1 := (vis1 O).
Notation rd := (rd O).
Notation rdT := (rdT O).
Notation dcell := (dcell O).
Notation agree := (agree O).
Notation agree_l := (agree_l O).
Notation body := (body O).

(* two fillings of the missing slots of one pose agree, on every backend *)
Lemma same_pose_np raw raw' conf : same_pose O raw raw' conf ->
  agree_body O (np_ctor O (of_plain O raw) conf) (np_ctor O (of_plain O raw') conf).
Proof. intros [Hs [Hl Hv]]. unfold np_ctor, of_plain, tmap; cbn [shape data].
  rewrite !map_length, <- Hs, <- Hl. apply agree_body_mkB, agree_mkT, agree_l_tab_lt. intros k Hk.
  unfold C09_Masked.rd. rewrite !(nth_map_lt (plain O) _ k (zero O)) by lia. unfold plain; cbn [fst snd orb].
  apply vis1_eq; cbn [fst snd]. split; [reflexivity|]. intros Hz. apply Hv. exact Hz. Qed.
Lemma same_pose_t raw raw' conf : same_pose O raw raw' conf ->
  agree_body O (t_ctor_plain O raw conf) (t_ctor_plain O raw' conf).
Proof. intros [Hs [Hl Hv]]. unfold t_ctor_plain. rewrite <- Hs, <- Hl. apply agree_body_mkB, agree_mkT, agree_l_tab. intros k.
  apply vis1_eq; cbn [fst snd]. split; [reflexivity|]. intros Hz. apply Hv. exact Hz. Qed.

Definition vres (r : result body) : result (marr O * tensor T) := rmap (visible_body O) r.
Lemma vres_guard (c : bool) e x x' : agree_body O x x' -> vres (if c then Ok x else Err e) = vres (if c then Ok x' else Err e).
Proof. intros H. destruct c; [|reflexivity]. unfold vres; cbn [rmap]. now f_equal. Qed.

Lemma np_get_points_ni idx b b' : agree_body O b b' -> vres (np_get_points O idx b) = vres (np_get_points O idx b').
Proof. intros H. destruct (agree_body_inv O _ _ H) as (s & l & l' & c & -> & -> & Hl). unfold np_get_points; cbn [bdat bconf shape].
  apply vres_guard. auto with ni nocore. Qed.
Lemma t_get_points_ni idx b b' : agree_body O b b' -> vres (t_get_points O idx b) = vres (t_get_points O idx b').
Proof. intros H. destruct (agree_body_inv O _ _ H) as (s & l & l' & c & -> & -> & Hl). unfold t_get_points, t_ctor; cbn [bdat bconf shape].
  apply vres_guard. auto with ni nocore. Qed.
Lemma np_select_frames_ni idx b b' : agree_body O b b' -> vres (np_select_frames O idx b) = vres (np_select_frames O idx b').
Proof. intros H. destruct (agree_body_inv O _ _ H) as (s & l & l' & c & -> & -> & Hl). unfold np_select_frames; cbn [bdat bconf shape].
  apply vres_guard. auto with ni nocore. Qed.
Lemma t_select_frames_ni idx b b' : agree_body O b b' -> vres (t_select_frames O idx b) = vres (t_select_frames O idx b').
Proof. intros H. destruct (agree_body_inv O _ _ H) as (s & l & l' & c & -> & -> & Hl). unfold t_select_frames, t_ctor; cbn [bdat bconf shape].
  apply vres_guard. auto with ni nocore. Qed.
Lemma tf_select_frames_ni idx b b' : agree_body O b b' -> vres (tf_select_frames O idx b) = vres (tf_select_frames O idx b').
Proof. intros H. unfold tf_select_frames. destruct idx; [reflexivity|]. now apply t_select_frames_ni. Qed.
Lemma tf_get_points_ni ic idx b b' : agree_body O b b' -> vres (tf_get_points O ic idx b) = vres (tf_get_points O ic idx b').
Proof. intros H. unfold tf_get_points. destruct idx; [destruct ic; [now apply t_get_points_ni|reflexivity]|]. now apply t_get_points_ni. Qed.

Lemma madot_eq D E' M l l' : agree_l l l' -> madot O D E' M l = madot O D E' M l'.
Proof. intros H. unfold madot. rewrite (agree_l_len O _ _ H). apply tab_ext. intros k. f_equal.
  - f_equal. apply tab_ext. intros d. f_equal. apply (VI1_filled O). now apply rd_vis.
  - apply VIL_allmasked. now apply lane_last_agree. Qed.
(* Torch / TF: the product reads the stored values of every coordinate of the point, and the row is valid only if all are *)
Lemma tdot_agree D E' M l l' : agree_l l l' -> agree_l (tdot O D E' M l) (tdot O D E' M l').
Proof. intros H. unfold tdot. rewrite (agree_l_len O _ _ H). apply agree_l_tab. intros k.
  pose proof (lane_last_agree O D _ _ (k / E') H) as Hlane.
  apply vis1_eq; cbn [fst snd]. split; [now apply existsb_snd_agree|]. intros Hm. f_equal.
  pose proof (map_fst_agree O _ _ Hlane Hm) as Hf. unfold lane_last in Hf. rewrite !map_tab in Hf.
  unfold tab in *. revert Hf. generalize (seq 0 D). intros s Hf. induction s as [|d s IH]; [reflexivity|].
  cbn [map] in *. apply cons_inj in Hf. destruct Hf as [H1 H2]. rewrite H1. f_equal. now apply IH. Qed.

Lemma rd_tab n (f : nat -> cell) k : rd (tab n f) k = if Nat.ltb k n then f k else dcell.
Proof. unfold C09_Masked.rd, tab. destruct (Nat.ltb k n) eqn:Ek.
  - apply Nat.ltb_lt in Ek. rewrite (nth_indep _ dcell (f 0)) by (now rewrite map_length, seq_length).
    rewrite (map_nth f (seq 0 n) 0 k), seq_nth by exact Ek. reflexivity.
  - apply Nat.ltb_ge in Ek. rewrite nth_overflow by (now rewrite map_length, seq_length). reflexivity. Qed.

Lemma np_zero_filled_ni b b' : agree_body O b b' -> agree_body O (np_zero_filled O b) (np_zero_filled O b').
Proof. intros H. destruct (agree_body_inv O _ _ H) as (s & l & l' & c & -> & -> & Hl). unfold np_zero_filled; cbn [bdat bconf].
  assert (Hn : agree_body O (np_ctor O (mkT s l) c) (np_ctor O (mkT s l') c)) by auto with ni nocore.
  destruct (agree_body_inv O _ _ Hn) as (s1 & l1 & l1' & c1 & -> & -> & Hl1); cbn [bdat bconf].
  apply agree_body_mkB, tmap_agree; auto with ni nocore. Qed.
Lemma t_zero_filled_ni b b' : agree_body O b b' -> t_zero_filled O b = t_zero_filled O b'.
Proof. intros H. destruct (agree_body_inv O _ _ H) as (s & l & l' & c & -> & -> & Hl). unfold t_zero_filled, tmap; cbn [bdat shape data].
  f_equal. auto with ni nocore. Qed.
(* exactly zero at every missing slot *)
Lemma t_zero_fill_exact b k : snd (rd (data (bdat b)) k) = true -> k < length (data (bdat b)) ->
  rdT (data (t_zero_filled O b)) k = zero O.
Proof. intros Hm Hk. unfold t_zero_filled, tmap; cbn [data]. unfold C09_Masked.rdT, C09_Masked.rd in *.
  rewrite (nth_map_lt (tzero O) _ k dcell) by exact Hk. unfold tzero. now rewrite Hm. Qed.
(* no bound on k: beyond the data [rd] gives [dcell], which the map fixes *)
Lemma np_zero_fill_exact b k : snd (rd (data (bdat (np_zero_filled O b))) k) = true ->
  fst (rd (data (bdat (np_zero_filled O b))) k) = zero O.
Proof. unfold np_zero_filled, tmap; cbn [bdat data]. unfold C09_Masked.rd. set (g := fun x : cell => (filled O (zero O) x, snd x)).
  intros Hm. change dcell with (g dcell) in *. rewrite map_nth in *. unfold g in *; cbn [fst snd] in *. unfold filled. now rewrite Hm. Qed.

End NI.
