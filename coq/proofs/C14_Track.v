(* C14 - theorems about one track (one point of one person) over exact reals. *)
From Coq Require Import Reals List Arith Bool Lia Lra Sorted.
Require Import ListFacts Num RealFacts C14_Interp C14_Index C14_Grid C14_Lerp C14_Eval C14_Obs.
Import ListNotations.
Local Open Scope R_scope.

Definition observedR (row : list R) : bool := observed R_ops row.
Definition confR (row : list R) : R := conf_of R_ops row.
Definition t_old (F i : nat) : R := nth i (gridR F) 0.       (* normalised time of input frame i *)
Definition t_new (n j : nat) : R := nth j (gridR n) 0.       (* normalised time of output frame j *)
Definition track_out (sp : spline_t) (k : kind) (w F n : nat) (rows : list (list R)) : list (list R) :=
  interp_track R_ops sp k w (gridR F) (gridR n) rows.
Definition wf_rows (w F : nat) (rows : list (list R)) : Prop := length rows = F /\ Forall (fun r => length r = w) rows.

Lemma t_ends F n : (2 <= F)%nat -> (2 <= n)%nat ->
  t_new n 0 = t_old F 0 /\ t_new n (n - 1) = t_old F (F - 1) /\ t_new n 0 = 0 /\ t_new n (n - 1) = 1.
Proof. intros HF Hn. unfold t_new, t_old. rewrite !grid_first, !grid_last by lia. auto. Qed.
Lemma observedR_iff row : observedR row = true <-> confR row <> 0.
Proof. unfold observedR, observed, confR. rewrite negb_true_iff. apply Reqb_false. Qed.
Lemma zrow_conf w : confR (zrow w) = 0.
Proof. unfold confR, conf_of, zrow. induction w as [|w IH]; [reflexivity|].
  destruct w; [reflexivity|]. exact IH. Qed.
Lemma zrow_col w c : col c (zrow w) = 0.
Proof. unfold col, zrow. apply nth_repeat. Qed.

Section Compress.
Variables (w F : nat) (rows : list (list R)).
Hypothesis Hwf : wf_rows w F rows.
Local Notation obs := (compress R_ops (gridR F) rows).

Lemma combine_len : length (combine (gridR F) rows) = F.
Proof. destruct Hwf as [Hl _]. rewrite combine_length, grid_length, Hl. lia. Qed.
Lemma obs_sorted : StronglySorted Rlt (xs_of obs).
Proof. unfold xs_of, compress. apply StronglySorted_filter_fst.
  rewrite map_fst_combine by (rewrite grid_length; destruct Hwf; lia). apply grid_sorted. Qed.
Lemma obs_widths : widths w obs.
Proof. unfold widths, compress. apply Forall_forall. intros [x y] Hin.
  apply filter_In in Hin. destruct Hin as [Hin _]. apply in_combine_r in Hin.
  destruct Hwf as [_ Hw]. rewrite Forall_forall in Hw. apply Hw. exact Hin. Qed.
Lemma obs_of_frame i : (i < F)%nat -> observedR (nth i rows []) = true ->
  exists m, (m < length obs)%nat /\ nth m obs dflt = (t_old F i, nth i rows []).
Proof. intros Hi Ho.
  assert (Hin : In (t_old F i, nth i rows []) obs).
  { unfold compress. apply filter_In. split; [|exact Ho].
    unfold t_old. rewrite <- combine_nth by (rewrite grid_length; destruct Hwf; lia).
    apply nth_In. change (T R_ops) with R. rewrite combine_len. exact Hi. }
  destruct (In_nth _ _ dflt Hin) as [m [Hm E]]. exists m. split; assumption. Qed.
Lemma frame_of_obs m : (m < length obs)%nat ->
  exists i, (i < F)%nat /\ observedR (nth i rows []) = true /\ nth m obs dflt = (t_old F i, nth i rows []).
Proof. intros Hm. pose proof (nth_In obs dflt Hm) as Hin. unfold compress in Hin at 2. change (T R_ops) with R in *.
  apply filter_In in Hin. destruct Hin as [Hin Ho].
  destruct (In_nth _ _ (0, []) Hin) as [i [Hi E]]. rewrite combine_len in Hi.
  rewrite combine_nth in E by (rewrite grid_length; destruct Hwf; lia).
  exists i. split; [exact Hi|]. split.
  - rewrite <- E in Ho. exact Ho.
  - rewrite <- E. reflexivity. Qed.
Lemma obs_span m : (m < length obs)%nat -> first_x obs <= fst (nth m obs dflt) <= last_x obs.
Proof. intros Hm. unfold first_x, last_x. rewrite (xs_last obs). split; apply (xs_le obs obs_sorted); req; lia. Qed.
Lemma frame_in_span i : (i < F)%nat -> observedR (nth i rows []) = true -> first_x obs <= t_old F i <= last_x obs.
Proof. intros Hi Ho. destruct (obs_of_frame i Hi Ho) as [m [Hm E]].
  pose proof (obs_span m Hm) as H. rewrite E in H. exact H. Qed.
Lemma first_is_frame : (1 <= length obs)%nat -> exists i, (i < F)%nat /\ observedR (nth i rows []) = true /\ first_x obs = t_old F i.
Proof. intros H. destruct (frame_of_obs 0 ltac:(req; lia)) as [i [Hi [Ho E]]]. exists i. unfold first_x. req. rewrite E. auto. Qed.
Lemma last_is_frame : (1 <= length obs)%nat -> exists i, (i < F)%nat /\ observedR (nth i rows []) = true /\ last_x obs = t_old F i.
Proof. intros H. destruct (frame_of_obs (length obs - 1) ltac:(req; lia)) as [i [Hi [Ho E]]]. exists i.
  unfold last_x. rewrite (xs_last obs). req. rewrite E. auto. Qed.
Lemma no_obs_no_frame : length obs = 0%nat -> forall i, (i < F)%nat -> observedR (nth i rows []) = false.
Proof. intros H0 i Hi. destruct (observedR (nth i rows [])) eqn:E; [|reflexivity].
  destruct (obs_of_frame i Hi E) as [m [Hm _]]. req. lia. Qed.
End Compress.

Section Track.
Variable sp : spline_t.
Hypothesis Hshape : spline_shape sp.
Hypothesis Hnodes : spline_nodes sp.
Hypothesis Hpoly : spline_poly sp.
Variables (k : kind) (w F n : nat) (rows : list (list R)).
Hypothesis Hwf : wf_rows w F rows.
Local Notation obs := (compress R_ops (gridR F) rows).
Local Notation out := (track_out sp k w F n rows).
Local Notation Hs := (obs_sorted w F rows Hwf).
Local Notation Hw := (obs_widths w F rows Hwf).

Lemma new01 : forall j, (j < length (gridR n))%nat -> 0 <= nth j (gridR n) 0 <= 1.
Proof. intros j Hj. rewrite grid_length in Hj. apply grid_range. exact Hj. Qed.

Lemma track_length : length out = n.
Proof. unfold track_out, interp_track.
  etransitivity; [apply (interp_obs_length sp (gridR n) w k (grid_sorted n) obs Hs)|apply grid_length]. Qed.

Lemma out_nth j : (j < n)%nat -> (1 <= length obs)%nat ->
  nth j out [] = if in_span obs (t_new n j) then eval_f R_ops sp k obs (t_new n j) else zrow w.
Proof. intros Hj Hl.
  rewrite (nth_indep out [] (zrow w)) by (rewrite track_length; exact Hj).
  apply (interp_obs_nth sp (gridR n) w k (grid_sorted n) new01 obs Hs j Hl). rewrite grid_length. exact Hj. Qed.

Lemma out_nth_none j : (j < n)%nat -> length obs = 0%nat -> nth j out [] = zrow w.
Proof. intros Hj H0. rewrite (nth_indep out [] (zrow w)) by (rewrite track_length; exact Hj).
  unfold track_out, interp_track. destruct obs; [|cbn in H0; lia].
  cbn. apply nth_repeat. Qed.

Lemma out_width j : (j < n)%nat -> length (nth j out []) = w.
Proof. intros Hj. destruct (Nat.eq_dec (length obs) 0) as [H0|Hpos].
  - rewrite (out_nth_none j Hj H0). apply repeat_length.
  - rewrite out_nth by (try assumption; lia). destruct (in_span _ _); [|apply repeat_length].
    apply (eval_width sp Hshape obs w k Hs Hw). req. lia. Qed.

Lemma out_nth_between j i1 i2 : (j < n)%nat ->
  (i1 < F)%nat -> observedR (nth i1 rows []) = true -> t_old F i1 <= t_new n j ->
  (i2 < F)%nat -> observedR (nth i2 rows []) = true -> t_new n j <= t_old F i2 ->
  (1 <= length obs)%nat /\ first_x obs <= t_new n j <= last_x obs /\ nth j out [] = eval_f R_ops sp k obs (t_new n j).
Proof. intros Hj Hi1 Ho1 H1 Hi2 Ho2 H2.
  destruct (obs_of_frame w F rows Hwf i1 Hi1 Ho1) as [m1 [Hm1 _]].
  pose proof (frame_in_span w F rows Hwf i1 Hi1 Ho1) as S1.
  pose proof (frame_in_span w F rows Hwf i2 Hi2 Ho2) as S2.
  assert (Hl : (1 <= length obs)%nat) by (req; lia).
  assert (Hspan : first_x obs <= t_new n j <= last_x obs) by lra.
  split; [exact Hl|]. split; [exact Hspan|].
  rewrite out_nth by assumption. now rewrite (proj2 (in_span_iff obs _) Hspan). Qed.

(* SUPPORT: before the first and after the last observation - and for a point that was never observed -
   the result row is all zeros: confidence 0, hence missing *)
Theorem track_support j : (j < n)%nat ->
  (forall i, (i < F)%nat -> observedR (nth i rows []) = true -> t_new n j < t_old F i) \/
  (forall i, (i < F)%nat -> observedR (nth i rows []) = true -> t_old F i < t_new n j) ->
  nth j out [] = zrow w.
Proof. intros Hj Hside.
  destruct (Nat.eq_dec (length obs) 0) as [H0|Hpos]; [apply out_nth_none; assumption|].
  rewrite out_nth by (try assumption; lia).
  destruct (in_span obs (t_new n j)) eqn:E; [|reflexivity]. exfalso. apply in_span_iff in E.
  destruct Hside as [Hb|Ha].
  - destruct (first_is_frame w F rows Hwf ltac:(lia)) as [i [Hi [Ho Ef]]]. specialize (Hb i Hi Ho). lra.
  - destruct (last_is_frame w F rows Hwf ltac:(lia)) as [i [Hi [Ho El]]]. specialize (Ha i Hi Ho). lra. Qed.

(* NODES: a new sample that falls on an observed frame returns that frame's row (every kind) *)
Theorem track_node j i : (j < n)%nat -> (i < F)%nat -> observedR (nth i rows []) = true ->
  t_new n j = t_old F i -> nth j out [] = nth i rows [].
Proof. intros Hj Hi Ho Et.
  destruct (out_nth_between j i i Hj Hi Ho ltac:(lra) Hi Ho ltac:(lra)) as [Hl [_ ->]].
  destruct (obs_of_frame w F rows Hwf i Hi Ho) as [m [Hm Em]].
  rewrite Et. replace (t_old F i) with (fst (nth m obs dflt)) by (rewrite Em; reflexivity).
  req. rewrite (eval_node sp Hnodes obs w k Hs Hw Hl m Hm), Em. reflexivity. Qed.

(* AFFINE: a column that is affine in time on the observed frames is reproduced exactly, by every kind,
   wherever the new sample lies between two observations *)
Theorem track_affine c a b j i1 i2 : (c < w)%nat -> (j < n)%nat ->
  (forall i, (i < F)%nat -> observedR (nth i rows []) = true -> col c (nth i rows []) = a * t_old F i + b) ->
  (i1 < F)%nat -> observedR (nth i1 rows []) = true -> t_old F i1 <= t_new n j ->
  (i2 < F)%nat -> observedR (nth i2 rows []) = true -> t_new n j <= t_old F i2 ->
  col c (nth j out []) = a * t_new n j + b.
Proof. intros Hc Hj Haff Hi1 Ho1 H1 Hi2 Ho2 H2.
  destruct (out_nth_between j i1 i2 Hj Hi1 Ho1 H1 Hi2 Ho2 H2) as [Hl [Hspan ->]].
  apply (eval_affine sp Hpoly obs w k Hs Hw Hl); [exact Hc| |exact Hspan].
  intros m Hm. destruct (frame_of_obs w F rows Hwf m Hm) as [i [Hi [Ho E]]]. req. rewrite E. cbn [fst snd]. apply Haff; assumption. Qed.

(* LINEAR: with kind = "linear" every column (coordinates and confidence) stays within the range of the two
   neighbouring observations *)
Theorem track_linear_in_range c j i1' i2' : k = Linear -> (c < w)%nat -> (j < n)%nat ->
  (i1' < F)%nat -> observedR (nth i1' rows []) = true -> t_old F i1' <= t_new n j ->
  (i2' < F)%nat -> observedR (nth i2' rows []) = true -> t_new n j <= t_old F i2' ->
  exists i1 i2, (i1 < F)%nat /\ (i2 < F)%nat /\
    observedR (nth i1 rows []) = true /\ observedR (nth i2 rows []) = true /\
    (forall i, (i1 < i < i2)%nat -> observedR (nth i rows []) = false) /\
    t_old F i1 <= t_new n j <= t_old F i2 /\
    Rmin (col c (nth i1 rows [])) (col c (nth i2 rows [])) <= col c (nth j out [])
      <= Rmax (col c (nth i1 rows [])) (col c (nth i2 rows [])).
Proof. intros Hk Hc Hj Hi1 Ho1 H1 Hi2 Ho2 H2.
  destruct (out_nth_between j i1' i2' Hj Hi1 Ho1 H1 Hi2 Ho2 H2) as [Hl [Hspan ->]].
  destruct (eval_linear_between sp obs w k Hs Hw Hl c (t_new n j) Hk Hc Hspan) as [m [m' [Hmm [Hm' [Hr Hb]]]]].
  destruct (frame_of_obs w F rows Hwf m ltac:(req; lia)) as [ia [Hia [Hoa Ea]]].
  destruct (frame_of_obs w F rows Hwf m' Hm') as [ib [Hib [Hob Eb]]].
  req. rewrite Ea, Eb in Hr, Hb. cbn [fst snd] in Hr, Hb.
  exists ia, ib. repeat split; try assumption; try lra.
  (* an observed frame strictly between them would be an observation strictly between m and m' <= S m *)
  intros i Hbetween. destruct (observedR (nth i rows [])) eqn:Eo; [|reflexivity]. exfalso.
  destruct (obs_of_frame w F rows Hwf i ltac:(lia) Eo) as [m0 [Hm0 Em0]].
  assert (Ha : t_old F ia < t_old F i) by (apply grid_incr; lia).
  assert (Hb' : t_old F i < t_old F ib) by (apply grid_incr; lia).
  assert (Hlt1 : (m < m0)%nat) by (apply (xs_lt_inv obs Hs); req; [lia|lia|rewrite Ea, Em0; exact Ha]).
  assert (Hlt2 : (m0 < m')%nat) by (apply (xs_lt_inv obs Hs); req; [lia|lia|rewrite Eb, Em0; exact Hb']).
  lia. Qed.
End Track.
