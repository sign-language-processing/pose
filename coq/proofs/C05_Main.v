(* C05: parsePose on a file written by Pose.write, against Pose.read of the same bytes. *)
From Coq Require Import ZArith NArith List Lia ZifyBool ZifyN ZifyNat Bool Arith.
Require Import ListN Result Bytes Utf8 Utf8S F32 Prog Tensor Codec ProgLemmas CodecRT
  C05_JsParser C05_Spec C05_View C05_Lemmas C05_Header C05_HeaderView C05_Body C05_Index C05_Cells.
Import ListNotations.
Open Scope nat_scope.

Lemma js_dispatch_words :
  js_version_class 0 = V00 /\ js_version_class 2147483648 = V00 /\ js_version_class v01_word = V01 /\
  js_version_class version_word = V02 /\
  version_class 0 = V00 /\ version_class 2147483648 = V00 /\ version_class v01_word = V01 /\ version_class version_word = V02.
Proof. vm_compute. repeat split; reflexivity. Qed.
Lemma js_class_v00 : js_version_class 0 = V00.
Proof. apply js_dispatch_words. Qed.
Lemma js_class_v01 : js_version_class v01_word = V01.
Proof. apply js_dispatch_words. Qed.
Lemma js_class_v02 : js_version_class version_word = V02.
Proof. apply js_dispatch_words. Qed.

Lemma canon_header_of p : canon_header p = header_of (w_dims p) (w_comps p).
Proof. unfold canon_header, header_of. destruct (w_dims p) as [[w h] d]. reflexivity. Qed.

Definition jbody_of (p : wpose) (F P T D : N) : jbody :=
  {| jb_info := info_obj_v02 (b_fps (canon_body p)) F P;
     jb_frames := Z.of_N F; jb_people := Z.of_N P; jb_points := Z.of_N T; jb_dims := Z.of_N D;
     jb_data := b_data (canon_body p); jb_conf := b_conf (canon_body p) |}.

Theorem js_parse_v02 p bs F P T D : write_pose p = Ok bs -> wf_arrays p -> w_shape p = [F; P; T; D]%N ->
  Forall plain_format (w_comps p) ->
  exists h, write_header (w_dims p) (w_comps p) = Ok h /\
  parse_pose bs = Some {| jp_header := js_header_obj (canon_header p) (lenN h);
                          jp_info := info_obj_v02 (b_fps (canon_body p)) F P;
                          jp_nframes := Z.of_N F;
                          jp_frame := js_frame_rep (comps_of p) (jbody_of p F P T D) |}.
Proof.
  intros H Hwf Hs Hplain.
  destruct (js_body_v02 p bs F P T D H Hwf Hs Hplain) as [h [b [Hh [Ebs Hb]]]]. exists h. split; [exact Hh|].
  unfold parse_pose. rewrite Ebs at 1. rewrite (js_header_obj_eq _ _ _ b Hh). rewrite <- canon_header_of.
  rewrite header_obj_version, header_comps_obj, header_obj_length.
  replace (h_version (canon_header p)) with version_word by (now rewrite canon_header_of).
  rewrite js_class_v02.
  replace (map jcomp_of_comp (h_comps (canon_header p))) with (comps_of p)
    by (unfold comps_of; rewrite canon_header_of; reflexivity).
  rewrite Hb. reflexivity.
Qed.

Lemma py_read p bs : write_pose p = Ok bs -> wf_arrays p -> (1 <= nth 3 (w_shape p) 0)%N ->
  run_plain full_read_prog {| pbuf := bs; poff := 0 |} = Ok (canon p, {| pbuf := bs; poff := lenN bs |}).
Proof. intros H Hwf HD. exact (RTp_run _ _ _ (full_read_rt p bs H Hwf HD)). Qed.

Definition nat_shape (b : body) : list nat := map N.to_nat (b_shape b).
Definition py_data (b : body) : tensor N := mkT (nat_shape b) (b_data b).
Definition py_conf (b : body) : tensor N := mkT (firstn 3 (nat_shape b)) (b_conf b).

(* parsePose against Pose.read, every cell.  [full_read_prog] is the Python reader (CodecRT.full_read_rt: it returns
   [canon p]); cells are addressed as an application does: frames[i].people[j][component name][l][letter]. *)
Theorem js_index_eq p bs : write_pose p = Ok bs -> wf_arrays p -> (1 <= nth 3 (w_shape p) 0)%N ->
  Forall wcomp_plain (w_comps p) ->
  exists py jp,
    run_plain full_read_prog {| pbuf := bs; poff := 0 |} = Ok (py, {| pbuf := bs; poff := lenN bs |}) /\
    parse_pose bs = Some jp /\
    forall F P T D, nat_shape (p_body py) = [F; P; T; D] ->
    forall i j n l c, i < F -> j < P -> nth_error (h_comps (p_header py)) n = Some c -> l < length (c_points c) ->
      ~ In (c_name c) (map c_name (skipn (S n) (h_comps (p_header py)))) ->
      let t := point_offset (h_comps (p_header py)) n + l in
      js_cell (jp_frame jp (Z.of_nat i)) j (c_name c) l 67 = Some (VF32 (tget 0%N (py_conf (p_body py)) [i; j; t])) /\
      forall d x, nth_error (c_format c) d = Some x -> x <> 67%N -> coord_index (c_format c) d < D -> ~ In x (skipn (S d) (c_format c)) ->
        js_cell (jp_frame jp (Z.of_nat i)) j (c_name c) l x = Some (VF32 (tget 0%N (py_data (p_body py)) [i; j; t; coord_index (c_format c) d])).
Proof.
  intros H Hwf HD Hplain.
  destruct (write_pose_ok _ _ H) as [F0 [P0 [T0 [D0 [h0 [b0 [Hs [Hcs [Hnd [Htp [Hh0 [Hb0 Ebs]]]]]]]]]]]].
  destruct (js_parse_v02 p bs F0 P0 T0 D0 H Hwf Hs (plain_formats _ Hplain)) as [h [Hh Hparse]].
  exists (canon p). eexists. split; [exact (py_read p bs H Hwf HD)|]. split; [exact Hparse|].
  cbn [jp_frame p_body p_header canon].
  intros F P T D Hshape.
  unfold py_conf, py_data. rewrite Hshape. cbn [firstn].
  unfold nat_shape, canon_body in Hshape. cbn [b_shape] in Hshape. rewrite Hs in Hshape. cbn [map] in Hshape.
  injection Hshape as <- <- <- <-.
  destruct Hwf as [Hld Hlc]. rewrite Hs in Hld. rewrite Hcs in Hlc. cbn [prodN fold_right] in Hld, Hlc.
  unfold comps_of. rewrite canon_header_of. cbn [header_of header_of_v h_comps].
  apply (js_cells_eq (map canon_comp (w_comps p)) F0 P0 T0 D0).
  - exact (plain_no_bom _ Hplain).
  - now rewrite sum_points_canon.
  - cbn [canon_body b_data]. rewrite lenN_map. lia.
  - cbn [canon_body b_conf]. rewrite lenN_map. lia.
Qed.
