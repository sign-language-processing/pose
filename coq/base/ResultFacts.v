(* Inversion of Ok and rbind, and rmapM: against Forall2, on a function that never fails, up to pointwise equality. *)
From Coq Require Import List.
Require Import Result.
Import ListNotations.

Lemma Ok_inj {A} (a b : A) : @Ok A a = Ok b -> a = b.
Proof. now intros [= ->]. Qed.
Lemma rbind_ok {A B} (r : result A) (f : A -> result B) b : rbind r f = Ok b -> exists a, r = Ok a /\ f a = Ok b.
Proof. destruct r as [a|e]; cbn; [eauto|discriminate]. Qed.

Lemma rmapM_Forall2 {A B} (f : A -> result B) l : forall r, rmapM f l = Ok r -> Forall2 (fun a b => f a = Ok b) l r.
Proof. induction l as [|a l IH]; intros r; cbn [rmapM]; [intros [= <-]; constructor|].
  destruct (f a) as [y|] eqn:E; cbn [rbind]; [|discriminate].
  destruct (rmapM f l) as [ys|]; cbn [rbind]; [|discriminate]. intros [= <-]. constructor; [exact E|now apply IH]. Qed.
Lemma rmapM_map {A B} (f : A -> result B) (g : A -> B) l : (forall x, In x l -> f x = Ok (g x)) -> rmapM f l = Ok (map g l).
Proof. induction l as [|a l IH]; intros H; cbn [rmapM map]; [reflexivity|].
  rewrite (H a (or_introl eq_refl)), IH by (intros x Hx; apply H; now right). reflexivity. Qed.
Lemma rmapM_ext {A B} (f g : A -> result B) l : (forall x, f x = g x) -> rmapM f l = rmapM g l.
Proof. intros H. induction l as [|x l IH]; [reflexivity|]. cbn [rmapM]. now rewrite H, IH. Qed.
