(* C10 - an exact numeric instance (integers) for non-vacuity examples, and the witnesses that refute the
   statement for the [pinned] position of the switches (DESIGN section 7, F16); each is replayed on the implementation
   (corpus/C10/f16[a-d]_*.json). *)
From Coq Require Import List Arith ZArith Bool Lia.
Require Import Result Tensor Num C10_Tensor C10_Masked C10_Aligned C10_RefBase C10_Refines.
Import ListNotations.

Definition Z_ops : ops :=
  {| T := Z; zero := 0%Z; one := 1%Z; add := Z.add; sub := Z.sub; mul := Z.mul; div := Z.div; opp := Z.opp;
     sqrt := Z.sqrt; abs := Z.abs; leb := Z.leb; ltb := Z.ltb; eqb := Z.eqb; of_Z := fun z => z |}.
Definition z_trig (u : uname) (x : Z) : Z := x.

Lemma Z_add_0_r : forall x : T Z_ops, add Z_ops x (zero Z_ops) = x.
Proof. intros x. cbn. apply Z.add_0_r. Qed.
Lemma Z_fold_count (l : list Z) acc : fold_left Z.add (map (fun _ => 1%Z) l) acc = (acc + Z.of_nat (length l))%Z.
Proof. revert acc. induction l as [|x l IH]; intros acc; cbn [map fold_left length]; [lia|]. rewrite IH. lia. Qed.
Lemma Z_count_faithful : forall l : list (T Z_ops), nonzero Z_ops (count Z_ops l) = false -> l = [].
Proof. intros l. unfold nonzero, count, fsum; cbn [add zero one eqb Z_ops T]. rewrite Z_fold_count.
  destruct l as [|x l]; [reflexivity|]. cbn [length]. intros H. apply negb_false_iff, Z.eqb_eq in H. lia. Qed.
Lemma Z_eqb_zero : eqb Z_ops (zero Z_ops) (zero Z_ops) = true.
Proof. reflexivity. Qed.

Definition zt (s : list nat) (l : list Z) : tensor Z := mkT s l.
Definition bt (s : list nat) (l : list bool) : tensor bool := mkT s l.
Definition m23 : mt Z_ops := (zt [2; 3] [1; 2; 3; 4; 5; 6]%Z, bt [2; 3] [true; false; true; true; true; false]).
Definition m33 : mt Z_ops := (zt [3; 3] [0; 0; 0; 3; 3; 3; 6; 6; 6]%Z, bt [3; 3] [true; true; true; true; true; true; true; true; true]).
Definition ones32 : tensor Z := zt [3; 2] [1; 1; 1; 1; 1; 1]%Z.

(* a program touching every rule: matmul (non-square), split, arithmetic, cat, strict sum, mean, variance, zero-fill *)
Definition demo : list (instr Z_ops) :=
  [ IMatmul Z_ops 0 ones32;                         (* 1 : (2,2) *)
    ISplit Z_ops 0 (inr [2; 1]) 1;                     (* 2 : (2,2)   3 : (2,1) *)
    IArith Z_ops Add 2 (OReg Z_ops 3);              (* 4 : (2,2) broadcast *)
    IArith Z_ops Mul 3 (OPlain Z_ops (zt [3] [1; 2; 3]%Z));   (* 5 : (2,3) value and mask broadcast *)
    ICat Z_ops [OReg Z_ops 0; OPlain Z_ops (zt [1; 3] [7; 8; 9]%Z)] 0;  (* 6 : (3,3) *)
    ISum Z_ops 6 (Some (-1)%Z);                     (* 7 : (3) *)
    IStat Z_ops Mean 6 (Some 1%Z);                  (* 8 *)
    IStat Z_ops Var 6 (Some 1%Z);                   (* 9 *)
    IZeroFill Z_ops 0 ].                            (* 10 *)
Lemma demo_wf : prog_wf Z_ops demo.
Proof. repeat constructor. Qed.
Lemma m23_ok : Forall (ok Z_ops) [m23].
Proof. repeat constructor. Qed.
(* one evaluation of the whole program serves both examples.
   mean over the valid elements only: rows (1,_,3) (4,5,_) (7,8,9) -> 2, 4 (integer division), 8; all valid *)
Lemma demo_env : exists env', run Z_ops z_trig repaired TF demo [m23] = Ok env' /\ length env' = 11
  /\ nth 8 env' m23 = (zt [3] [2; 4; 8]%Z, bt [3] [true; true; true]).
Proof. eexists. split; [vm_compute; reflexivity | split; [reflexivity | vm_compute; reflexivity]]. Qed.
Example demo_runs : exists env', run Z_ops z_trig repaired TF demo [m23] = Ok env' /\ length env' = 11.
Proof. destruct demo_env as [env' [H [L _]]]. exists env'. split; assumption. Qed.
Example demo_torch_prefix_runs : exists env', run Z_ops z_trig repaired Torch (firstn 6 demo) [m23] = Ok env' /\ length env' = 8.
Proof. eexists. split; [vm_compute; reflexivity | reflexivity]. Qed.
Example demo_mean : exists env', run Z_ops z_trig repaired TF demo [m23] = Ok env'
  /\ nth 8 env' m23 = (zt [3] [2; 4; 8]%Z, bt [3] [true; true; true]).
Proof. destruct demo_env as [env' [H [_ M]]]. exists env'. split; assumption. Qed.

(* with the switches at [pinned] the statement fails *)
Definition misaligned (m : mt Z_ops) : Prop := shape (fst m) <> shape (snd m).
(* (a) non-square matmul: values (2,2), mask still (2,3) *)
Theorem aligned_refuted_matmul : exists f p env env' m, Forall (ok Z_ops) env /\ run Z_ops z_trig pinned f p env = Ok env' /\ In m env' /\ misaligned m.
Proof. exists Torch, [IMatmul Z_ops 0 ones32], [m23]. eexists. eexists. split; [exact m23_ok|]. split; [vm_compute; reflexivity|].
  split; [right; left; reflexivity|]. unfold misaligned; cbn. discriminate. Qed.
(* (b) arithmetic with a plain tensor that broadcasts the value: (3,) + (2,3) -> values (2,3), mask (3,) *)
Definition m3 : mt Z_ops := (zt [3] [1; 2; 3]%Z, bt [3] [true; false; true]).
Theorem aligned_refuted_plain_broadcast : exists f p env env' m, Forall (ok Z_ops) env /\ run Z_ops z_trig pinned f p env = Ok env' /\ In m env' /\ misaligned m.
Proof. exists TF, [IArith Z_ops Add 0 (OPlain Z_ops (zt [2; 3] [1; 1; 1; 1; 1; 1]%Z))], [m3]. eexists. eexists.
  split; [repeat constructor|]. split; [vm_compute; reflexivity|]. split; [right; left; reflexivity|]. unfold misaligned; cbn. discriminate. Qed.
(* (c) MaskedTorch.unsqueeze through the white-list: values (1,2,3), mask (2,3) *)
Theorem aligned_refuted_unsqueeze : exists p env env' m, Forall (ok Z_ops) env /\ run Z_ops z_trig pinned Torch p env = Ok env' /\ In m env' /\ misaligned m.
Proof. exists [IUnsqueeze Z_ops 0 0%Z], [m23]. eexists. eexists. split; [exact m23_ok|]. split; [vm_compute; reflexivity|].
  split; [right; left; reflexivity|]. unfold misaligned; cbn. discriminate. Qed.
(* (d) TF variance along axis 1 of a square tensor: aligned, but not what the reference computes (15, 6, 15 instead of 0, 0, 0) *)
Theorem refines_refuted_variance : exists p env env', Forall (ok Z_ops) env /\ run Z_ops z_trig pinned TF p env = Ok env' /\
  rrun Z_ops z_trig TF p (map (pair_of Z_ops) env) <> Ok (map (pair_of Z_ops) env').
Proof. exists [IStat Z_ops Var 0 (Some 1%Z)], [m33]. eexists. split; [repeat constructor|]. split; [vm_compute; reflexivity|].
  vm_compute. discriminate. Qed.
(* programs (d) and (a) with the switches at [repaired] *)
Example repaired_variance : run Z_ops z_trig repaired TF [IStat Z_ops Var 0 (Some 1%Z)] [m33]
  = Ok [m33; (zt [3] [0; 0; 0]%Z, bt [3] [true; true; true])].
Proof. vm_compute. reflexivity. Qed.
Example repaired_matmul : run Z_ops z_trig repaired Torch [IMatmul Z_ops 0 ones32] [m23]
  = Ok [m23; (zt [2; 2] [6; 6; 15; 15]%Z, bt [2; 2] [false; false; false; false])].
Proof. vm_compute. reflexivity. Qed.

(* one concrete instance per rule lemma (their hypotheses are satisfiable by non-trivial values) *)
Definition env3 : list (mt Z_ops) :=
  [m23; (zt [2; 2] [1; 2; 4; 5]%Z, bt [2; 2] [true; false; true; true]); (zt [2; 1] [3; 6]%Z, bt [2; 1] [true; false])].
Lemma env3_ok : Forall (ok Z_ops) env3.
Proof. repeat constructor. Qed.
Example ex_structural : exists r p outs, plans_of Z_ops TF (ISplit Z_ops 0 (inr [2; 1]) 1%Z) = Some (r, p) /\
  exec Z_ops z_trig pinned TF (ISplit Z_ops 0 (inr [2; 1]) 1%Z) env3 = Ok outs /\ length outs = 2.
Proof. eexists. eexists. eexists. split; [reflexivity|]. split; [vm_compute; reflexivity | reflexivity]. Qed.
Example ex_cat : exists outs, exec Z_ops z_trig pinned Torch (ICat Z_ops [OReg Z_ops 0; OPlain Z_ops (zt [1; 3] [7; 8; 9]%Z)] 0%Z) env3 = Ok outs /\ length outs = 1.
Proof. eexists. split; [vm_compute; reflexivity | reflexivity]. Qed.
Example ex_elementwise : exec Z_ops z_trig pinned TF (IArith Z_ops Add 1 (OReg Z_ops 2)) env3
  = Ok [(zt [2; 2] [4; 5; 10; 11]%Z, bt [2; 2] [true; false; false; false])].
Proof. vm_compute. reflexivity. Qed.
Example ex_plain : exec Z_ops z_trig repaired Torch (IArith Z_ops Mul 2 (OPlain Z_ops (zt [3] [1; 2; 3]%Z))) env3
  = Ok [(zt [2; 3] [3; 6; 9; 6; 12; 18]%Z, bt [2; 3] [true; true; true; false; false; false])].
Proof. vm_compute. reflexivity. Qed.
Example ex_sum : exec Z_ops z_trig pinned Torch (ISum Z_ops 1 (Some (-1)%Z)) env3 = Ok [(zt [2] [3; 9]%Z, bt [2] [false; true])].
Proof. vm_compute. reflexivity. Qed.
Example ex_statistics : valid_values Z_ops [(1, true); (5, false); (3, true)]%Z = valid_values Z_ops [(1, true); (-7, false); (3, true)]%Z
  /\ mean_ref Z_ops [(1, true); (5, false); (3, true)]%Z = (2%Z, true) /\ var_ref Z_ops [(1, true); (5, false); (3, true)]%Z = (1%Z, true)
  /\ mean_ref Z_ops [(5, false)]%Z = (0%Z, false).
Proof. repeat split. Qed.
