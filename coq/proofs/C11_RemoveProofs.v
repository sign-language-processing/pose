(* C11 - remove_components is the selection of the complement; it is defined for every request. *)
From Coq Require Import List Arith Bool NArith ZArith Lia.
Require Import ListFacts Result Tensor C11_Str C11_Select C11_Helpers C11_ListLemmas C11_TensorLemmas C11_SelectProofs.
Import ListNotations.
Open Scope str_scope.
Open Scope list_scope.

Definition survives (R : list str) (pts : points_dict) (cn : str * str) : bool :=
  negb (mem (fst cn) R) && negb (truthy pts && mem (snd cn) (dict_get_nil pts (fst cn))).
Definition remaining_points (pts : points_dict) (c : component) : list str :=
  if truthy pts then filter (fun p => negb (mem p (dict_get_nil pts (c_name c)))) (c_points c) else c_points c.
Definition kept_components (R : list str) (cs : list component) : list component :=
  filter (fun c => negb (mem (c_name c) R)) cs.

Lemma remove_request_eq cs R pts : remove_request cs R pts =
  (map c_name (kept_components R cs), map (fun c => (c_name c, remaining_points pts c)) (kept_components R cs)).
Proof. reflexivity. Qed.
Theorem remove_is_complement_v tfe cs b R pts :
  remove_components_v tfe cs b R pts =
  get_components_v tfe cs b (map c_name (kept_components R cs))
                   (Some (map (fun c => (c_name c, remaining_points pts c)) (kept_components R cs))).
Proof. reflexivity. Qed.

Lemma nodup_name_inj cs c1 c2 : NoDup (map c_name cs) -> In c1 cs -> In c2 cs -> c_name c1 = c_name c2 -> c1 = c2.
Proof. induction cs as [|c r IH]; intros Hn H1 H2 E; [destruct H1|]. cbn [map] in Hn. inversion Hn as [|? ? Hc Hr]; subst.
  destruct H1 as [->|H1], H2 as [->|H2]; [reflexivity| | |now apply IH].
  - exfalso. apply Hc. rewrite E. now apply in_map.
  - exfalso. apply Hc. rewrite <- E. now apply in_map. Qed.

Lemma remaining_flat R pts cs :
  flat_map (fun c => map (pair (c_name c)) (remaining_points pts c)) (kept_components R cs) = filter (survives R pts) (flat_names cs).
Proof. induction cs as [|c r IH]; [reflexivity|]. rewrite flat_names_cons, filter_app, <- map_filter_comm. unfold kept_components in *.
  cbn [filter]. destruct (mem (c_name c) R) eqn:Em; cbn [negb].
  - rewrite IH. rewrite (filter_none (fun p => survives R pts (c_name c, p))); [reflexivity|]. intros p _. unfold survives. cbn [fst]. now rewrite Em.
  - cbn [flat_map]. rewrite IH. f_equal. f_equal. unfold remaining_points, survives. cbn [fst snd]. rewrite Em. cbn [negb andb].
    destruct (truthy pts); cbn [andb].
    + reflexivity.
    + symmetry. apply filter_all. reflexivity. Qed.

Lemma remove_lookup R pts cs c : NoDup (map c_name cs) -> In c (kept_components R cs) ->
  pts_lookup (Some (map (fun c => (c_name c, remaining_points pts c)) (kept_components R cs))) (c_name c) = Some (remaining_points pts c).
Proof. intros Hn Hc. cbn [pts_lookup]. apply assoc_last_nodup.
  - rewrite map_map. cbn [fst]. unfold kept_components. now apply NoDup_map_filter.
  - apply in_map_iff. exists c. auto. Qed.

Theorem remove_names_v tfe cs b R pts cs' b' : names_unique cs = true ->
  remove_components_v tfe cs b R pts = Ok (cs', b') ->
  flat_names cs' = filter (survives R pts) (flat_names cs) /\
  map c_name cs' = filter (fun n => negb (mem n R)) (map c_name cs).
Proof. intros Hu H. rewrite remove_is_complement_v in H. destruct (get_components_inv _ _ _ _ _ _ _ H) as [picked [E [_ Hp]]].
  pose proof (names_unique_spec _ Hu) as [Hn _].
  assert (Hk : Forall2 (fun c c' => c_name c' = c_name c /\ c_points c' = remaining_points pts c) (kept_components R cs) cs').
  { rewrite E. apply Forall2_map_r. apply (proj1 (Forall2_map_l _ _ _ _)) in Hp. eapply Forall2_impl_In; [|exact Hp]. intros c x Hc Hx.
    destruct (picked_from_component _ _ _ _ Hu Hx) as [c0 [Hin [En [En' [_ [_ [Ep _]]]]]]].
    assert (c0 = c) by (apply (nodup_name_inj cs); auto; apply filter_In in Hc; tauto). subst c0.
    rewrite (remove_lookup R pts cs c Hn Hc) in Ep. auto. }
  clear H E Hp. split.
  - rewrite <- remaining_flat. unfold flat_names. induction Hk as [|c c' k l [E1 E2] Hk IH]; cbn [flat_map]; [reflexivity|].
    now rewrite IH, E1, E2.
  - unfold kept_components in Hk. rewrite <- (map_filter_comm c_name (fun n => negb (mem n R))).
    induction Hk as [|c c' k l [E1 _] Hk IH]; cbn [map]; [reflexivity|]. now rewrite IH, E1. Qed.

Theorem remove_defined_v tfe cs b R pts F P D :
  names_unique cs = true -> body_shape b F P (total_points cs) D -> (tfe = false \/ b_backend b <> TF) ->
  exists r, remove_components_v tfe cs b R pts = Ok r.
Proof. intros Hu Hb Htf. rewrite remove_is_complement_v. pose proof (names_unique_spec _ Hu) as [Hn _].
  assert (Hsub : forall c, In c (kept_components R cs) -> In c cs) by (intros c Hc; apply filter_In in Hc; tauto).
  eapply select_defined_v; try eassumption.
  - intros s Hs. apply in_map_iff in Hs. destruct Hs as [c [<- Hc]]. apply in_map. now apply Hsub.
  - intros c np Hc Hsel Hl p Hp. apply in_map_iff in Hsel. destruct Hsel as [c0 [E Hc0]].
    assert (c0 = c) by (apply (nodup_name_inj cs); auto). subst c0.
    rewrite (remove_lookup R pts cs c Hn Hc0) in Hl. injection Hl as <-. unfold remaining_points in Hp.
    destruct (truthy pts); [apply filter_In in Hp; tauto|exact Hp]. Qed.
