(* Little-endian integer fields of the .pose format (utils/reader.py ConstStructs) over byte lists. *)
From Coq Require Import ZArith NArith List Bool Lia ZifyBool ZifyN ZifyNat.
Require Import ListN.
Import ListNotations.
Ltac Zify.zify_post_hook ::= Z.div_mod_to_equations.
Open Scope N_scope.
Definition byte := N.
Definition bytes := list N.
Definition is_byte (b : N) : bool := b <? 256.
Definition all_bytes (l : bytes) : bool := forallb is_byte l.

Definition enc_u16 (n : N) : bytes := [n mod 256; (n / 256) mod 256].
Definition dec_u16 (b : bytes) : N := match b with b0 :: b1 :: _ => b0 + 256 * b1 | _ => 0 end.
Definition enc_u32 (n : N) : bytes :=
  [n mod 256; (n / 256) mod 256; (n / 65536) mod 256; (n / 16777216) mod 256].
Definition dec_u32 (b : bytes) : N :=
  match b with b0 :: b1 :: b2 :: b3 :: _ => b0 + 256 * b1 + 65536 * b2 + 16777216 * b3 | _ => 0 end.
(* big-endian variants: the decoders are the other arm of the little-endian flag in the generated binary schema
   (model/C05_JsParser.v), so that a flipped flag yields a model that differs and theorems that fail; nothing
   refers to the encoders *)
Definition enc_u16_be (n : N) : bytes := [(n / 256) mod 256; n mod 256].
Definition dec_u16_be (b : bytes) : N := match b with b0 :: b1 :: _ => 256 * b0 + b1 | _ => 0 end.
Definition enc_u32_be (n : N) : bytes := rev (enc_u32 n).
Definition dec_u32_be (b : bytes) : N := dec_u32 (rev (takeN 4 b)).

Lemma u16_rt n r : n < 65536 -> dec_u16 (enc_u16 n ++ r) = n.
Proof. intros H. unfold enc_u16, dec_u16. cbn [app]. lia. Qed.
Lemma u32_rt n r : n < 4294967296 -> dec_u32 (enc_u32 n ++ r) = n.
Proof. intros H. unfold enc_u32, dec_u32. cbn [app]. lia. Qed.
Lemma enc_u16_len n : lenN (enc_u16 n) = 2. Proof. reflexivity. Qed.
Lemma enc_u32_len n : lenN (enc_u32 n) = 4. Proof. reflexivity. Qed.
Lemma enc_u16_bytes n : all_bytes (enc_u16 n) = true.
Proof. unfold all_bytes, enc_u16, is_byte. cbn [forallb]. rewrite !andb_true_iff. repeat split; lia. Qed.
Lemma enc_u32_bytes n : all_bytes (enc_u32 n) = true.
Proof. unfold all_bytes, enc_u32, is_byte. cbn [forallb]. rewrite !andb_true_iff. repeat split; lia. Qed.
Lemma dec_u16_lt b : all_bytes b = true -> dec_u16 b < 65536.
Proof. unfold dec_u16, all_bytes, is_byte. destruct b as [|b0 [|b1 r]]; cbn [forallb]; lia. Qed.
Lemma dec_enc_u16 b0 b1 : b0 < 256 -> b1 < 256 -> enc_u16 (dec_u16 [b0; b1]) = [b0; b1].
Proof. intros. unfold enc_u16, dec_u16. f_equal; [lia|f_equal; lia]. Qed.
Lemma dec_enc_u32 b0 b1 b2 b3 : b0 < 256 -> b1 < 256 -> b2 < 256 -> b3 < 256 ->
  enc_u32 (dec_u32 [b0; b1; b2; b3]) = [b0; b1; b2; b3].
Proof. intros. unfold enc_u32, dec_u32. f_equal; [lia|]. f_equal; [lia|]. f_equal; [lia|]. f_equal; lia. Qed.

(* signed 16 bit (v0.0 person id) *)
Definition dec_i16 (b : bytes) : Z := let u := Z.of_N (dec_u16 b) in if (u <? 32768)%Z then u else (u - 65536)%Z.
