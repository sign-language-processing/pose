(* C15 - bbox: per frame, person and component the smallest axis-aligned box of the observed points; missing
   exactly when the component has no observed point. *)
From Coq Require Import Reals ZArith List Bool Lia Lra.
Require Import Result Num RealFacts C15_Spatial C15_Real C15_Lemmas C15_Flip.
Import ListNotations.
Local Open Scope R_scope.

Definition box_point (D : nat) (v : nat -> R) (m : bool) : rpoint :=
  @mkP R_ops (map (fun d => (v d, m)) (seq 0 D)) (if m then 0 else 1).
Lemma box_point_wf D v m : wf_point D (box_point D v m).
Proof. apply wf_point_uniform with (m := m).
  - now rewrite map_length, seq_length.
  - rewrite map_map. cbn [snd]. now rewrite map_const, seq_length.
  - destruct m; [reflexivity | intros H; exfalso; lra]. Qed.
Lemma box_point_observes D v d : (d < D)%nat -> observes (box_point D v false) d (v d).
Proof. intros Hd. unfold observes, box_point. cbn [pcs]. rewrite nth_error_tabulate. now rewrite (proj2 (Nat.ltb_lt d D) Hd). Qed.
Lemma box_point_missing D v : missing (box_point D v true) = true.
Proof. unfold missing, allmasked, box_point. cbn [pcs]. apply forallb_forall. intros c Hc. apply in_map_iff in Hc as [d [<- _]]. reflexivity. Qed.
(* every axis of a well-formed component is masked or none is, so both points are box points, which the
   constructor leaves alone *)
Lemma box_eq D (cpts : list rpoint) : Forall (wf_point D) cpts -> (1 <= D)%nat ->
  box R_ops D cpts =
  [ box_point D (fun d => val R_ops (lmin R_ops (obs_axis R_ops d cpts))) (all_missing cpts);
    box_point D (fun d => val R_ops (lmax R_ops (obs_axis R_ops d cpts))) (all_missing cpts) ].
Proof. intros Hwf HD.
  assert (Hn : forall sel, (forall l, sel l = None <-> l = []) -> forall d, In d (seq 0 D) ->
    (val R_ops (sel (obs_axis R_ops d cpts)), is_none (sel (obs_axis R_ops d cpts))) = (val R_ops (sel (obs_axis R_ops d cpts)), all_missing cpts)).
  { intros sel Hs d Hd. apply in_seq in Hd. f_equal. apply (is_none_sel sel Hs D); [exact Hwf | lia]. }
  unfold box. rsimp. rewrite (is_none_sel _ (@lmin_none R_ops) D cpts 0%nat Hwf) by lia.
  rewrite (map_ext_in _ _ _ (Hn _ (@lmin_none R_ops))), (map_ext_in _ _ _ (Hn _ (@lmax_none R_ops))).
  f_equal; [|f_equal]; apply (reinit_wf_id D), box_point_wf. Qed.

Definition box_spec (D : nat) (cpts : list rpoint) (tl br : rpoint) : Prop :=
  wf_point D tl /\ wf_point D br /\
  (all_missing cpts = true -> missing tl = true /\ missing br = true /\ pc tl = 0 /\ pc br = 0) /\
  (all_missing cpts = false -> pc tl = 1 /\ pc br = 1 /\
     forall d, (d < D)%nat -> exists lo hi, observes tl d lo /\ observes br d hi /\ smallest_interval lo hi (obs_axis R_ops d cpts)).

Lemma box_correct D (cpts : list rpoint) : Forall (wf_point D) cpts -> (1 <= D)%nat ->
  exists tl br, box R_ops D cpts = [tl; br] /\ box_spec D cpts tl br.
Proof. intros Hwf HD. rewrite (box_eq D cpts Hwf HD). eexists. eexists. split; [reflexivity|].
  split; [apply box_point_wf|]. split; [apply box_point_wf|]. split.
  - intros ->. repeat split; apply box_point_missing.
  - intros E. rewrite E. split; [reflexivity|]. split; [reflexivity|]. intros d Hd.
    eexists. eexists. split; [exact (box_point_observes D _ d Hd)|]. split; [exact (box_point_observes D _ d Hd)|].
    apply min_max_smallest; [apply lmin_spec, (sel_some _ (@lmin_none R_ops) D) | apply lmax_spec, (sel_some _ (@lmax_none R_ops) D)]; assumption. Qed.

Lemma split_comps_length {O : ops} ns (pts : list (point O)) : length (split_comps O ns pts) = length ns.
Proof. revert pts; induction ns as [|n ns IH]; intros pts; cbn [split_comps length]; [reflexivity | now rewrite IH]. Qed.
Lemma split_comps_concat {O : ops} ns (pts : list (point O)) :
  concat (split_comps O ns pts) = firstn (fold_right Nat.add 0%nat ns) pts.
Proof. revert pts; induction ns as [|n ns IH]; intros pts; cbn [split_comps concat fold_right]; [reflexivity|].
  rewrite IH. clear IH. revert pts. induction n as [|n IHn]; intros pts; cbn [firstn skipn Nat.add app]; [reflexivity|].
  destruct pts as [|p pts]; cbn [firstn skipn app]; [now rewrite firstn_nil | now rewrite IHn]. Qed.
Lemma split_comps_sizes {O : ops} ns (pts : list (point O)) : (fold_right Nat.add 0%nat ns <= length pts)%nat ->
  Forall2 (fun n c => length c = n) ns (split_comps O ns pts).
Proof. revert pts; induction ns as [|n ns IH]; intros pts H; cbn [split_comps fold_right] in *; constructor.
  - rewrite firstn_length. lia.
  - apply IH. rewrite skipn_length. lia. Qed.
Lemma split_comps_Forall {O : ops} (P : point O -> Prop) ns pts : Forall P pts -> Forall (Forall P) (split_comps O ns pts).
Proof. revert pts; induction ns as [|n ns IH]; intros pts H; cbn [split_comps]; [constructor|].
  rewrite <- (firstn_skipn n pts) in H. apply Forall_app in H. constructor; [exact (proj1 H) | exact (IH _ (proj2 H))]. Qed.

Definition boxes_spec (D : nat) (comps : list (list rpoint)) (out : list rpoint) : Prop :=
  exists boxes : list (rpoint * rpoint),
    out = flat_map (fun tb => [fst tb; snd tb]) boxes /\ Forall2 (fun cpts tb => box_spec D cpts (fst tb) (snd tb)) comps boxes.
Lemma bbox_person_correct D ns (pts : list rpoint) : Forall (wf_point D) pts -> (1 <= D)%nat ->
  boxes_spec D (split_comps R_ops ns pts) (bbox_person R_ops D ns pts).
Proof. intros Hwf HD. unfold bbox_person. pose proof (split_comps_Forall (wf_point D) ns pts Hwf) as Hc.
  induction Hc as [|cpts comps Hcp Hcs IH]; cbn [flat_map].
  - exists []. split; [reflexivity | constructor].
  - destruct IH as [boxes [-> HF]]. destruct (box_correct D cpts Hcp HD) as [tl [br [-> Hs]]].
    exists ((tl, br) :: boxes). split; [reflexivity|]. constructor; [exact Hs | exact HF]. Qed.
Lemma boxes_spec_wf D comps out : boxes_spec D comps out -> Forall (wf_point D) out.
Proof. intros [boxes [-> HF]]. induction HF as [|cpts tb comps boxes Hs HF IH]; cbn [flat_map app]; [constructor|].
  constructor; [exact (proj1 Hs)|]. constructor; [exact (proj1 (proj2 Hs)) | exact IH]. Qed.

Lemma bbox_tight D N ns (b b' : rframes) :
  wf_body D b -> bbox R_ops D N ns b = Ok b' ->
  Forall2 (Forall2 (fun pts pts' => boxes_spec D (split_comps R_ops ns pts) pts')) b b' /\ wf_body D b'.
Proof. intros Hwf H. unfold bbox in H. destruct (Nat.eqb_spec D 0) as [|ED]; cbn [orb] in H; [discriminate|].
  destruct (Nat.ltb N _); [discriminate|]. injection H as <-.
  assert (G : forall pts, Forall (wf_point D) pts -> boxes_spec D (split_comps R_ops ns pts) (bbox_person R_ops D ns pts))
    by (intros pts Hpts; apply bbox_person_correct; [exact Hpts | lia]).
  split.
  - apply (Forall2_map_r _ _ _ _ Hwf). intros fr Hfr. apply (Forall2_map_r _ _ _ _ Hfr). exact G.
  - apply (Forall_map_impl _ _ _ _ Hwf). intros fr Hfr. apply (Forall_map_impl _ _ _ _ Hfr).
    intros pts Hpts. exact (boxes_spec_wf D _ _ (G pts Hpts)). Qed.
