(* C11 - object level: get_components on the heap refines the value-level function and only allocates, so every
   existing object (in particular the source pose) is untouched; the helpers either allocate (deep copy, removal)
   or write the one body object they name. *)
From Coq Require Import List Arith Bool NArith ZArith Lia.
Require Import Result Tensor C11_Str C11_Select C11_Helpers C11_Heap C11_ListLemmas C11_SelectProofs C11_RemoveProofs C11_HelperProofs.
Import ListNotations.
Open Scope list_scope.

Lemma deref_inv h p v : deref h p = Ok v ->
  read_comps h (p_comps p) = Ok (v_comps v) /\ read_body h (p_body p) = Ok (v_body v) /\
  v_version v = p_version p /\ v_dims v = p_dims p /\ v_bbox v = p_bbox p.
Proof. unfold deref. destruct (read_comps h (p_comps p)) as [cs|]; cbn [rbind]; [|discriminate].
  destruct (read_body h (p_body p)) as [b|]; cbn [rbind]; [|discriminate]. intros [= <-]. cbn. auto. Qed.
Lemma deref_intro h p cs b : read_comps h (p_comps p) = Ok cs -> read_body h (p_body p) = Ok b ->
  deref h p = Ok (mkV (p_version p) (p_dims p) (p_bbox p) cs b).
Proof. unfold deref. intros -> ->. reflexivity. Qed.

Lemma read_comps_preserved h h' : (forall a c, nth_error h a = Some (OComp c) -> nth_error h' a = Some (OComp c)) ->
  forall addrs cs, read_comps h addrs = Ok cs -> read_comps h' addrs = Ok cs.
Proof. intros Hpre. unfold read_comps. induction addrs as [|a r IH]; intros cs; cbn [rmapM]; [auto|].
  unfold read_comp at 1 3. destruct (nth_error h a) as [[c|b]|] eqn:En; cbn [rbind]; try discriminate.
  rewrite (Hpre _ _ En). cbn [rbind]. destruct (rmapM (read_comp h) r) as [l|]; cbn [rbind]; [|discriminate].
  now rewrite (IH l eq_refl). Qed.
Lemma read_body_preserved h h' a b : (forall o, nth_error h a = Some o -> nth_error h' a = Some o) ->
  read_body h a = Ok b -> read_body h' a = Ok b.
Proof. intros Hpre. unfold read_body. destruct (nth_error h a) as [o|]; [|discriminate]. now rewrite (Hpre o eq_refl). Qed.
Lemma deref_preserved h h' p v : (forall a o, nth_error h a = Some o -> nth_error h' a = Some o) ->
  deref h p = Ok v -> deref h' p = Ok v.
Proof. intros Hpre Hd. destruct (deref_inv _ _ _ Hd) as [Hc [Hb [E1 [E2 E3]]]].
  rewrite (deref_intro h' p (v_comps v) (v_body v)), <- E1, <- E2, <- E3; [now destruct v| |].
  - apply (read_comps_preserved h); [intros; now apply Hpre|exact Hc].
  - apply (read_body_preserved h); [apply Hpre|exact Hb]. Qed.

Lemma nth_error_ext (h ext : heap) a o : nth_error h a = Some o -> nth_error (h ++ ext) a = Some o.
Proof. intros H. rewrite nth_error_app1 by (apply nth_error_Some; congruence). exact H. Qed.
Lemma read_comps_ext h ext addrs cs : read_comps h addrs = Ok cs -> read_comps (h ++ ext) addrs = Ok cs.
Proof. apply read_comps_preserved. intros a c. apply nth_error_ext. Qed.
Lemma read_body_ext h ext a b : read_body h a = Ok b -> read_body (h ++ ext) a = Ok b.
Proof. apply read_body_preserved. intros o. apply nth_error_ext. Qed.
Lemma deref_ext h ext p v : deref h p = Ok v -> deref (h ++ ext) p = Ok v.
Proof. apply deref_preserved. intros a o. apply nth_error_ext. Qed.

Lemma nth_error_fresh (h : heap) o ext : nth_error (h ++ o :: ext) (length h) = Some o.
Proof. rewrite nth_error_app2 by lia. now rewrite Nat.sub_diag. Qed.
Lemma write_at (l1 l2 : heap) o o' : write (l1 ++ o :: l2) (length l1) o' = l1 ++ o' :: l2.
Proof. unfold write. rewrite firstn_app, Nat.sub_diag, firstn_all, firstn_O, app_nil_r.
  rewrite skipn_app, skipn_all2 by lia. replace (S (length l1) - length l1) with 1 by lia. reflexivity. Qed.
(* an address in range splits the heap around it, which reduces every write to [write_at] *)
Lemma heap_split (h : heap) a : a < length h -> exists l1 o l2, h = l1 ++ o :: l2 /\ length l1 = a.
Proof. intros Ha. destruct (nth_error h a) as [o|] eqn:E; [|apply nth_error_None in E; lia].
  destruct (nth_error_split _ _ E) as [l1 [l2 [-> Hl]]]. eauto. Qed.
Lemma write_length (h : heap) a o : a < length h -> length (write h a o) = length h.
Proof. intros Ha. destruct (heap_split h a Ha) as [l1 [x [l2 [-> <-]]]]. rewrite write_at, !app_length. reflexivity. Qed.
Lemma nth_error_write_same (h : heap) a o : a < length h -> nth_error (write h a o) a = Some o.
Proof. intros Ha. destruct (heap_split h a Ha) as [l1 [x [l2 [-> <-]]]]. rewrite write_at. apply nth_error_fresh. Qed.
Lemma nth_error_write_other (h : heap) a o a' : a < length h -> a' <> a -> nth_error (write h a o) a' = nth_error h a'.
Proof. intros Ha Hne. destruct (heap_split h a Ha) as [l1 [x [l2 [-> <-]]]]. rewrite write_at.
  destruct (Nat.lt_ge_cases a' (length l1)) as [Hlt|Hge]; [now rewrite !nth_error_app1|].
  rewrite !nth_error_app2 by exact Hge. destruct (a' - length l1) eqn:E; [lia|reflexivity]. Qed.
Lemma update_comp_fresh h c f : update_comp (h ++ [OComp c]) (length h) f = h ++ [OComp (f c)].
Proof. unfold update_comp. rewrite nth_error_fresh. apply write_at. Qed.

Lemma component_eta c : mkC (c_name c) (c_points c) (c_limbs c) (c_colors c) (c_format c) = c.
Proof. destruct c; reflexivity. Qed.

Definition OC (e : str * (component * list nat)) : obj := OComp (fst (snd e)).
Fixpoint number (base : nat) (table : list (str * (component * list nat))) : list (str * (nat * list nat)) :=
  match table with
  | [] => []
  | e :: r => (fst e, (base, snd (snd e))) :: number (S base) r
  end.
(* same table, the new components appended to the heap in header order *)
Lemma walk_h_refines : forall addrs h cs idx sel pts, read_comps h addrs = Ok cs ->
  walk_h h addrs idx sel pts =
  match walk cs idx sel pts with
  | Ok table => Ok (h ++ map OC table, number (length h) table)
  | Err e => Err e
  end.
Proof. induction addrs as [|a r IH]; intros h cs idx sel pts Hr.
  - cbn in Hr. injection Hr as <-. cbn [walk_h walk map number]. now rewrite app_nil_r.
  - unfold read_comps in Hr. cbn [rmapM] in Hr. destruct (read_comp h a) as [c|] eqn:Ea; cbn [rbind] in Hr; [|discriminate].
    destruct (rmapM (read_comp h) r) as [cs'|] eqn:Er; cbn [rbind] in Hr; [|discriminate]. injection Hr as <-.
    assert (Tail : forall x, walk_h (h ++ [OComp x]) r (idx + length (c_points c)) sel pts =
              match walk cs' (idx + length (c_points c)) sel pts with
              | Ok rest => Ok (h ++ OComp x :: map OC rest, number (S (length h)) rest)
              | Err e => Err e
              end).
    { intros x. rewrite (IH _ cs') by (apply read_comps_ext; exact Er).
      destruct (walk cs' (idx + length (c_points c)) sel pts) as [rest|]; [|reflexivity]. now rewrite <- app_assoc, app_length, Nat.add_1_r. }
    cbn [walk_h walk]. rewrite Ea. cbn [rbind]. destruct (mem (c_name c) sel) eqn:Em.
    + unfold alloc. rewrite component_eta. unfold sel_component. destruct (pts_lookup pts (c_name c)) as [np|].
      * rewrite update_comp_fresh. destruct (index_mapping (c_points c) np 0) as [m|]; cbn [rbind]; [|reflexivity].
        rewrite update_comp_fresh. destruct (flat_indexes (c_points c) np idx) as [ixs|]; cbn [rbind]; [|reflexivity].
        rewrite Tail. destruct (walk cs' (idx + length (c_points c)) sel pts) as [rest|]; reflexivity.
      * cbn [rbind]. rewrite Tail. destruct (walk cs' (idx + length (c_points c)) sel pts) as [rest|]; reflexivity.
    + cbn [rbind]. rewrite (IH _ cs' _ _ _ Er).
      destruct (walk cs' (idx + length (c_points c)) sel pts) as [rest|]; cbn [rbind]; reflexivity. Qed.

Lemma assoc_last_number name : forall table base,
  match assoc_last name table, assoc_last name (number base table) with
  | Some x, Some y => snd y = snd x /\ base <= fst y /\ nth_error (map OC table) (fst y - base) = Some (OComp (fst x))
  | None, None => True
  | _, _ => False
  end.
Proof. induction table as [|[n [c ixs]] r IH]; intros base; cbn [assoc_last number fst snd]; [exact I|].
  specialize (IH (S base)). destruct (assoc_last name r) as [x|], (assoc_last name (number (S base) r)) as [y|]; try contradiction.
  - destruct IH as [H1 [H2 H3]]. split; [exact H1|]. split; [lia|]. cbn [map]. replace (fst y - base) with (S (fst y - S base)) by lia. exact H3.
  - destruct (str_eqb n name); [|exact I]. cbn [fst snd]. split; [reflexivity|]. split; [lia|]. rewrite Nat.sub_diag. reflexivity. Qed.

Lemma pick_number (h : heap) table : forall sel,
  match pick table sel, pick (number (length h) table) sel with
  | Ok pv, Ok ph => map snd ph = map snd pv /\ read_comps (h ++ map OC table) (map fst ph) = Ok (map fst pv)
  | Err e, Err e' => e = e'
  | _, _ => False
  end.
Proof. unfold pick, read_comps. induction sel as [|s r IH]; cbn [rmapM map]; [auto|].
  pose proof (assoc_last_number s table (length h)) as Ha.
  destruct (assoc_last s table) as [x|], (assoc_last s (number (length h) table)) as [y|]; try contradiction; cbn [rbind]; [|reflexivity].
  destruct Ha as [H1 [H2 H3]].
  destruct (rmapM (fun c => match assoc_last c table with Some x => Ok x | None => Err Key end) r) as [pv|],
           (rmapM (fun c => match assoc_last c (number (length h) table) with Some x => Ok x | None => Err Key end) r) as [ph|];
    try contradiction; cbn [rbind]; [|exact IH].
  destruct IH as [I1 I2]. cbn [map rmapM]. split; [now rewrite H1, I1|].
  rewrite I2. unfold read_comp. rewrite nth_error_app2 by lia. rewrite H3. reflexivity. Qed.

(* a heap-level call against the value-level one: the same error, or a result that only extends the heap and dereferences to
   the value-level result under a fresh header (is_bbox back at its default) *)
Definition refines (h : heap) (v : vpose) (rv : result (list component * body)) (rh : result (heap * pose)) : Prop :=
  match rv, rh with
  | Ok (cs', b'), Ok (h', p') =>
      (exists ext, h' = h ++ ext) /\ deref h' p' = Ok (mkV (v_version v) (v_dims v) false cs' b')
  | Err e, Err e' => e = e'
  | _, _ => False
  end.
Lemma refines_value {h v rv rh h' p'} : refines h v rv rh -> rh = Ok (h', p') ->
  exists cs' b', rv = Ok (cs', b') /\ (exists ext, h' = h ++ ext) /\ deref h' p' = Ok (mkV (v_version v) (v_dims v) false cs' b').
Proof. intros R ->. destruct rv as [[cs' b']|]; [|contradiction]. exists cs', b'. split; [reflexivity|exact R]. Qed.
Lemma refines_defined {h v rv rh r} : refines h v rv rh -> rv = Ok r -> exists r', rh = Ok r'.
Proof. intros R ->. destruct r, rh as [r'|]; [eauto|contradiction]. Qed.

Theorem get_components_h_refines tfe h p v sel pts : deref h p = Ok v ->
  refines h v (get_components_v tfe (v_comps v) (v_body v) sel pts) (get_components_h tfe h p sel pts).
Proof. intros Hd. unfold refines. destruct (deref_inv _ _ _ Hd) as [Ec [Eb [-> [-> _]]]].
  unfold get_components_v, get_components_h. rewrite (walk_h_refines _ _ _ _ _ _ Ec).
  destruct (walk (v_comps v) 0 sel pts) as [table|]; cbn [rbind]; [|reflexivity].
  pose proof (pick_number h table sel) as Hp.
  destruct (pick table sel) as [pv|], (pick (number (length h) table) sel) as [ph|]; try contradiction; cbn [rbind]; [|exact Hp].
  destruct Hp as [P1 P2]. rewrite (read_body_ext _ _ _ _ Eb). cbn [rbind]. rewrite P1.
  destruct (get_points tfe (concat (map snd pv)) (v_body v)) as [nb|]; cbn [rbind]; [|reflexivity].
  unfold alloc. split.
  - exists (map OC table ++ [OBody nb]). now rewrite app_assoc.
  - apply (deref_intro _ (mkP _ _ false _ _)); cbn [p_comps p_body]; [now apply read_comps_ext|].
    unfold read_body. now rewrite nth_error_fresh. Qed.

Theorem select_pure_h tfe h p sel pts h' p' v :
  get_components_h tfe h p sel pts = Ok (h', p') -> deref h p = Ok v ->
  (exists ext, h' = h ++ ext) /\ deref h' p = Ok v /\ (forall a, a < length h -> nth_error h' a = nth_error h a).
Proof. intros H Hd. destruct (refines_value (get_components_h_refines tfe h p v sel pts Hd) H) as [cs' [b' [_ [[ext ->] _]]]].
  split; [eauto|]. split; [now apply deref_ext|]. intros a Ha. now apply nth_error_app1. Qed.

Theorem remove_components_h_refines tfe h p v R pts : deref h p = Ok v ->
  refines h v (remove_components_v tfe (v_comps v) (v_body v) R pts) (remove_components_h tfe h p R pts).
Proof. intros Hd. destruct (deref_inv _ _ _ Hd) as [Hc _]. unfold remove_components_h, remove_components_v. rewrite Hc. cbn [rbind].
  destruct (remove_request (v_comps v) R pts) as [names pd]. apply get_components_h_refines. exact Hd. Qed.

Definition source_ok (v : vpose) (F P D : nat) : Prop :=
  names_unique (v_comps v) = true /\ body_shape (v_body v) F P (total_points (v_comps v)) D.
Definition carries_named_points (v v' : vpose) (F P D : nat) : Prop :=
  body_shape (v_body v') F P (total_points (v_comps v')) D /\
  b_fps (v_body v') = b_fps (v_body v) /\ b_backend (v_body v') = b_backend (v_body v) /\
  v_version v' = v_version v /\ v_dims v' = v_dims v /\
  forall i c n, nth_error (flat_names (v_comps v')) i = Some (c, n) ->
    exists k, point_index (v_comps v) c n = Ok k /\ nth_error (flat_names (v_comps v)) k = Some (c, n) /\
      same_column (v_body v) (v_body v') F P D i k.

Lemma select_carries tfe v sel pts cs' b' bbox F P D : source_ok v F P D ->
  get_components_v tfe (v_comps v) (v_body v) sel pts = Ok (cs', b') ->
  carries_named_points v (mkV (v_version v) (v_dims v) bbox cs' b') F P D.
Proof. intros [Hu Hb] Hv. destruct (select_points_v _ _ _ _ _ _ _ _ _ _ Hu Hb Hv) as [S1 [S2 [S3 S4]]].
  unfold carries_named_points. cbn [v_comps v_body v_version v_dims]. auto 10. Qed.

Theorem select_points tfe h p sel pts h' p' v F P D :
  deref h p = Ok v -> source_ok v F P D -> get_components_h tfe h p sel pts = Ok (h', p') ->
  exists v', deref h' p' = Ok v' /\ carries_named_points v v' F P D.
Proof. intros Hd Hs H. destruct (refines_value (get_components_h_refines tfe h p v sel pts Hd) H) as [cs' [b' [Hv [_ Hd']]]].
  eexists. split; [exact Hd'|]. eapply select_carries; eassumption. Qed.

Theorem select_limbs tfe h p sel pts h' p' v :
  deref h p = Ok v -> header_wf (v_comps v) = true -> get_components_h tfe h p sel pts = Ok (h', p') ->
  exists v', deref h' p' = Ok v' /\ Forall2 (selected_component (v_comps v) pts) sel (v_comps v').
Proof. intros Hd Hw H. destruct (refines_value (get_components_h_refines tfe h p v sel pts Hd) H) as [cs' [b' [Hv [_ Hd']]]].
  eexists. split; [exact Hd'|]. cbn [v_comps]. eapply select_limbs_v; eassumption. Qed.

Theorem remove_is_complement tfe h p R pts h' p' v F P D :
  deref h p = Ok v -> source_ok v F P D -> remove_components_h tfe h p R pts = Ok (h', p') ->
  exists v', deref h' p' = Ok v' /\
    (* it is the selection of the complement *)
    get_components_v tfe (v_comps v) (v_body v) (map c_name (kept_components R (v_comps v)))
       (Some (map (fun c => (c_name c, remaining_points pts c)) (kept_components R (v_comps v)))) = Ok (v_comps v', v_body v') /\
    (* exactly the surviving points, in the source order, each with its own column *)
    flat_names (v_comps v') = filter (survives R pts) (flat_names (v_comps v)) /\
    map c_name (v_comps v') = filter (fun n => negb (mem n R)) (map c_name (v_comps v)) /\
    carries_named_points v v' F P D /\
    (exists ext, h' = h ++ ext) /\ deref h' p = Ok v.
Proof. intros Hd Hs H. destruct (refines_value (remove_components_h_refines tfe h p v R pts Hd) H) as [cs' [b' [Hv [[ext ->] Hd']]]].
  eexists. split; [exact Hd'|]. cbn [v_comps v_body].
  destruct (remove_names_v _ _ _ _ _ _ _ (proj1 Hs) Hv) as [N1 N2]. rewrite remove_is_complement_v in Hv.
  split; [exact Hv|]. split; [exact N1|]. split; [exact N2|]. split; [eapply select_carries; eassumption|].
  split; [eauto|now apply deref_ext]. Qed.

Theorem hide_legs_remove_h T tfe h p r v : hide_legs_h T tfe h p true = Ok r -> deref h p = Ok v ->
  exists f tbl, detect T (map c_name (v_comps v)) = Ok f /\ hide_table T f = Ok tbl /\
    remove_components_h tfe h p [] (Some tbl) = Ok r.
Proof. intros H Hd. destruct (deref_inv _ _ _ Hd) as [Hc _]. unfold hide_legs_h in H. rewrite Hc in H. cbn [rbind] in H.
  destruct (detect T (map c_name (v_comps v))) as [f|] eqn:Ef; cbn [rbind] in H; [|discriminate].
  destruct (hide_table T f) as [tbl|] eqn:Et; cbn [rbind] in H; [|discriminate]. exists f, tbl. auto. Qed.

Theorem hide_legs_inplace_h T tfe h p h' p' v F P N D :
  hide_legs_h T tfe h p false = Ok (h', p') -> deref h p = Ok v -> body_shape (v_body v) F P N D ->
  p' = p /\ exists f tbl b', detect T (map c_name (v_comps v)) = Ok f /\ hide_table T f = Ok tbl /\
    deref h' p = Ok (mkV (v_version v) (v_dims v) (v_bbox v) (v_comps v) b') /\
    hidden_columns (hide_indices (v_comps v) tbl) (v_body v) b' F P N D /\
    length h' = length h /\ forall a, a <> p_body p -> nth_error h' a = nth_error h a.
Proof. intros H Hd Hb. destruct (deref_inv _ _ _ Hd) as [Hc [Hbd [-> [-> ->]]]]. unfold hide_legs_h in H. rewrite Hc in H. cbn [rbind] in H.
  destruct (detect T (map c_name (v_comps v))) as [f|] eqn:Ef; cbn [rbind] in H; [|discriminate].
  destruct (hide_table T f) as [tbl|] eqn:Et; cbn [rbind] in H; [|discriminate]. rewrite Hbd in H. cbn [rbind] in H.
  destruct (hide_body (hide_indices (v_comps v) tbl) (v_body v)) as [b'|] eqn:Eh; cbn [rbind] in H; [|discriminate].
  injection H as <- <-. split; [reflexivity|]. exists f, tbl, b'. split; [reflexivity|]. split; [exact Et|].
  unfold read_body in Hbd. destruct (nth_error h (p_body p)) as [[c0|b0]|] eqn:En; try discriminate.
  assert (Ha : p_body p < length h) by (apply nth_error_Some; congruence).
  split; [|split; [apply (hide_body_spec _ _ _ _ _ _ _ Hb Eh)|split; [now apply write_length|intros a Hne; now apply nth_error_write_other]]].
  apply deref_intro.
  - (* the written address held the body, so every component is still where it was *)
    apply (read_comps_preserved h); [|exact Hc]. intros a c E. rewrite nth_error_write_other; [exact E|exact Ha|congruence].
  - unfold read_body. now rewrite (nth_error_write_same _ _ _ Ha). Qed.

Lemma alloc_all_spec : forall os h, alloc_all h os = (h ++ os, seq (length h) (length os)).
Proof. induction os as [|o r IH]; intros h; cbn [alloc_all]; [now rewrite app_nil_r|].
  unfold alloc. rewrite IH. rewrite <- app_assoc. cbn [app length seq]. rewrite app_length. cbn [length]. do 3 f_equal. lia. Qed.
Lemma read_comps_seq (h : heap) cs ext : read_comps (h ++ map OComp cs ++ ext) (seq (length h) (length cs)) = Ok cs.
Proof. unfold read_comps. revert h. induction cs as [|c r IH]; intros h; cbn [map length seq rmapM]; [reflexivity|].
  unfold read_comp at 1. cbn [app]. rewrite nth_error_fresh. cbn [rbind].
  specialize (IH (h ++ [OComp c])). rewrite app_length in IH. cbn [length] in IH. rewrite Nat.add_1_r in IH.
  rewrite <- app_assoc in IH. cbn [app] in IH. rewrite IH. reflexivity. Qed.
(* the copy: the components, then the body, appended in this order *)
Definition copy_at (h : heap) (p : pose) (v : vpose) : pose :=
  mkP (p_version p) (p_dims p) (p_bbox p) (seq (length h) (length (v_comps v))) (length (h ++ map OComp (v_comps v))).
Lemma deepcopy_spec h p v : deref h p = Ok v ->
  deepcopy h p = Ok ((h ++ map OComp (v_comps v)) ++ [OBody (v_body v)], copy_at h p v).
Proof. intros Hd. destruct (deref_inv _ _ _ Hd) as [Hc [Hb _]]. unfold deepcopy. rewrite Hc, Hb. cbn [rbind].
  rewrite alloc_all_spec, map_length. reflexivity. Qed.
Lemma deref_copy_at h p v b : deref h p = Ok v ->
  deref ((h ++ map OComp (v_comps v)) ++ [OBody b]) (copy_at h p v) = Ok (mkV (v_version v) (v_dims v) (v_bbox v) (v_comps v) b).
Proof. intros Hd. destruct (deref_inv _ _ _ Hd) as [_ [_ [-> [-> ->]]]]. apply (deref_intro _ (copy_at h p v)); cbn [copy_at p_comps p_body].
  - rewrite <- app_assoc. apply read_comps_seq.
  - unfold read_body. now rewrite nth_error_fresh. Qed.

Theorem correct_wrist_h_spec T h p hand h' p' v :
  correct_wrist_h T h p hand = Ok (h', p') -> deref h p = Ok v ->
  (exists ext, h' = h ++ ext) /\
  exists b', correct_wrist_body T (v_comps v) (v_body v) hand = Ok b' /\
    deref h' p' = Ok (mkV (v_version v) (v_dims v) (v_bbox v) (v_comps v) b').
Proof. intros H Hd. unfold correct_wrist_h in H. rewrite (deepcopy_spec _ _ _ Hd) in H. cbn [rbind] in H.
  pose proof (deref_copy_at h p v (v_body v) Hd) as Hc. apply deref_inv in Hc. destruct Hc as [Hc [Hb _]]. cbn [v_comps v_body] in Hc, Hb.
  rewrite Hc, Hb in H. cbn [rbind] in H.
  destruct (correct_wrist_body T (v_comps v) (v_body v) hand) as [b'|]; cbn [rbind] in H; [|discriminate]. injection H as <- <-.
  cbn [copy_at p_body]. rewrite write_at. split; [eexists; symmetry; apply app_assoc|].
  exists b'. split; [reflexivity|]. now apply deref_copy_at. Qed.

Theorem correct_wrists_h_spec T h p l r h' p' v :
  correct_wrists_h T h p l r = Ok (h', p') -> deref h p = Ok v ->
  (exists ext, h' = h ++ ext) /\
  exists b1 b2, correct_wrist_body T (v_comps v) (v_body v) l = Ok b1 /\ correct_wrist_body T (v_comps v) b1 r = Ok b2 /\
    deref h' p' = Ok (mkV (v_version v) (v_dims v) (v_bbox v) (v_comps v) b2).
Proof. intros H Hd. unfold correct_wrists_h in H. destruct (correct_wrist_h T h p l) as [[h1 p1]|] eqn:E1; cbn [rbind] in H; [|discriminate].
  destruct (correct_wrist_h_spec _ _ _ _ _ _ _ E1 Hd) as [[ext1 ->] [b1 [B1 V1]]].
  destruct (correct_wrist_h_spec _ _ _ _ _ _ _ H V1) as [[ext2 ->] [b2 [B2 V2]]]. cbn [v_comps v_body v_version v_dims v_bbox] in *.
  split; [eexists; symmetry; apply app_assoc|]. exists b1, b2. auto. Qed.

Theorem reduce_holistic_h_spec T tfe h p h' p' v : reduce_holistic_h T tfe h p = Ok (h', p') -> deref h p = Ok v ->
  (exists f, detect T (map c_name (v_comps v)) = Ok f /\ f <> Holistic /\ h' = h /\ p' = p) \/
  (detect T (map c_name (v_comps v)) = Ok Holistic /\
   exists names pd, reduce_request T (v_comps v) = Ok (names, pd) /\ get_components_h tfe h p names (Some pd) = Ok (h', p')).
Proof. intros H Hd. destruct (deref_inv _ _ _ Hd) as [Hc _]. unfold reduce_holistic_h in H. rewrite Hc in H. cbn [rbind] in H.
  destruct (detect T (map c_name (v_comps v))) as [f|]; cbn [rbind] in H; [|discriminate]. destruct f.
  - right. split; [reflexivity|]. destruct (reduce_request T (v_comps v)) as [[names pd]|]; cbn [rbind] in H; [|discriminate].
    exists names, pd. auto.
  - left. exists OpenPose. injection H as <- <-. repeat split; discriminate.
  - left. exists OpenPose135. injection H as <- <-. repeat split; discriminate. Qed.
