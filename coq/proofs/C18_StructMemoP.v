(* C18: the ConstStructs attribute memo does not affect isolation: writes are idempotent per format (every entry
   for format k is [mk k]) and entries are never removed, so under every interleaving of any number of threads each
   unpack_f call hands `unpack` the struct it would build alone. *)
From Coq Require Import NArith List Bool Lia.
Require Import ListFacts C18_StructMemo.
Import ListNotations.
Open Scope N_scope.

Section P.
Variable S : Type.
Variable mk : N -> S.
Notation find := (@find S).
Notation sstep := (sstep S mk).

Definition Canon (t : table S) : Prop := forall k s, find k t = Some s -> s = mk k.
(* a thread's locals: the structs collected so far are the canonical ones of the formats already served, and
   before a getattr the attribute exists *)
Definition SpcOk (keys : list N) (t : table S) (p : spc S) : Prop :=
  match p with
  | S_has k rest acc | S_set k rest acc => exists pre, keys = pre ++ k :: rest /\ acc = map mk pre
  | S_get k rest acc => (exists pre, keys = pre ++ k :: rest /\ acc = map mk pre) /\ find k t = Some (mk k)
  | S_done r => r = Some (map mk keys)
  end.

Lemma canon_nil : Canon [].
Proof. intros k s H. discriminate. Qed.
Lemma canon_add k t : Canon t -> Canon ((k, mk k) :: t).
Proof. intros C k' s. cbn [C18_StructMemo.find]. destruct (k' =? k) eqn:E; [|apply C]. apply N.eqb_eq in E. now intros [= <-]; subst. Qed.
Lemma find_add_mono k k' t : find k t = Some (mk k) -> find k ((k', mk k') :: t) = Some (mk k).
Proof. intros H. cbn [C18_StructMemo.find]. destruct (k =? k') eqn:E; [apply N.eqb_eq in E; now subst|exact H]. Qed.

Lemma s_next_ok keys t pre rest : keys = pre ++ rest -> SpcOk keys t (s_next S rest (map mk pre)).
Proof.
  intros ->. destruct rest as [|k r]; cbn [s_next SpcOk].
  - now rewrite app_nil_r.
  - exists pre. split; reflexivity.
Qed.

Lemma sstep_ok keys t p t' p' : Canon t -> SpcOk keys t p -> sstep p t = (t', p') ->
  Canon t' /\ SpcOk keys t' p' /\ (t' = t \/ exists k, t' = (k, mk k) :: t).
Proof.
  intros C Hp H. destruct p as [k rest acc|k rest acc|k rest acc|r]; cbn [C18_StructMemo.sstep] in H.
  - injection H as <- <-. split; [exact C|]. split; [|now left].
    destruct (find k t) as [s|] eqn:E; cbn [SpcOk]; [|exact Hp]. split; [exact Hp|]. now rewrite (C k s E) in E.
  - injection H as <- <-. split; [now apply canon_add|]. split; [|right; now exists k].
    cbn [SpcOk]. split; [exact Hp|]. cbn [C18_StructMemo.find]. now rewrite N.eqb_refl.
  - destruct Hp as [(pre & -> & ->) Hf]. rewrite Hf in H. injection H as <- <-. split; [exact C|]. split; [|now left].
    replace (map mk pre ++ [mk k]) with (map mk (pre ++ [k])) by (rewrite map_app; reflexivity).
    apply s_next_ok. now rewrite <- app_assoc.
  - injection H as <- <-. split; [exact C|]. split; [exact Hp|now left].
Qed.
(* the other threads: the table only grows by canonical entries *)
Lemma spc_mono keys t k p : SpcOk keys t p -> SpcOk keys ((k, mk k) :: t) p.
Proof. destruct p; cbn [SpcOk]; auto. intros [H Hf]. split; [exact H|now apply find_add_mono]. Qed.

Definition SInv (jobs : list (list N)) (st : sstate S) : Prop :=
  Canon (ss_table st) /\ Forall2 (fun p keys => SpcOk keys (ss_table st) p) (ss_pcs st) jobs.

Lemma forall2_supd {A B} (R : A -> B -> Prop) (la : list A) (lb : list B) a : Forall2 R la lb ->
  forall i, (forall b, nth_error lb i = Some b -> R a b) -> Forall2 R (supd la i a) lb.
Proof.
  induction 1 as [|a0 b0 la lb Hab H IH]; intros i Hi; cbn [supd]; [constructor|].
  destruct i as [|i]; constructor; [now apply Hi|exact H|exact Hab|]. apply IH. intros b Hb. now apply Hi.
Qed.

Lemma sstep_sys_inv jobs i st : SInv jobs st -> SInv jobs (sstep_sys S mk i st).
Proof.
  intros [C F]. unfold sstep_sys. destruct (nth_error (ss_pcs st) i) as [p|] eqn:Ep; [|split; assumption].
  destruct (sstep p (ss_table st)) as [t' p'] eqn:Es. unfold SInv. cbn [ss_table ss_pcs].
  destruct (Forall2_nth_error _ _ _ F i p Ep) as (keys & Hkeys & Hp).
  destruct (sstep_ok keys _ _ _ _ C Hp Es) as (C' & Hp' & Hgrow). split; [exact C'|].
  apply forall2_supd.
  - refine (Forall2_impl_In _ _ _ _ _ F). intros q a _ Hq. destruct Hgrow as [->|[k ->]]; [exact Hq|now apply spc_mono].
  - intros a Ha. rewrite Hkeys in Ha. injection Ha as <-. exact Hp'.
Qed.

Lemma srun_inv jobs sched : forall st, SInv jobs st -> SInv jobs (srun S mk sched st).
Proof. unfold srun. induction sched as [|i r IH]; intros st H; cbn [fold_left]; [exact H|]. apply IH. now apply sstep_sys_inv. Qed.

Lemma sinit_inv jobs t0 : Canon t0 -> SInv jobs (sinit S jobs t0).
Proof.
  intros C. split; [exact C|]. cbn [sinit ss_table ss_pcs]. induction jobs as [|keys r IH]; cbn [map]; constructor; [|exact IH].
  unfold s_init. apply (s_next_ok keys t0 [] keys). reflexivity.
Qed.
End P.

Example struct_memo_example :
  let st := srun N (fun k => k) [0; 1; 1; 0; 1; 0; 0; 1; 0; 1; 0; 1; 0; 1; 1; 0; 0]%nat (sinit N [[5; 7]; [5; 3; 7]] []) in
  ss_pcs st = [S_done (Some [5; 7]); S_done (Some [5; 3; 7])].
Proof. vm_compute. reflexivity. Qed.
