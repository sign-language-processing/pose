(* C18, byte level: what a reader thread computes locally.  A skip-free decoder (the header decoder is one)
   depends only on the bytes it consumed, which makes the memo key sound, and gives the same answer through the
   stream reader, whatever prefix of the file was prefetched, as through the plain reader on the whole file. *)
From Coq Require Import NArith List Lia.
Require Import ListN Result Bytes Prog Codec PoseRead ProgLemmas PoseReadLemmas StreamLemmas StreamRead StreamBack.
Import ListNotations.
Open Scope N_scope.

Lemma run_plain_prefix {A} (p : prog A) : noSkip p -> forall b o a o',
  run_plain p {| pbuf := b; poff := o |} = Ok (a, {| pbuf := b; poff := o' |}) ->
  forall b', takeN o' b' = takeN o' b ->
  run_plain p {| pbuf := b'; poff := o |} = Ok (a, {| pbuf := b'; poff := o' |}).
Proof.
  intros Hn b o a o' H b' Hb. apply (run_plain_restrict p Hn) in H. rewrite <- Hb in H.
  rewrite <- (take_drop_split o' b'). exact (run_plain_ext p (noSkip_noBL p Hn) _ _ _ _ _ H).
Qed.

(* a BytesIOReader that has skipped nothing: its buffer is a prefix of the file ([HPre], StreamBack.v) *)
Lemma prefix_hpre file L e pl : e <= lenN (takeN L file) ->
  HPre file {| buf := takeN L file; off := e; skipped := 0; pulled := pl |}.
Proof. intros He. split; [split; [reflexivity|apply pre_takeN]|exact He]. Qed.

Lemma run_stream_plain {A} (p : prog A) file r : noSkip p -> HPre file r ->
  match run_stream file p r with
  | Ok (a, r') => run_plain p {| pbuf := file; poff := off r |} = Ok (a, {| pbuf := file; poff := off r' |}) /\
                  HPre file r'
  | Err _ => exists e, run_plain p {| pbuf := file; poff := off r |} = Err e
  end.
Proof.
  intros Hn HP. destruct (run_stream file p r) as [[a r']|e] eqn:E; [exact (nsk_bwd file p Hn r a r' HP E)|].
  destruct (run_plain p {| pbuf := file; poff := off r |}) as [[a pr']|e'] eqn:Ep; [exfalso|now exists e'].
  assert (S : Sim file [] {| pbuf := file; poff := off r |} r)
    by exact (conj (eq_sym (app_nil_r file)) (conj eq_refl (pre_inv file r (proj1 HP) (proj2 HP)))).
  pose proof (sim_fwd file [] p (noSkip_v2prog p Hn) _ r a pr' S Ep) as H. rewrite E in H. exact (H eq_refl).
Qed.

(* the prefetch of pose.py:60 on a fresh reader raises EOFError on the empty file only *)
Lemma expect_fresh file n :
  match expect file n {| buf := []; off := 0; skipped := 0; pulled := 0 |} with
  | Ok r1 => buf r1 = takeN (lenN (buf r1)) file
  | Err _ => file = []
  end.
Proof.
  set (r0 := {| buf := []; off := 0; skipped := 0; pulled := 0 |}).
  assert (P0 : Pre file r0) by (split; [reflexivity|symmetry; apply takeN_0]).
  destruct (expect file n r0) as [r1|e] eqn:E; [exact (proj2 (pre_expect file n r0 r1 P0 E))|].
  destruct (N.eq_dec n 0) as [->|Hn]; [discriminate E|]. subst r0. rewrite expect_init in E by lia.
  destruct (takeN n file) eqn:Et; [|discriminate E].
  apply (f_equal lenN) in Et. rewrite lenN_takeN in Et. destruct file; [reflexivity|]. unfold lenN in Et. cbn [length] in Et. lia.
Qed.

Lemma parse_nil : run_plain rd_header {| pbuf := []; poff := 0 |} = Err StructError.
Proof. reflexivity. Qed.
