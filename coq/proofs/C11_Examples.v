(* C11 - non-vacuity: the concrete poses on which props/C11.v evaluates the calls. *)
From Coq Require Import List Arith Bool NArith ZArith.
Require Import Result Tensor C11_Str C11_Select C11_Heap.
Import ListNotations.
Open Scope str_scope.
Open Scope list_scope.

Definition ids (n : nat) : list Z := map Z.of_nat (seq 1 n).
Definition mk_body (F P N D : nat) (conf : list Z) : body :=
  mkB Numpy 30 (mkT [F; P; N; D] (ids (F * P * N * D))) (mkT [F; P; N] conf)
      (mkT [F; P; N; D] (map (fun k => Nat.eqb (k mod 3) 0) (seq 0 (F * P * N * D)))).

(* ---- a generic two-component pose: 1 frame, 2 people, 5 points, 2 dimensions; names unique *)
Definition ex_A := mkC "A" ["a0"; "a1"; "a2"] [(0, 1); (1, 2); (2, 0)] [[255; 0; 0]%Z] "XYC".
Definition ex_B := mkC "B" ["b0"; "b1"] [(0, 1)] [] "XYC".
Definition ex_body := mk_body 1 2 5 2 [0; 11; 12; 13; 14; 15; 0; 17; 18; 19]%Z.
Definition ex_v := mkV 2 [640; 480; 0]%Z true [ex_A; ex_B] ex_body.
Definition ex_h : heap := [OComp ex_A; OComp ex_B; OBody ex_body].
Definition ex_p := mkP 2 [640; 480; 0]%Z true [0; 1] 2.
Definition ex_sel := ["B"; "A"].
Definition ex_pts : points_dict := Some [("A", ["a2"; "a0"])].

Lemma ex_point_index : point_index (v_comps ex_v) "B" "b1" = Ok 4 /\ nth_error (flat_names (v_comps ex_v)) 4 = Some ("B", "b1").
Proof. split; reflexivity. Qed.

(* ---- an OpenPose-shaped pose (reduced): hide / remove legs, wrist correction *)
Definition op_body_c := mkC "pose_keypoints_2d" ["Nose"; "LHip"; "RKnee"; "LWrist"; "RWrist"] [(0, 1); (1, 2); (0, 3)] [[255; 0; 0]%Z] "XYC".
Definition op_hand_l := mkC "hand_left_keypoints_2d" ["BASE"; "T_STT"] [(0, 1)] [] "XYC".
Definition op_hand_r := mkC "hand_right_keypoints_2d" ["BASE"] [] [] "XYC".
(* 1 frame, 2 people, 8 points; the left hand base is seen for person 0 only *)
Definition op_bodyv := mk_body 1 2 8 2 [1; 2; 3; 4; 5; 6; 7; 8; 9; 10; 11; 12; 13; 0; 15; 16]%Z.
Definition op_v := mkV 2 [1; 1; 0]%Z false [op_body_c; op_hand_l; op_hand_r] op_bodyv.
Definition op_h : heap := [OComp op_body_c; OComp op_hand_l; OComp op_hand_r; OBody op_bodyv].
Definition op_p := mkP 2 [1; 1; 0]%Z false [0; 1; 2] 3.

(* ---- a Holistic-shaped pose (reduced): reduction keeps the named body points and drops the world landmarks *)
Definition ho_pose_c := mkC "POSE_LANDMARKS" ["NOSE"; "LEFT_SHOULDER"; "LEFT_KNEE"; "LEFT_WRIST"] [(1, 3); (1, 2)] [] "XYZC".
Definition ho_world := mkC "POSE_WORLD_LANDMARKS" ["NOSE"] [] [] "XYZC".
Definition ho_bodyv := mk_body 1 1 5 3 [1; 2; 3; 4; 5]%Z.
Definition ho_v := mkV 2 [1; 1; 1]%Z false [ho_pose_c; ho_world] ho_bodyv.
Definition ho_h : heap := [OComp ho_pose_c; OComp ho_world; OBody ho_bodyv].
Definition ho_p := mkP 2 [1; 1; 1]%Z false [0; 1] 2.
