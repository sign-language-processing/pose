(* C09 - missing points never influence results.  Bodies are pairs (values, mask) whose values under the mask are
   arbitrary (nan, +-inf included); [agree_body b b'] says b and b' have the same confidences, the same missing pattern
   and the same values at non-missing points.  Every theorem holds for every numeric instance O (reals, binary64) and
   every choice E of the external numerics (fill values, float32 cast, atan/acos, the scipy interpolant): no law of the
   arithmetic is used, so rounding, overflow and nan propagation are covered. *)
Require Import String List Arith Bool ZArith PrimFloat.
Require Import Tensor Num Result C09_Masked C09_Ops C09_TfNorm C09_Facts C09_Src C09_Run C09_Core C09_NI C09_NI2 C09_NI3 C09_GenTie C09_Examples Gen_C09.
Import ListNotations.

(* two fillings of the missing slots of one pose agree - on every backend *)
Theorem two_fillings_agree : forall (O : ops) (raw raw' conf : tensor (T O)), same_pose O raw raw' conf ->
  agree_body O (np_ctor O (of_plain O raw) conf) (np_ctor O (of_plain O raw') conf) /\
  agree_body O (t_ctor_plain O raw conf) (t_ctor_plain O raw' conf).
Proof. exact (fun O raw raw' conf H => conj (same_pose_np O raw raw' conf H) (same_pose_t O raw raw' conf H)). Qed.
Print Assumptions two_fillings_agree.
Example two_fillings_agree_nonvacuous : same_pose F_ops ex_raw ex_raw' ex_conf /\ bdat ex_np <> bdat ex_np'.
Proof. exact (conj ex_same_pose ex_differ). Qed.
Print Assumptions two_fillings_agree_nonvacuous.
Example agree_nonvacuous : agree_body F_ops ex_np ex_np' /\ agree_body F_ops ex_t ex_t' /\ agree F_ops ex_p ex_p'.
Proof. exact (conj ex_agree_np (conj ex_agree_t ex_agree_p)). Qed.
Print Assumptions agree_nonvacuous.

(* selection: points (get_components -> get_points) and frames, NumPy / Torch / TensorFlow *)
Theorem selection_noninterference : forall (O : ops) (idx : list nat) (b b' : body O), agree_body O b b' ->
  vres O (np_get_points O idx b) = vres O (np_get_points O idx b') /\
  vres O (t_get_points O idx b) = vres O (t_get_points O idx b') /\
  vres O (np_select_frames O idx b) = vres O (np_select_frames O idx b') /\
  vres O (t_select_frames O idx b) = vres O (t_select_frames O idx b') /\
  vres O (tf_select_frames O idx b) = vres O (tf_select_frames O idx b') /\
  (forall int_cast : bool, vres O (tf_get_points O int_cast idx b) = vres O (tf_get_points O int_cast idx b')).
Proof. exact (fun O idx b b' H => conj (np_get_points_ni O idx b b' H) (conj (t_get_points_ni O idx b b' H)
  (conj (np_select_frames_ni O idx b b' H) (conj (t_select_frames_ni O idx b b' H)
  (conj (tf_select_frames_ni O idx b b' H) (fun ic => tf_get_points_ni O ic idx b b' H)))))). Qed.
Print Assumptions selection_noninterference.

(* normalisation: Pose.normalize, normalize_distribution (with the returned mu, std), unnormalize_distribution *)
Theorem normalize_noninterference : forall (O : ops) (E : ext O) (p1 p2 : nat) (scale_factor : T O) (b b' : body O),
  agree_body O b b' -> agree_body O (np_normalize O E p1 p2 scale_factor b) (np_normalize O E p1 p2 scale_factor b').
Proof. exact np_normalize_ni. Qed.
Print Assumptions normalize_noninterference.
Theorem normalize_distribution_noninterference : forall (O : ops) (E : ext O) (lead : nat) (b b' : body O), agree_body O b b' ->
  agree_body O (fst (np_normalize_distribution O E lead b)) (fst (np_normalize_distribution O E lead b')) /\
  snd (np_normalize_distribution O E lead b) = snd (np_normalize_distribution O E lead b').
Proof. intros O E lead b b' H. destruct (agree_body_inv O _ _ H) as (s & l & l' & c & -> & -> & Hl). unfold np_normalize_distribution; cbn [fst snd bdat bconf shape data].
  rewrite <- (red_lead_VIL O _ _ _ _ _ (VIL_mmean O E) Hl), <- (red_lead_VIL O _ _ _ _ _ (VIL_mstd O E) Hl).
  split; [auto 6 with ni nocore|reflexivity]. Qed.
Print Assumptions normalize_distribution_noninterference.
Theorem unnormalize_distribution_noninterference : forall (O : ops) (mu sd : list (T O)) (b b' : body O), agree_body O b b' ->
  agree_body O (np_unnormalize_distribution O mu sd b) (np_unnormalize_distribution O mu sd b').
Proof. intros O mu sd b b' H. destruct (agree_body_inv O _ _ H) as (s & l & l' & c & -> & -> & Hl). unfold np_unnormalize_distribution; cbn [bdat bconf shape data].
  auto 6 with ni nocore. Qed.
Print Assumptions unnormalize_distribution_noninterference.
Example normalize_nonvacuous :
  visible_body F_ops (np_normalize F_ops FE 0 0 1%float ex_np) = visible_body F_ops (np_normalize F_ops FE 0 0 1%float ex_np').
Proof. apply (np_normalize_ni F_ops FE). exact ex_agree_np. Qed.
Print Assumptions normalize_nonvacuous.

(* normalisation on a TensorFlow body (Pose.normalize / normalize_distribution go through MaskedTensor.mean / variance / std,
   arithmetic between masked tensors and utils.fast_math.distance_batch; Torch bodies do not offer them), and
   unnormalize_distribution on Torch / TensorFlow bodies, with plain and with masked (mu, std) *)
Theorem masked_tensor_statistics_noninterference : forall (O : ops) (l l' : list (cell O)), agree_l O l l' ->
  tfmean O l = tfmean O l' /\ tfvariance O l = tfvariance O l' /\ tfstd O l = tfstd O l'.
Proof. exact (fun O l l' H => conj (VIL_tfmean O l l' H) (conj (VIL_tfvariance O l l' H) (VIL_tfstd O l l' H))). Qed.
Print Assumptions masked_tensor_statistics_noninterference.
Theorem masked_tensor_statistics_missing_iff_no_valid_cell : forall (O : ops) (l : list (cell O)),
  snd (tfmean O l) = Nat.eqb (count O l) 0 /\ snd (tfstd O l) = Nat.eqb (count O l) 0.
Proof. exact (fun O l => conj (tfmean_missing O l) (tfstd_missing O l)). Qed.
Print Assumptions masked_tensor_statistics_missing_iff_no_valid_cell.
Theorem normalize_noninterference_tensorflow : forall (O : ops) (p1 p2 : nat) (scale_factor : T O) (b b' : body O),
  agree_body O b b' -> agree_body O (tf_normalize O p1 p2 scale_factor b) (tf_normalize O p1 p2 scale_factor b').
Proof. exact tf_normalize_ni. Qed.
Print Assumptions normalize_noninterference_tensorflow.
Theorem normalize_distribution_noninterference_tensorflow : forall (O : ops) (lead : nat) (b b' : body O), agree_body O b b' ->
  agree_body O (fst (tf_normalize_distribution O lead b)) (fst (tf_normalize_distribution O lead b')) /\
  snd (tf_normalize_distribution O lead b) = snd (tf_normalize_distribution O lead b').
Proof. exact tf_normalize_distribution_ni. Qed.
Print Assumptions normalize_distribution_noninterference_tensorflow.
Theorem unnormalize_distribution_noninterference_masked_tensor : forall (O : ops) (b b' : body O), agree_body O b b' ->
  (forall mu sd : list (T O), agree_body O (t_unnormalize_distribution O mu sd b) (t_unnormalize_distribution O mu sd b')) /\
  (forall mu mu' sd sd' : list (cell O), agree_l O mu mu' -> agree_l O sd sd' ->
     agree_body O (t_unnormalize_distribution_masked O mu sd b) (t_unnormalize_distribution_masked O mu' sd' b')).
Proof. exact (fun O b b' H => conj (fun mu sd => t_unnormalize_distribution_ni O mu sd b b' H)
  (fun mu mu' sd sd' Hm Hs => t_unnormalize_distribution_masked_ni O mu mu' sd sd' b b' Hm Hs H)). Qed.
Print Assumptions unnormalize_distribution_noninterference_masked_tensor.
Example normalize_tensorflow_nonvacuous :
  bdat ex_t <> bdat ex_t' /\
  visible_body F_ops (tf_normalize F_ops 0 0 1%float ex_t) = visible_body F_ops (tf_normalize F_ops 0 0 1%float ex_t') /\
  visible_body F_ops (fst (tf_normalize_distribution F_ops 2 ex_t)) = visible_body F_ops (fst (tf_normalize_distribution F_ops 2 ex_t')).
Proof. split; [exact ex_differ_t|]. split; [apply (tf_normalize_ni F_ops); exact ex_agree_t|].
  apply (tf_normalize_distribution_ni F_ops 2 _ _ ex_agree_t). Qed.
Print Assumptions normalize_tensorflow_nonvacuous.

(* linear transforms: flip; matmul with any matrix (augment2d = matmul with the drawn matrix, for every draw) *)
Theorem flip_noninterference : forall (O : ops) (axis : nat) (b b' : body O), agree_body O b b' ->
  agree_body O (np_flip O axis b) (np_flip O axis b').
Proof. intros O axis b b' H. destruct (agree_body_inv O _ _ H) as (s & l & l' & c & -> & -> & Hl). unfold np_flip; cbn [bdat bconf shape data]. auto with ni nocore. Qed.
Print Assumptions flip_noninterference.
Theorem matmul_noninterference_numpy : forall (O : ops) (E' : nat) (M : list (T O)) (b b' : body O), agree_body O b b' ->
  agree_body O (np_matmul O E' M b) (np_matmul O E' M b').
Proof. intros O E' M b b' H. destruct (agree_body_inv O _ _ H) as (s & l & l' & c & -> & -> & Hl). unfold np_matmul; cbn [bdat bconf shape data].
  now rewrite (madot_eq O _ _ _ _ _ Hl). Qed.
Print Assumptions matmul_noninterference_numpy.
(* Torch / TensorFlow multiply the stored values; a result row is valid only if every coordinate of the point is *)
Theorem matmul_noninterference_masked_tensor : forall (O : ops) (E' : nat) (M : list (T O)) (b b' : body O), agree_body O b b' ->
  agree_body O (t_matmul O E' M b) (t_matmul O E' M b').
Proof. intros O E' M b b' H. destruct (agree_body_inv O _ _ H) as (s & l & l' & c & -> & -> & Hl). unfold t_matmul, t_ctor; cbn [bdat bconf shape data].
  apply agree_body_mkB, agree_mkT, tdot_agree, Hl. Qed.
Print Assumptions matmul_noninterference_masked_tensor.

(* interpolation, for every interpolant (linear / quadratic / cubic are instances of E.interp), every new frame count and
   both defaults of first_step_index *)
Theorem interpolate_noninterference : forall (O : ops) (E : ext O) (dflt_len : bool) (kind NF : nat) (b b' : body O), agree_body O b b' ->
  vres O (np_interpolate O E dflt_len kind NF b) = vres O (np_interpolate O E dflt_len kind NF b').
Proof. intros O E dflt_len kind NF b b' H. destruct (agree_body_inv O _ _ H) as (s & l & l' & c & -> & -> & Hl). unfold np_interpolate; cbn [bdat bconf shape].
  now rewrite (interp_tracks_eq O E _ _ _ _ _ _ _ _ _ _ _ (agree_data O _ _ (transpose_agree O POINTS_DIMS _ _ (agree_mkT O s _ _ Hl)))). Qed.
Print Assumptions interpolate_noninterference.

(* bounding boxes and focus (focus: the body and the new header dimensions) *)
Theorem bbox_noninterference : forall (O : ops) (E : ext O) (comps : list nat) (b b' : body O), agree_body O b b' ->
  vres O (np_bbox O E comps b) = vres O (np_bbox O E comps b').
Proof. intros O E comps b b' H. destruct (agree_body_inv O _ _ H) as (s & l & l' & c & -> & -> & Hl). unfold np_bbox; cbn [bdat bconf shape].
  now rewrite (flat_map_ext _ _ (fun on => comp_box_eq O E _ _ _ on (agree_data O _ _ (transpose_agree O POINTS_DIMS _ _ (agree_mkT O s _ _ Hl))))). Qed.
Print Assumptions bbox_noninterference.
Theorem focus_noninterference : forall (O : ops) (E : ext O) (b b' : body O), agree_body O b b' ->
  vfocus O (np_focus O E b) = vfocus O (np_focus O E b').
Proof. intros O E b b' H. destruct (agree_body_inv O _ _ H) as (s & l & l' & c & -> & -> & Hl). unfold np_focus; cbn [bdat bconf shape data].
  rewrite <- (red_lead_VIL O _ _ _ _ _ (VIL_mmin O E) Hl), <- (red_lead_VIL O _ _ _ _ _ (VIL_mmax O E) Hl).
  match goal with |- context [if ?c then Err _ else _] => destruct c end; [reflexivity|].
  unfold vfocus; cbn [rmap fst snd]. do 2 f_equal. apply agree_body_mkB, agree_mkT.
  match goal with |- context [if ?c then _ else _] => destruct c end; auto with ni nocore. Qed.
Print Assumptions focus_noninterference.

(* zero-filling: non-interference, and exactly 0 at every missing slot on every backend *)
Theorem zero_filled_noninterference : forall (O : ops) (b b' : body O), agree_body O b b' ->
  agree_body O (np_zero_filled O b) (np_zero_filled O b') /\ t_zero_filled O b = t_zero_filled O b'.
Proof. exact (fun O b b' H => conj (np_zero_filled_ni O b b' H) (t_zero_filled_ni O b b' H)). Qed.
Print Assumptions zero_filled_noninterference.
Theorem zero_fill_exact : forall (O : ops) (b : body O) (k : nat), k < length (data (bdat b)) ->
  (snd (rd O (data (bdat b)) k) = true -> rdT O (data (t_zero_filled O b)) k = zero O) /\
  (snd (rd O (data (bdat (np_zero_filled O b))) k) = true -> fst (rd O (data (bdat (np_zero_filled O b))) k) = zero O).
Proof. exact (fun O b k Hk => conj (fun Hm => t_zero_fill_exact O b k Hm Hk) (np_zero_fill_exact O b k)). Qed.
Print Assumptions zero_fill_exact.
(* ... stated on the zero_filled rule regenerated from torch/masked/tensor.py and tensorflow/masked/tensor.py *)
Theorem zero_fill_exact_source_rule : forall (O : ops) (c : cell O), snd c = true ->
  zf_sem O Gen_C09.torch_zero_filled c = zero O /\ zf_sem O Gen_C09.tf_zero_filled c = zero O.
Proof. intros O c H. destruct (zero_filled_tie O) as [H1 H2]. rewrite H1, H2. unfold tzero. rewrite H. split; reflexivity. Qed.
Print Assumptions zero_fill_exact_source_rule.
Example zero_fill_nonvacuous : snd (nan, true) = true.
Proof. reflexivity. Qed.
Print Assumptions zero_fill_nonvacuous.
(* the other rule, value * mask ([ZF_mul], DESIGN F9), violates exactness: nan * 0 = nan *)
Theorem zero_fill_by_multiplication_refuted : exists c : cell F_ops, snd c = true /\ zf_sem F_ops ZF_mul c <> zero F_ops.
Proof. exists (nan, true). split; [reflexivity|]. intros H.
  apply (f_equal (fun x => PrimFloat.eqb x x)) in H. vm_compute in H. discriminate. Qed.
Print Assumptions zero_fill_by_multiplication_refuted.

(* serialisation round trip.  The file keeps the stored values and the confidences, not the mask (byte level: C01), so the
   claim needs the class invariant "masked => confidence 0" (C12; established by the constructor) - partial in that sense *)
Theorem roundtrip_noninterference_partial : forall (O : ops) (E : ext O) (b b' : body O),
  (forall x, is0 O x = true -> is0 O (cast32 E x) = true) ->
  wf_body O b -> mask_le_conf O b -> mask_le_conf O b' -> agree_body O b b' ->
  agree_body O (np_roundtrip O E b) (np_roundtrip O E b').
Proof. intros O E b b' Hcast Hwf Hi _. now apply np_roundtrip_ni. Qed.
Print Assumptions roundtrip_noninterference_partial.
Theorem constructor_establishes_invariant : forall (O : ops) (raw conf : tensor (T O)),
  mask_le_conf O (np_ctor O (of_plain O raw) conf).
Proof. exact np_ctor_plain_inv. Qed.
Print Assumptions constructor_establishes_invariant.
Example roundtrip_nonvacuous :
  (forall x, is0 F_ops x = true -> is0 F_ops (cast32 FE x) = true) /\ wf_body F_ops ex_np /\
  mask_le_conf F_ops ex_np /\ mask_le_conf F_ops ex_np'.
Proof. split; [intros x H; exact H|]. split; [reflexivity|]. split; apply np_ctor_plain_inv. Qed.
Print Assumptions roundtrip_nonvacuous.

(* feature representations: NumPy distance; Torch distance, angle, inner angle, point-line distance, points *)
Theorem representations_noninterference : forall (O : ops) (E : ext O) (p1 p1' p2 p2' p3 p3' : marr O),
  agree O p1 p1' -> agree O p2 p2' -> agree O p3 p3' ->
  np_rep_distance O E p1 p2 = np_rep_distance O E p1' p2' /\
  t_rep_distance O p1 p2 = t_rep_distance O p1' p2' /\
  t_rep_angle O E p1 p2 = t_rep_angle O E p1' p2' /\
  t_rep_inner_angle O E p1 p2 p3 = t_rep_inner_angle O E p1' p2' p3' /\
  t_rep_point_line O p1 p2 p3 = t_rep_point_line O p1' p2' p3' /\
  t_rep_points O p1 = t_rep_points O p1'.
Proof. exact (fun O E p1 p1' p2 p2' p3 p3' H1 H2 H3 =>
  conj (np_rep_distance_ni O E p1 p1' p2 p2' H1 H2) (conj (t_rep_distance_ni O p1 p1' p2 p2' H1 H2)
  (conj (t_rep_angle_ni O E p1 p1' p2 p2' H1 H2) (conj (t_rep_inner_angle_ni O E p1 p1' p2 p2' p3 p3' H1 H2 H3)
  (conj (t_rep_point_line_ni O p1 p1' p2 p2' p3 p3' H1 H2 H3) (t_rep_points_ni O p1 p1' H1)))))). Qed.
Print Assumptions representations_noninterference.

(* ties: facts regenerated from the source on this run = what the model was written from *)
Theorem tie_axes : Gen_C09.points_dims = POINTS_DIMS /\
  Gen_C09.np_conf_reshape = CONF_RESHAPE /\ Gen_C09.torch_conf_reshape = CONF_RESHAPE /\ Gen_C09.tf_conf_reshape = CONF_RESHAPE.
Proof. exact (conj points_dims_tie conf_reshape_tie). Qed.
Print Assumptions tie_axes.
Theorem tie_constructor_rules : (forall (O : ops) (c : T O),
  missing_sem O Gen_C09.np_mask_rule false c = is0 O c /\
  missing_sem O Gen_C09.torch_mask_rule true c = is0 O c /\ missing_sem O Gen_C09.tf_mask_rule true c = is0 O c) /\
  (Gen_C09.np_stack = StackLastDim /\ Gen_C09.torch_stack = StackLastDim /\ Gen_C09.tf_stack = StackLastDim).
Proof. exact (conj ctor_rule_tie ctor_stack_tie). Qed.
Print Assumptions tie_constructor_rules.
Theorem tie_zero_filled : forall O : ops, zf_sem O Gen_C09.torch_zero_filled = tzero O /\ zf_sem O Gen_C09.tf_zero_filled = tzero O.
Proof. exact zero_filled_tie. Qed.
Print Assumptions tie_zero_filled.
Theorem tie_mask_rules : (Gen_C09.torch_arith_mask = MAnd /\ Gen_C09.tf_arith_mask = MAnd /\
  Gen_C09.torch_sum_mask = MProd /\ Gen_C09.tf_sum_mask = MProd /\
  Gen_C09.torch_matmul_mask = MProd /\ Gen_C09.tf_matmul_mask = MProd) /\
  forallb (fun s => existsb (String.eqb s) Gen_C09.torch_whitelist) ["sqrt"; "square"; "acos"]%string = true /\
  (Gen_C09.np_fill_const = 0%Z /\ Gen_C09.flip_const = (-1)%Z).
Proof. exact (conj mask_rules_tie (conj whitelist_tie constants_tie)). Qed.
Print Assumptions tie_mask_rules.
Theorem tie_representations_end_in_zero_filled : Gen_C09.torch_rep_zero_filled =
  [("distance", true); ("angle", true); ("inner_angle", true); ("point_line_distance", true); ("points", true)]%string.
Proof. exact rep_zero_filled_tie. Qed.
Print Assumptions tie_representations_end_in_zero_filled.
Theorem tie_sources :
  Gen_C09.src_torch_masked_tensor_MaskedTensor = C09_Src.torch_masked_tensor_MaskedTensor /\
  Gen_C09.src_tensorflow_masked_tensor_MaskedTensor = C09_Src.tensorflow_masked_tensor_MaskedTensor /\
  Gen_C09.src_torch_pose_body_TorchPoseBody = C09_Src.torch_pose_body_TorchPoseBody /\
  Gen_C09.src_tensorflow_pose_body_TensorflowPoseBody = C09_Src.tensorflow_pose_body_TensorflowPoseBody /\
  Gen_C09.src_numpy_pose_body_NumPyPoseBody = C09_Src.numpy_pose_body_NumPyPoseBody /\
  Gen_C09.src_numpy_representation_distance_DistanceRepresentation = C09_Src.numpy_representation_distance_DistanceRepresentation /\
  Gen_C09.src_torch_representation_distance_DistanceRepresentation = C09_Src.torch_representation_distance_DistanceRepresentation /\
  Gen_C09.src_torch_representation_angle_AngleRepresentation = C09_Src.torch_representation_angle_AngleRepresentation /\
  Gen_C09.src_torch_representation_inner_angle_InnerAngleRepresentation = C09_Src.torch_representation_inner_angle_InnerAngleRepresentation /\
  Gen_C09.src_torch_representation_point_line_distance_PointLineDistanceRepresentation = C09_Src.torch_representation_point_line_distance_PointLineDistanceRepresentation /\
  Gen_C09.src_torch_representation_points_PointsRepresentation = C09_Src.torch_representation_points_PointsRepresentation /\
  Gen_C09.src_utils_fast_math = C09_Src.utils_fast_math.
Proof. exact sources_tie. Qed.
Print Assumptions tie_sources.
(* the statement lists model/C09_TfNorm.v transcribes, spelled out: MaskedTensor.mean / variance / std / fix_nan of
   tensorflow/masked/tensor.py and utils/fast_math.py distance_batch, as regenerated from the source on this run *)
Theorem tie_tf_statistics :
  src_of "mean" Gen_C09.src_tensorflow_masked_tensor_MaskedTensor =
    ["mt_sum = tf.math.reduce_sum(self.zero_filled(), axis=axis, keepdims=keepdims)"; "mt_count = tf.math.reduce_sum(tf.cast(self.mask, mt_sum.dtype), axis=axis, keepdims=keepdims)"; "tensor = tf.math.divide(mt_sum, mt_count)"; "mask = tf.cast(mt_count, tf.bool)"; "mt = MaskedTensor(tensor=tensor, mask=mask)"; "return mt.fix_nan()"] /\
  src_of "variance" Gen_C09.src_tensorflow_masked_tensor_MaskedTensor =
    ["means = self.mean(axis=axis, keepdims=True)"; "diff = self - means"; "squared_deviations = diff.square()"; "return squared_deviations.mean(axis=axis)"] /\
  src_of "std" Gen_C09.src_tensorflow_masked_tensor_MaskedTensor =
    ["variance = self.variance(axis=axis)"; "return variance.sqrt()"] /\
  src_of "fix_nan" Gen_C09.src_tensorflow_masked_tensor_MaskedTensor =
    ["self.tensor = tf.where(tf.math.is_finite(self.tensor), self.tensor, tf.zeros_like(self.tensor))"; "return self"] /\
  src_of "distance_batch" Gen_C09.src_utils_fast_math =
    ["squared = (p1s - p2s) ** 2"; "summed = squared.sum(axis=-1)"; "return summed ** 0.5"].
Proof. exact tf_statistics_tie. Qed.
Print Assumptions tie_tf_statistics.
