(* Decoders are programs over the reader interface of utils/reader.py; BufferReader and BytesIOReader
   are two interpreters of the same program (DESIGN appendix A). *)
From Coq Require Import ZArith NArith List Lia ZifyBool ZifyN ZifyNat Bool.
Require Import ListN Result Bytes.
Import ListNotations.
Open Scope N_scope.

Inductive prog (A : Type) :=
| Ret (a : A)
| Block (n : N) (k : bytes -> prog A)     (* unpack / unpack_numpy / unpack_str payload of n bytes *)
| Skip (n : N) (k : prog A)               (* reader.skip(struct, times) *)
| Adv (n : N) (k : prog A)                (* reader.advance(struct, times): moves read_offset only *)
| BytesLeft (k : Z -> prog A)             (* reader.bytes_left() *)
| Fail (e : err).
Arguments Ret {A}. Arguments Block {A}. Arguments Skip {A}. Arguments Adv {A}. Arguments BytesLeft {A}. Arguments Fail {A}.

Fixpoint pbind {A B} (p : prog A) (f : A -> prog B) : prog B :=
  match p with
  | Ret a => f a
  | Block n k => Block n (fun b => pbind (k b) f)
  | Skip n k => Skip n (pbind k f)
  | Adv n k => Adv n (pbind k f)
  | BytesLeft k => BytesLeft (fun z => pbind (k z) f)
  | Fail e => Fail e
  end.
Notation "'dop' x <- p ; k" := (pbind p (fun x => k)) (at level 200, x pattern, p at level 100, k at level 200).
Definition plift {A} (r : result A) : prog A := match r with Ok a => Ret a | Err e => Fail e end.
Fixpoint prep {A} (n : nat) (p : prog A) : prog (list A) :=
  match n with O => Ret [] | S k => dop a <- p; dop l <- prep k p; Ret (a :: l) end.

(* ---- BufferReader (utils/reader.py:41-211): buffer, read_offset; read_skipped stays 0 ---- *)
Record preader := { pbuf : bytes; poff : N }.
Fixpoint run_plain {A} (p : prog A) (r : preader) : result (A * preader) :=
  match p with
  | Ret a => Ok (a, r)
  | Fail e => Err e
  | Block n k => if poff r + n <=? lenN (pbuf r)
                 then run_plain (k (takeN n (dropN (poff r) (pbuf r)))) {| pbuf := pbuf r; poff := poff r + n |}
                 else Err StructError
  | Skip n k => run_plain k {| pbuf := pbuf r; poff := poff r + n |}
  | Adv n k => run_plain k {| pbuf := pbuf r; poff := poff r + n |}
  | BytesLeft k => run_plain (k (Z.of_N (lenN (pbuf r)) - Z.of_N (poff r))%Z) r
  end.

(* ---- BytesIOReader (utils/reader.py:214-238) over a seekable stream holding [file] ----
   buf/off/skipped = buffer/read_offset/read_skipped; pulled = bytes the stream has delivered. *)
Record sreader := { buf : bytes; off : N; skipped : N; pulled : N }.
Definition bytes_left (r : sreader) : Z := Z.of_N (lenN (buf r)) - Z.of_N (off r) + Z.of_N (skipped r).
(* read_chunk: seek(read_skipped + len(buffer)); buffer.extend(read(k)); EOFError iff buffer stays empty *)
Definition read_chunk (file : bytes) (k : N) (r : sreader) : result sreader :=
  let p := skipped r + lenN (buf r) in
  let d := takeN k (dropN p file) in
  let b := buf r ++ d in
  match b with
  | [] => Err EOF
  | _ => Ok {| buf := b; off := off r; skipped := skipped r; pulled := pulled r + lenN d |}
  end.
Definition expect (file : bytes) (n : N) (r : sreader) : result sreader :=
  if (bytes_left r <? Z.of_N n)%Z then read_chunk file (Z.to_N (Z.of_N n - bytes_left r)) r else Ok r.
(* skip: buffer = buffer[: read_offset - read_skipped]; read_skipped += n; read_offset += n *)
Definition sskip (n : N) (r : sreader) : sreader :=
  {| buf := takeN (off r - skipped r) (buf r); off := off r + n; skipped := skipped r + n; pulled := pulled r |}.
Fixpoint run_stream {A} (file : bytes) (p : prog A) (r : sreader) : result (A * sreader) :=
  match p with
  | Ret a => Ok (a, r)
  | Fail e => Err e
  | Block n k =>
      match expect file n r with
      | Err e => Err e
      | Ok r1 =>
        let i := off r1 - skipped r1 in
        if i + n <=? lenN (buf r1)
        then run_stream file (k (takeN n (dropN i (buf r1))))
               {| buf := buf r1; off := off r1 + n; skipped := skipped r1; pulled := pulled r1 |}
        else Err StructError
      end
  | Skip n k => run_stream file k (sskip n r)
  | Adv n k => run_stream file k {| buf := buf r; off := off r + n; skipped := skipped r; pulled := pulled r |}
  | BytesLeft k => run_stream file (k (bytes_left r)) r
  end.
