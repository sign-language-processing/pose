(* C05: the JavaScript header parser on the bytes of write_header reports the header the Python reader returns. *)
From Coq Require Import ZArith NArith List Lia ZifyBool ZifyN ZifyNat Bool.
Require Import ListN Result Bytes Utf8 Utf8S F32 Prog Codec ProgLemmas CodecRT C05_JsParser C05_Spec C05_Index C05_Lemmas.
Import ListNotations.
Open Scope N_scope.

Definition utf8_len (s : str) : N := match enc_utf8 s with Some b => lenN b | None => 0 end.
Definition js_strv (s : str) : value := VStr (strip_bom s).
(* the object componentParser yields for a component as the Python reader returns it *)
Definition js_comp_obj (c : component) : obj :=
  [(k__name, VNum (Z.of_N (utf8_len (c_name c)))); (k_name, js_strv (c_name c));
   (k__format, VNum (Z.of_N (utf8_len (c_format c)))); (k_format, js_strv (c_format c));
   (k__points, VNum (Z.of_N (lenN (c_points c)))); (k__limbs, VNum (Z.of_N (lenN (c_limbs c))));
   (k__colors, VNum (Z.of_N (lenN (c_colors c))));
   (k_points, VArr (map js_strv (c_points c)));
   (k_limbs, VArr (map (fun l => VObj (js_limb_obj l)) (c_limbs c)));
   (k_colors, VArr (map (fun k => VObj (js_color_obj k)) (c_colors c)))].
Definition js_header_obj (h : header) (hl : N) : obj :=
  let '(w, hh, d) := h_dims h in
  [(k_version, VF32 (h_version h)); (k_width, VNum (Z.of_N w)); (k_height, VNum (Z.of_N hh)); (k_depth, VNum (Z.of_N d));
   (k__components, VNum (Z.of_N (lenN (h_comps h))));
   (k_components, VArr (map (fun c => VObj (js_comp_obj c)) (h_comps h)));
   (k_headerLength, VNum (Z.of_N hl))].

(* a length-prefixed string, as write_str encodes it: uint16(lk) then string(k, {length: lk}) *)
Lemma run_lstr lk k rest vars pre s e post : write_str s = Ok e ->
  run true (Fld KU16 lk (Str k (LenVar lk) rest)) vars (pre ++ e ++ post) (lenN pre)
  = run true rest (obj_set (obj_set vars lk (VNum (Z.of_N (utf8_len s)))) k (js_strv s)) ((pre ++ e) ++ post) (lenN (pre ++ e)).
Proof.
  intros H. apply write_str_ok in H. destruct H as [b [Hb [Hl ->]]]. unfold utf8_len. rewrite Hb.
  rewrite <- !app_assoc. rewrite run_u16 by exact Hl.
  rewrite (run_str _ _ _ _ _ b post s); [|unfold get_num; now rewrite obj_get_set_same|now apply dec_enc_utf8].
  now rewrite <- !app_assoc.
Qed.
Definition js_str_obj (s : str) : obj := [(k__chars, VNum (Z.of_N (utf8_len s))); (k_text, js_strv s)].
Lemma RS_str s e : write_str s = Ok e -> RS str_schema e (js_str_obj s).
Proof. intros H pre post. unfold str_schema. now rewrite (run_lstr _ _ _ _ _ _ _ _ H). Qed.

Lemma RS_component c e : write_component c = Ok e -> RS component_schema e (js_comp_obj (canon_comp c)).
Proof.
  unfold write_component. intros H.
  cbn [app] in H.
  apply concat_r_cons in H. destruct H as [e1 [r1 [H1 [H ->]]]].
  apply concat_r_cons in H. destruct H as [e2 [r2 [H2 [H ->]]]].
  apply concat_r_cons in H. destruct H as [e3 [r3 [H3 [H ->]]]].
  apply concat_r_app in H. destruct H as [e4 [r4 [H4 [H ->]]]].
  apply concat_r_app in H. destruct H as [e5 [e6 [H5 [H6 ->]]]].
  apply concat_r_map in H4. destruct H4 as [es4 [HF4 ->]].
  apply concat_r_map in H5. destruct H5 as [es5 [HF5 ->]].
  apply concat_r_map in H6. destruct H6 as [es6 [HF6 ->]].
  apply pack_u16s_ok in H3. destruct H3 as [HF3 ->].
  rewrite !Forall_cons_iff in HF3. destruct HF3 as [Hnp [Hnl [Hnc _]]].
  rewrite !ZN_lenN in *.
  intros pre post. unfold component_schema. cbn [flat_map]. rewrite !ZN_lenN. rewrite app_nil_r. rewrite <- !app_assoc.
  rewrite (run_lstr _ _ _ _ _ _ _ _ H1). rewrite (run_lstr _ _ _ _ _ _ _ _ H2).
  rewrite run_u16 by exact Hnp. rewrite run_u16 by exact Hnl. rewrite run_u16 by exact Hnc.
  rewrite (run_arr _ _ _ _ _ _ _ es4 _ _ (RS_all _ _ _ RS_str _ _ HF4)); [|apply eval_len_var; rewrite lenN_map; reflexivity].
  rewrite (run_arr _ _ _ _ _ _ _ es5 _ _ (RS_all _ _ _ RS_limb _ _ HF5)); [|apply eval_len_var; rewrite lenN_map; reflexivity].
  rewrite (run_arr _ _ _ _ _ _ _ es6 _ _ (RS_all _ _ _ RS_color _ _ HF6)); [|apply eval_len_var; rewrite lenN_map; reflexivity].
  cbn [run]. rewrite <- !app_assoc.
  unfold js_comp_obj, canon_comp. cbn [c_name c_format c_points c_limbs c_colors apply_fmt].
  rewrite !lenN_map, !map_map. reflexivity.
Qed.

Definition header_of_v (v : N) (dims : Z * Z * Z) (comps : list wcomponent) : header :=
  {| h_version := v;
     h_dims := (Z.to_N (fst (fst dims)), Z.to_N (snd (fst dims)), Z.to_N (snd dims));
     h_comps := map canon_comp comps |}.
Definition header_of := header_of_v version_word.

Lemma write_header_ok dims comps h : write_header dims comps = Ok h ->
  exists es, Forall2 (fun c e => write_component c = Ok e) comps es /\
    Z.to_N (fst (fst dims)) < 65536 /\ Z.to_N (snd (fst dims)) < 65536 /\ Z.to_N (snd dims) < 65536 /\ lenN comps < 65536 /\
    h = enc_u32 version_word ++ (enc_u16 (Z.to_N (fst (fst dims))) ++ enc_u16 (Z.to_N (snd (fst dims))) ++ enc_u16 (Z.to_N (snd dims)))
        ++ enc_u16 (lenN comps) ++ concat es.
Proof.
  unfold write_header. intros H.
  cbn [app] in H.
  apply concat_r_cons in H. destruct H as [e1 [r1 [H1 [H ->]]]]. injection H1 as <-.
  apply concat_r_cons in H. destruct H as [e2 [r2 [H2 [H ->]]]].
  apply concat_r_cons in H. destruct H as [e3 [r3 [H3 [H ->]]]].
  apply concat_r_map in H. destruct H as [es [HF ->]]. exists es.
  destruct dims as [[w hh] d]. unfold write_dims in H2.
  destruct (u16_ok w && u16_ok hh && u16_ok d); [|discriminate].
  apply pack_u16s_ok in H2. destruct H2 as [HF2 ->].
  rewrite !Forall_cons_iff in HF2. destruct HF2 as [Hw [Hh [Hd _]]].
  apply pack_u16s_ok in H3. destruct H3 as [HF3 ->]. apply Forall_inv in HF3.
  cbn [flat_map fst snd]. rewrite ZN_lenN in *. rewrite !app_nil_r. repeat split; assumption || reflexivity.
Qed.

(* parser.ts:46-61,184,187 : headerParser.parse(buffer) *)
Theorem js_header_obj_eq_v v dims comps h r : (v < 4294967296)%N -> write_header dims comps = Ok h ->
  parse header_schema (with_version v h ++ r) = Some (js_header_obj (header_of_v v dims comps) (lenN h)) /\
  lenN (with_version v h) = lenN h.
Proof.
  intros Hv H. destruct (write_header_ok _ _ _ H) as [es [HF [Hw [Hh [Hd [Hn ->]]]]]].
  unfold with_version. rewrite drop4_enc_u32.
  split; [|rewrite !lenN_app, !enc_u32_len; reflexivity].
  unfold parse, js_little, header_schema.
  change 0%N with (lenN (@nil N)). rewrite <- (app_nil_l (_ ++ r)). rewrite <- !app_assoc.
  rewrite run_f32 by exact Hv.
  rewrite run_u16 by exact Hw. rewrite run_u16 by exact Hh. rewrite run_u16 by exact Hd.
  rewrite run_u16 by exact Hn.
  rewrite (run_arr _ _ _ _ _ _ _ es _ _ (RS_all _ _ _ RS_component _ _ HF)); [|apply eval_len_var; rewrite lenN_map; reflexivity].
  cbn [run app]. rewrite <- !app_assoc.
  unfold js_header_obj, header_of_v. cbn [h_dims h_version h_comps apply_fmt].
  rewrite !lenN_map, !map_map, !lenN_app, !enc_u32_len, !enc_u16_len. reflexivity.
Qed.
Lemma with_version_same dims comps h : write_header dims comps = Ok h -> with_version version_word h = h.
Proof.
  intros H. destruct (write_header_ok _ _ _ H) as [es [_ [_ [_ [_ [_ ->]]]]]].
  unfold with_version. now rewrite drop4_enc_u32.
Qed.
Theorem js_header_obj_eq dims comps h r : write_header dims comps = Ok h ->
  parse header_schema (h ++ r) = Some (js_header_obj (header_of dims comps) (lenN h)).
Proof.
  intros H. rewrite <- (with_version_same _ _ _ H) at 1.
  exact (proj1 (js_header_obj_eq_v version_word dims comps h r version_word_lt H)).
Qed.
