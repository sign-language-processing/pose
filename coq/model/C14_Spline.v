(* C14 - an executable stand-in for SciPy's quadratic / cubic interp1d (definitions only).
   scipy.interpolate.make_interp_spline(x, y, k) with the default not-a-knot knots (_not_a_knot):
   B-spline collocation solved by elimination with partial pivoting, evaluated by the Cox - de Boor
   recursion.  It instantiates the Section variable [spline] of C14_Interp.v in the extracted runner
   only; no theorem is about it (the theorems assume the three stated hypotheses of any [spline]: spline_shape, spline_nodes, spline_poly of proofs/C14_Eval.v), and the
   correspondence compares it with SciPy on every run. *)
From Coq Require Import List Arith Bool ZArith.
Require Import Num C14_Interp.
Import ListNotations.

Section BSpline.
Variable O : ops.
Notation T := (Num.T O).
Definition two : T := Num.of_nat O 2.
Definition ratio (num den : T) : T := if eqb O den (zero O) then zero O else div O num den.
(* _bsplines._not_a_knot *)
Definition nak_knots (k : nat) (xs : list T) : list T :=
  let x0 := hd (zero O) xs in
  let xn := last xs (zero O) in
  let t := if Nat.odd k then xs else map2 (fun a b => div O (add O a b) two) (tl xs) (removelast xs) in
  let k2 := if Nat.odd k then (k + 1) / 2 else k / 2 in
  repeat x0 (k + 1) ++ firstn (length t - 2 * k2) (skipn k2 t) ++ repeat xn (k + 1).
(* interval l with t[l] <= x < t[l+1], clipped to [k, n-1] (n = number of coefficients) *)
Definition interval (k n : nat) (t : list T) (x : T) : nat :=
  let c := length (filter (fun a => leb O a x) t) in
  Nat.max k (Nat.min (n - 1) (c - 1)).
Fixpoint basis (d : nat) (t : list T) (l : nat) (x : T) : list T :=
  match d with
  | 0 => map (fun j => if Nat.eqb j l then one O else zero O) (seq 0 (length t - 1))
  | S d' =>
      let b := basis d' t l x in
      let tn i := nth i t (zero O) in
      map (fun j =>
             add O (mul O (ratio (sub O x (tn j)) (sub O (tn (j + d)) (tn j))) (nth j b (zero O)))
                   (mul O (ratio (sub O (tn (j + d + 1)) x) (sub O (tn (j + d + 1)) (tn (j + 1)))) (nth (S j) b (zero O))))
          (seq 0 (length t - 1 - d))
  end.
(* linear system: rows (coefficients, right-hand sides) *)
Definition row := (list T * list T)%type.
Definition headabs (r : row) : T := abs O (hd (zero O) (fst r)).
Fixpoint pick (best : row) (seen rest : list row) : row * list row :=
  match rest with
  | [] => (best, seen)
  | r :: rest' => if ltb O (headabs best) (headabs r) then pick r (best :: seen) rest' else pick best (r :: seen) rest'
  end.
Definition axpy (m : T) (a b : list T) : list T := map2 (fun bj aj => sub O bj (mul O m aj)) b a.
Definition vsum (w : nat) (coef : list T) (vecs : list (list T)) : list T :=
  fold_right (fun cv acc => map2 (fun s v => add O s (mul O (fst cv) v)) acc (snd cv)) (repeat (zero O) w) (combine coef vecs).
Fixpoint solve (n w : nat) (sys : list row) : list (list T) :=
  match n with
  | 0 => []
  | S n' =>
      match sys with
      | [] => []
      | r0 :: rs =>
          let '(pv, others) := pick r0 [] rs in
          let a := hd (zero O) (fst pv) in
          let arow := tl (fst pv) in
          let others' := map (fun r => let m := div O (hd (zero O) (fst r)) a in
                                       (axpy m arow (tl (fst r)), axpy m (snd pv) (snd r))) others in
          let sol := solve n' w others' in
          let s := vsum w arow sol in
          map2 (fun r sj => div O (sub O r sj) a) (snd pv) s :: sol
      end
  end.
Definition nak_spline (k : nat) (xs : list T) (ys : list (list T)) (x : T) : list T :=
  let n := length xs in
  let w := length (hd [] ys) in
  let t := nak_knots k xs in
  let sys := map2 (fun xi yi => (basis k t (interval k n t xi) xi, yi)) xs ys in
  let c := solve n w sys in
  vsum w (basis k t (interval k n t x) x) c.
End BSpline.
