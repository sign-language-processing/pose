(* C14 - NumPyPoseBody.interpolate (definitions only; generic over Num.ops).
   Source: src/python/pose_format/numpy/pose_body.py:332-417 and the constructor :44-53.
   SciPy's interp1d: the linear kind is the concrete two-weight formula of
   scipy/interpolate/_interpolate.py `_call_linear`; the quadratic / cubic kinds are the Section variable
   [spline] (its three hypotheses spline_shape / spline_nodes / spline_poly are defined in proofs/C14_Eval.v).
   interp1d's bounds_error is not modelled as a branch: the slice handed to it lies inside
   [first,last] (lemma no_bounds_error, proofs/C14_Obs.v).  The model is of the REPAIRED index default
   (proposed-fixes/F17-interpolate-first-index-default.diff): `else len(new_steps)`; the shipped `else 0`
   invents an observation / raises when the new frame count is 1. *)
From Coq Require Import List Arith Bool ZArith PrimFloat.
Require Import Num Result C14_Count.
Import ListNotations.

Inductive kind := Linear | Quadratic | Cubic.

Definition map2 {A B C} (f : A -> B -> C) (la : list A) (lb : list B) : list C :=
  map (fun ab => f (fst ab) (snd ab)) (combine la lb).
Fixpoint find_index {A} (p : A -> bool) (l : list A) : option nat :=
  match l with
  | [] => None
  | a :: r => if p a then Some 0 else option_map S (find_index p r)
  end.
(* Python slice l[i:j] for 0 <= i, j <= len l *)
Definition slice {A} (i j : nat) (l : list A) : list A := firstn (j - i) (skipn i l).

Section Model.
Variable O : ops.
Notation T := (Num.T O).
Variable spline : nat -> list T -> list (list T) -> T -> list T.

(* :361-362  np.linspace(0, 1, n): arange(n) * (1 / (n - 1)), last sample set to the stop value; n = 1 gives [0] *)
Definition grid (n : nat) : list T :=
  match n with
  | 0 => []
  | 1 => [zero O]
  | _ => let step := div O (one O) (Num.of_nat O (n - 1)) in
         map (fun i => if Nat.eqb i (n - 1) then one O else mul O (Num.of_nat O i) step) (seq 0 n)
  end.

(* :344  mask of a row = mask of its confidence (last column), :331 mask = (confidence == 0) *)
Definition conf_of (row : list T) : T := last row (zero O).
Definition observed (row : list T) : bool := negb (eqb O (conf_of row) (zero O)).
(* :346,:351  partial_steps / partial_frames *)
Definition compress (steps : list T) (rows : list (list T)) : list (T * list T) :=
  filter (fun sr => observed (snd sr)) (combine steps rows).
(* :385-387 *)
Definition this_kind (k : kind) (c : nat) : kind :=
  if 3 <? c then k
  else if (2 <? c) && (match k with Cubic => true | _ => false end) then Quadratic
  else Linear.

(* scipy interp1d._call_linear: searchsorted(left) clipped to [1, len-1]; y = w1*y_hi + w0*y_lo *)
Definition seg (x0 : T) (y0 : list T) (x1 : T) (y1 : list T) (x : T) : list T :=
  let d := sub O x1 x0 in
  let w1 := div O (sub O x x0) d in
  let w0 := div O (sub O x1 x) d in
  map2 (fun a b => add O (mul O w1 b) (mul O w0 a)) y0 y1.
Fixpoint lerp_from (x0 : T) (y0 : list T) (rest : list (T * list T)) (x : T) : list T :=
  match rest with
  | [] => y0
  | (x1, y1) :: rest' =>
      match rest' with
      | [] => seg x0 y0 x1 y1 x
      | _ :: _ => if leb O x x1 then seg x0 y0 x1 y1 x else lerp_from x1 y1 rest' x
      end
  end.
Definition lerp (obs : list (T * list T)) (x : T) : list T :=
  match obs with
  | [] => []
  | (x0, y0) :: rest => lerp_from x0 y0 rest x
  end.
(* :359  f = interp1d(partial_steps, partial_frames, axis=0, kind=this_kind), at one abscissa *)
Definition eval_f (k : kind) (obs : list (T * list T)) (x : T) : list T :=
  match this_kind k (length obs) with
  | Linear => lerp obs x
  | Quadratic => spline 2 (map fst obs) (map snd obs) x
  | Cubic => spline 3 (map fst obs) (map snd obs) x
  end.
(* :382-388  one observation: f = lambda l: partial_frames  (one row whatever l is) *)
Definition f_of (k : kind) (obs : list (T * list T)) (l : list T) : list (list T) :=
  match obs with
  | [] => []
  | [(_, y0)] => [y0]
  | _ => map (eval_f k obs) l
  end.
Definition zeros (n w : nat) : list (list T) := repeat (repeat (zero O) w) n.
(* :395-399  np.argwhere(new_steps >= first_step)[0][0] / (new_steps > last_step) *)
Definition first_index (first : T) (new_steps : list T) : nat :=
  match find_index (fun x => leb O first x) new_steps with Some i => i | None => length new_steps end.
Definition last_index (last_ : T) (new_steps : list T) : nat :=
  match find_index (fun x => ltb O last_ x) new_steps with Some i => i | None => length new_steps end.
(* :390-410 after the observations are known; w = dims + 1 *)
Definition interp_obs (k : kind) (w : nat) (new_steps : list T) (obs : list (T * list T)) : list (list T) :=
  let n := length new_steps in
  match obs with
  | [] => zeros n w                                             (* :377-378 *)
  | (first, _) :: _ =>
      let last_ := last (map fst obs) (zero O) in
      if eqb O first (zero O) && eqb O last_ (one O) then f_of k obs new_steps      (* :392-393 *)
      else
        let fi := first_index first new_steps in
        let li := last_index last_ new_steps in
        if Nat.eqb fi li then zeros n w                           (* :401-402 *)
        else zeros fi w ++ f_of k obs (slice fi li new_steps) ++ zeros (n - li) w   (* :404-410 *)
  end.
(* :372-410 one point of one person; rows = (frames, dims + 1) *)
Definition interp_track (k : kind) (w : nat) (steps new_steps : list T) (rows : list (list T)) : list (list T) :=
  interp_obs k w new_steps (compress steps rows).

(* bodies: data (frames, people, points, dims), confidence (frames, people, points) *)
Record body := mkBody {
  b_fps : float; b_people : nat; b_points : nat; b_dims : nat;
  b_data : list (list (list (list T)));
  b_conf : list (list (list T)) }.
Record out_body := mkOut {
  o_fps : float;
  o_data : list (list (list (list T)));
  o_conf : list (list (list T));
  o_mask : list (list (list bool)) }.
(* :364-367  points_perspective + confidence as an extra coordinate: the track of point t of person p *)
Definition track (b : body) (p t : nat) : list (list T) :=
  map2 (fun fd fc => nth t (nth p fd []) [] ++ [nth t (nth p fc []) (zero O)]) (b_data b) (b_conf b).
Definition tracks_result (b : body) (k : kind) (n : nat) : list (list (list (list T))) :=
  let steps := grid (length (b_data b)) in
  let new_steps := grid n in
  map (fun t => map (fun p => interp_track k (S (b_dims b)) steps new_steps (track b p t)) (seq 0 (b_people b)))
      (seq 0 (b_points b)).
Definition cell (res : list (list (list (list T)))) (j p t : nat) : list T := nth j (nth p (nth t res []) []) [].
(* :332-417; the constructor :44-53 re-derives the mask from confidence == 0 *)
Definition interpolate (b : body) (new_fps : option float) (k : kind) : result out_body :=
  let new := match new_fps with Some f => f | None => b_fps b end in                (* :353-354 *)
  let F := length (b_data b) in
  if Nat.eqb F 1 then Err Value                                                      (* :357-358 *)
  else
    do n <- new_frame_count F new (b_fps b);                                         (* :360-362 *)
    if Nat.eqb (b_points b) 0 || Nat.eqb (b_people b) 0 then Err Value               (* np.stack([]) *)
    else
      let res := tracks_result b k n in
      if forallb (forallb (fun r => Nat.eqb (length r) n)) res then                  (* np.stack needs equal shapes *)
        let conf := map (fun j => map (fun p => map (fun t => last (cell res j p t) (zero O))
                         (seq 0 (b_points b))) (seq 0 (b_people b))) (seq 0 n) in
        Ok {| o_fps := new;
              o_data := map (fun j => map (fun p => map (fun t => removelast (cell res j p t))
                         (seq 0 (b_points b))) (seq 0 (b_people b))) (seq 0 n);
              o_conf := conf;
              o_mask := map (map (map (fun c => eqb O c (zero O)))) conf |}
      else Err Value.
End Model.
