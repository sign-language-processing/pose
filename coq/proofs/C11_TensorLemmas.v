(* C11 - the body gather: transpose / index / transpose equals "column i := column idx[i]". *)
From Coq Require Import List Arith Bool NArith ZArith Lia.
Require Import ListFacts Result Tensor C11_Str C11_Select C11_Helpers.
Import ListNotations.

Lemma tget_reindex {X} (d : X) ns f t ix : in_range ns ix -> tget d (reindex d ns f t) ix = tget d t (f ix).
Proof. intros H. unfold tget. rewrite reindex_shape.
  rewrite reindex_nth by (apply ravel_lt; exact H). rewrite unravel_ravel by exact H. reflexivity. Qed.
Lemma tget_tbuild {X} (d : X) ns f ix : in_range ns ix -> tget d (tbuild ns f) ix = f ix.
Proof. exact (tget_unravel d ns f ix). Qed.
Lemma tbuild_wf {X} ns (f : list nat -> X) : wf (tbuild ns f).
Proof. unfold wf, tbuild; cbn [shape data]. now rewrite map_length, seq_length. Qed.

(* [in_range s ix] for a literal index list: one [i < n] per axis, each a hypothesis or arithmetic *)
Ltac in_range_tac := unfold in_range; repeat constructor; try assumption; try lia.

Lemma gather_points_eq {X} (d : X) axes idx t n s :
  valid_perm axes (length (shape t)) = true -> shape (permute d axes t) = n :: s -> valid_perm axes (S (length s)) = true ->
  gather_points d axes idx t =
  if forallb (fun k => k <? n) idx then Ok (permute d axes (take0 d idx (permute d axes t))) else Err Index.
Proof. intros V1 S1 V2. unfold gather_points, permute_r at 1. rewrite V1. cbn [rbind]. unfold take0_r. rewrite S1.
  destruct (forallb (fun k => k <? n) idx); cbn [rbind]; [|reflexivity]. unfold permute_r.
  replace (shape (take0 d idx (permute d axes t))) with (length idx :: s) by (unfold take0; now rewrite reindex_shape, S1).
  cbn [length]. now rewrite V2. Qed.

(* POINTS_DIMS = (2,1,0,3) and confidence_reshape = (2,1,0) exchange axes 0 and 2 and keep the n trailing axes, as a
   transposition of shapes and as one of indexes *)
Definition swaps02 (axes : list nat) (n : nat) : Prop := forall (a b c : nat) e, length e = n ->
  map (fun k => nth k (a :: b :: c :: e) 0) axes = c :: b :: a :: e /\
  map (fun k => nth (pos_in k axes) (a :: b :: c :: e) 0) (seq 0 (length axes)) = c :: b :: a :: e.
Lemma points_dims_swaps : swaps02 points_dims 1.
Proof. intros a b c [|x [|? ?]] E; try discriminate E. split; reflexivity. Qed.
Lemma conf_perm_swaps : swaps02 conf_perm 0.
Proof. intros a b c [|? ?] E; try discriminate E. split; reflexivity. Qed.

(* column i of the result is column idx[i] of the source *)
Lemma gather_points_cols {X} (d : X) axes idx t F P N r : shape t = F :: P :: N :: r ->
  valid_perm axes (3 + length r) = true -> swaps02 axes (length r) ->
  exists g, gather_points d axes idx t = (if forallb (fun k => k <? N) idx then Ok g else Err Index) /\
    shape g = F :: P :: length idx :: r /\ wf g /\
    (Forall (fun k => k < N) idx -> forall f p i e, f < F -> p < P -> i < length idx -> in_range r e ->
       tget d g (f :: p :: i :: e) = tget d t (f :: p :: nth i idx 0 :: e)).
Proof. intros Hs V Hsw.
  assert (S1 : shape (permute d axes t) = N :: P :: F :: r) by (unfold permute; rewrite reindex_shape, Hs; now apply Hsw).
  assert (S2 : shape (take0 d idx (permute d axes t)) = length idx :: P :: F :: r) by (unfold take0; rewrite reindex_shape, S1; reflexivity).
  eexists. split; [apply (gather_points_eq d axes idx t N (P :: F :: r)); [rewrite Hs; exact V|exact S1|exact V]|].
  split; [unfold permute at 1; rewrite reindex_shape, S2; now apply Hsw|]. split; [unfold permute at 1; apply reindex_wf|].
  intros Hidx f p i e Hf Hp Hi He. pose proof (Forall2_length _ _ _ He) as Hl.
  unfold permute at 1. rewrite tget_reindex by (rewrite S2, (proj1 (Hsw _ _ _ _ eq_refl)); in_range_tac).
  rewrite (proj2 (Hsw f p i e Hl)).
  unfold take0. rewrite tget_reindex by (rewrite S1; cbn [tl]; in_range_tac). cbn [hd tl].
  assert (Hk : nth i idx 0 < N) by (rewrite Forall_forall in Hidx; apply Hidx, nth_In; exact Hi).
  unfold permute. rewrite tget_reindex by (rewrite Hs, (proj1 (Hsw _ _ _ _ eq_refl)); in_range_tac).
  now rewrite (proj2 (Hsw _ _ _ _ Hl)). Qed.

(* all three backends run the same three gathers; only TensorFlow refuses an empty index list (finding F17) *)
Definition gather_body (idx : list nat) (b : body) : result body :=
  do nd <- gather_points 0%Z points_dims idx (b_data b);
  do nm <- gather_points false points_dims idx (b_mask b);
  do nc <- gather_points 0%Z conf_perm idx (b_conf b);
  Ok (mkB (b_backend b) (b_fps b) nd nc nm).
Lemma get_points_eq tfe idx b : get_points tfe idx b =
  if match b_backend b with TF => tfe && match idx with [] => true | _ :: _ => false end | _ => false end
  then Err Value else gather_body idx b.
Proof. unfold get_points, np_get_points, torch_get_points, tf_get_points, gather_body. destruct (b_backend b); reflexivity. Qed.

Definition columns_from (idx : list nat) (b b' : body) (F P D : nat) : Prop :=
  body_shape b' F P (length idx) D /\ wf (b_data b') /\ wf (b_conf b') /\ wf (b_mask b') /\
  b_fps b' = b_fps b /\ b_backend b' = b_backend b /\
  forall f p i, f < F -> p < P -> i < length idx ->
    tget 0%Z (b_conf b') [f; p; i] = tget 0%Z (b_conf b) [f; p; nth i idx 0] /\
    forall e, e < D -> tget 0%Z (b_data b') [f; p; i; e] = tget 0%Z (b_data b) [f; p; nth i idx 0; e] /\
                       tget false (b_mask b') [f; p; i; e] = tget false (b_mask b) [f; p; nth i idx 0; e].

Lemma gather_body_spec idx b F P N D : body_shape b F P N D ->
  exists b', gather_body idx b = (if forallb (fun k => k <? N) idx then Ok b' else Err Index) /\
    (Forall (fun k => k < N) idx -> columns_from idx b b' F P D).
Proof. intros [Sd [Sm Sc]].
  destruct (gather_points_cols 0%Z points_dims idx _ _ _ _ _ Sd eq_refl points_dims_swaps) as [gd [Ed [Sd' [Wd Gd]]]].
  destruct (gather_points_cols false points_dims idx _ _ _ _ _ Sm eq_refl points_dims_swaps) as [gm [Em [Sm' [Wm Gm]]]].
  destruct (gather_points_cols 0%Z conf_perm idx _ _ _ _ _ Sc eq_refl conf_perm_swaps) as [gc [Ec [Sc' [Wc Gc]]]].
  exists (mkB (b_backend b) (b_fps b) gd gc gm). split.
  - unfold gather_body. rewrite Ed, Em, Ec. destruct (forallb (fun k => k <? N) idx); reflexivity.
  - intros Hidx. unfold columns_from, body_shape; cbn [b_data b_conf b_mask b_fps b_backend].
    repeat split; try assumption; [apply Gc|apply Gd|apply Gm]; in_range_tac. Qed.

Lemma get_points_spec tfe idx b b' F P N D :
  body_shape b F P N D -> get_points tfe idx b = Ok b' -> columns_from idx b b' F P D /\ Forall (fun k => k < N) idx.
Proof. intros Hb H. rewrite get_points_eq in H. destruct (gather_body_spec idx b F P N D Hb) as [g [E C]]. rewrite E in H.
  destruct (match b_backend b with TF => _ | _ => _ end); [discriminate|].
  destruct (forallb (fun k => k <? N) idx) eqn:Ef; [|discriminate]. injection H as <-.
  apply forallb_ltb in Ef. split; [now apply C|exact Ef]. Qed.

Lemma get_points_ok tfe idx b F P N D :
  body_shape b F P N D -> Forall (fun k => k < N) idx ->
  (tfe = false \/ b_backend b <> TF \/ idx <> []) -> exists b', get_points tfe idx b = Ok b'.
Proof. intros Hb Hidx Htf. rewrite get_points_eq. destruct (gather_body_spec idx b F P N D Hb) as [g [-> _]].
  rewrite (proj2 (forallb_ltb idx N) Hidx).
  destruct (b_backend b) eqn:Ebe; [eexists; reflexivity|eexists; reflexivity|].
  destruct Htf as [->|[Hn|Hn]]; [eexists; reflexivity|congruence|]. destruct idx; [congruence|]. rewrite andb_false_r. eexists; reflexivity. Qed.
