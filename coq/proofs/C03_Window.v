(* C03: window reads of written files and the rejection clauses, from bytes and from streams, under every consistent memo. *)
From Coq Require Import ZArith NArith List Lia ZifyBool ZifyN ZifyNat Bool.
Require Import ListN Result Bytes F32 Prog Codec ProgLemmas CodecRT PoseRead PoseReadLemmas StreamLemmas WindowLemmas StreamRead.
Import ListNotations.
Open Scope N_scope.

Section WithLegacy.
Variable legacy : vclass -> header -> rargs -> prog body.

Definition frames_of (p : wpose) : Z := Z.of_N (nth 0 (w_shape p) 0).
Definition valid_window (p : wpose) (s e : option Z) : Prop :=
  (start0 s = 0 \/ start0 s < frames_of p)%Z /\ (start0 s <= end0 e (frames_of p))%Z.
Definition window_pose (p : wpose) (s e : option Z) : pose :=
  {| p_header := canon_header p;
     p_body := window_body (canon_body p) (start0 s) (end0 e (frames_of p)) |}.

Lemma written_header p bs : write_pose p = Ok bs ->
  exists o, run_plain rd_header {| pbuf := bs; poff := 0 |} = Ok (canon_header p, {| pbuf := bs; poff := o |}).
Proof.
  intros H. destruct (write_pose_ok _ _ H) as [F [P [T [D [h [b [_ [_ [_ [_ [Hh [_ Hbs]]]]]]]]]]]].
  exists (lenN h). exact (header_of_written p bs h b Hh Hbs).
Qed.

Lemma canon_version p : version_class (h_version (canon_header p)) = V02.
Proof. unfold canon_header. destruct (w_dims p) as [[w hh] d]. apply version_word_class. Qed.

(* the two rejections: the body decoder raises by itself after a (possibly empty) v0.2 prefix, and then it raises
   the same under both readers *)
Lemma raises_after_prefix {X} m q a h o (p1 : prog X) f x r' e :
  MemoOK m -> run_plain rd_header {| pbuf := q; poff := 0 |} = Ok (h, {| pbuf := q; poff := o |}) ->
  read_body legacy h a = pbind p1 f -> v2prog p1 ->
  run_plain p1 {| pbuf := q; poff := o |} = Ok (x, r') -> f x = Fail e ->
  fst (read_bytes legacy m q a) = Err e /\ (any_arg a = true -> fst (fst (read_stream legacy m q a)) = Err e).
Proof.
  intros Hm Hh Hb Hv Hrun He. split.
  - rewrite (read_bytes_at_header legacy m q a h o Hm Hh), Hb, run_plain_bind, Hrun, He. reflexivity.
  - intros Ha. destruct (stream_handoff legacy m q a h o Hm Ha Hh) as [sr [HP [Ho [Hl [_ ->]]]]].
    destruct (pre_fwd q p1 sr o x r' Hv HP Ho Hl Hrun) as [sr' [Hrs _]].
    rewrite Hb, run_stream_bind, Hrs, He. reflexivity.
Qed.

(* giving both a time and a frame bound for the same end: the decoder is [Fail Value] from its first step, for every
   byte string with a v0.2 header *)
Lemma conflict_rejected_v02 m q a h o :
  MemoOK m -> run_plain rd_header {| pbuf := q; poff := 0 |} = Ok (h, {| pbuf := q; poff := o |}) ->
  version_class (h_version h) = V02 ->
  conflict (a_sf a) (a_st a) || conflict (a_ef a) (a_et a) = true ->
  (exists e, fst (read_bytes legacy m q a) = Err e) /\ (exists e, fst (fst (read_stream legacy m q a)) = Err e).
Proof.
  intros Hm Hh Hv Hc.
  assert (Hb : read_body legacy h a = pbind (Ret tt) (fun _ => Fail Value))
    by (unfold read_body, read_body_with; rewrite Hv, read_v0_2_shape, Hc; reflexivity).
  destruct (raises_after_prefix m q a h o (Ret tt) _ tt _ Value Hm Hh Hb I eq_refl eq_refl) as [H1 H2].
  split; exists Value; [exact H1|apply H2].
  unfold any_arg, conflict in *. destruct (a_sf a), (a_st a), (a_ef a), (a_et a); try reflexivity; discriminate.
Qed.

Theorem read_bytes_window m p bs a s e :
  MemoOK m -> write_pose p = Ok bs -> wf_arrays p -> 1 <= nth 3 (w_shape p) 0 ->
  conflict (a_sf a) (a_st a) = false -> conflict (a_ef a) (a_et a) = false ->
  resolve_start (fps_word p) (a_sf a) (a_st a) = Ok s -> resolve_end (fps_word p) (a_ef a) (a_et a) = Ok e ->
  valid_window p s e ->
  fst (read_bytes legacy m bs a) = Ok (window_pose p s e).
Proof.
  intros Hm H Hwf HD Hc1 Hc2 Hrs Hre [Hv1 Hv2].
  destruct (write_pose_ok _ _ H) as [F [P [T [D [h [b [Hs [Hcs [Hnd [Htp [Hh [Hb Hbs]]]]]]]]]]]].
  unfold window_pose, frames_of in *. rewrite Hs in *. cbn [nth] in *.
  pose proof (read_body_window_rt p b F P T D _ _ _ _ s e Hs Hcs Hwf Hnd Htp HD Hb Hc1 Hc2 Hrs Hre Hv1 Hv2 h []) as Hbody.
  rewrite app_nil_r, <- Hbs in Hbody.
  rewrite (read_bytes_at_header legacy m bs a _ _ Hm (header_of_written p bs h b Hh Hbs)), read_body_dispatch, Hbody.
  reflexivity.
Qed.

Theorem read_stream_noargs m file a : any_arg a = false ->
  fst (read_stream legacy m file a) = read_bytes legacy m file a.
Proof. intros Ha. unfold read_stream. rewrite Ha. cbn [negb]. destruct (read_bytes legacy m file a); reflexivity. Qed.

(* a start at or beyond the last frame (and > 0): after the three info fields the rest of the body decoder is
   [Fail _] *)
Theorem start_beyond_rejected m p bs a s :
  MemoOK m -> write_pose p = Ok bs ->
  conflict (a_sf a) (a_st a) = false -> conflict (a_ef a) (a_et a) = false ->
  resolve_start (fps_word p) (a_sf a) (a_st a) = Ok (Some s) ->
  (0 < s)%Z -> (frames_of p <= s)%Z ->
  (exists e, fst (read_bytes legacy m bs a) = Err e) /\ (exists e, fst (fst (read_stream legacy m bs a)) = Err e).
Proof.
  intros Hm H Hc1 Hc2 Hrs Hpos Hbey.
  destruct (write_pose_ok _ _ H) as [F [P [T [D [h [b [Hs [Hcs [Hnd [Htp [Hh [Hb Hbs]]]]]]]]]]]].
  unfold frames_of in Hbey. rewrite Hs in Hbey. cbn [nth] in Hbey.
  destruct (write_body_inv p b F P T D Hs Hb) as [fw [Hfps [HF [HP Eb]]]].
  assert (Ha : any_arg a = true).
  { unfold any_arg, resolve_start in *. destruct (a_sf a), (a_st a), (a_ef a), (a_et a); try reflexivity; discriminate. }
  unfold fps_word in Hrs. rewrite Hfps in Hrs.
  assert (Hfail : exists e, body_rest (canon_header p) (a_sf a) (a_st a) (a_ef a) (a_et a) (fw, F, P) = Fail e).
  { unfold body_rest. rewrite num_dims_canon, Hnd, total_points_canon, Htp, Hrs. cbn [plift pbind].
    destruct (resolve_end fw (a_ef a) (a_et a)) as [e'|er]; cbn [plift pbind]; [|eexists; reflexivity].
    unfold read_frames.
    destruct (Z.ltb_spec 0 s) as [_|]; [|lia]. destruct (Z.leb_spec (Z.of_N F) s) as [_|]; [|lia].
    cbn [andb pbind]. eexists; reflexivity. }
  destruct Hfail as [e He].
  pose proof (info3_rt fw F P (pack_f32_lt _ _ Hfps) HF HP h
                (flat_map enc_u32 (map f64_to_f32 (w_data p)) ++ flat_map enc_u32 (map f64_to_f32 (w_conf p)))) as Hinfo.
  rewrite <- !app_assoc in Hinfo. rewrite <- Eb, <- Hbs in Hinfo.
  assert (Hrb : read_body legacy (canon_header p) a = pbind info3 (body_rest (canon_header p) (a_sf a) (a_st a) (a_ef a) (a_et a)))
    by (rewrite read_body_dispatch, read_v0_2_shape, Hc1, Hc2; reflexivity).
  destruct (raises_after_prefix m bs a _ _ info3 _ _ _ e Hm (header_of_written p bs h b Hh Hbs) Hrb v2prog_info3 Hinfo He) as [H1 H2].
  split; exists e; [exact H1|exact (H2 Ha)].
Qed.
End WithLegacy.
