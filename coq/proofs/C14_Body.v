(* C14 - from tracks to whole bodies: the result of interpolate is, entry by entry, the per-track result. *)
From Coq Require Import Reals List Arith Bool Lia Lra Sorted PrimFloat.
Require Import ListFacts Num Result C14_Count C14_Interp C14_Index C14_Grid C14_Lerp C14_Eval C14_Obs C14_Track.
Import ListNotations.
Local Open Scope R_scope.

Definition bodyR := body R_ops.
Definition outR := out_body R_ops.
Definition frames_of (b : bodyR) : nat := length (b_data R_ops b).
Definition wf_body (b : bodyR) : Prop :=
  length (b_conf R_ops b) = frames_of b /\
  Forall (fun fd => length fd = b_people R_ops b /\
            Forall (fun pd => length pd = b_points R_ops b /\ Forall (fun row => length row = b_dims R_ops b) pd) fd) (b_data R_ops b) /\
  Forall (fun fc => length fc = b_people R_ops b /\ Forall (fun pc => length pc = b_points R_ops b) fc) (b_conf R_ops b).
Definition target (b : bodyR) (new_fps : option float) : float :=
  match new_fps with Some f => f | None => b_fps R_ops b end.
(* rows of the input and of the result, as (coordinates ++ [confidence]) *)
Definition in_row (b : bodyR) (i p t : nat) : list R := nth i (track R_ops b p t) [].
Definition out_coords (o : outR) (j p t : nat) : list R := nth t (nth p (nth j (o_data R_ops o) []) []) [].
Definition out_conf (o : outR) (j p t : nat) : R := nth t (nth p (nth j (o_conf R_ops o) []) []) 0.
Definition out_mask (o : outR) (j p t : nat) : bool := nth t (nth p (nth j (o_mask R_ops o) []) []) false.
Definition out_row (o : outR) (j p t : nat) : list R := out_coords o j p t ++ [out_conf o j p t].
Definition track_of (sp : spline_t) (b : bodyR) (k : kind) (n p t : nat) : list (list R) :=
  track_out sp k (S (b_dims R_ops b)) (frames_of b) n (track R_ops b p t).

Lemma map2_nth' {A B C} (f : A -> B -> C) da db dc : forall la lb c,
  (c < length la)%nat -> (c < length lb)%nat -> nth c (map2 f la lb) dc = f (nth c la da) (nth c lb db).
Proof. exact (map2_nth f da db dc). Qed.

Lemma track_wf b p t : wf_body b -> (p < b_people R_ops b)%nat -> (t < b_points R_ops b)%nat ->
  wf_rows (S (b_dims R_ops b)) (frames_of b) (track R_ops b p t).
Proof. intros [Hc [Hd Hcf]] Hp Ht. unfold wf_rows, track, frames_of in *. split.
  - rewrite map2_len, Hc. lia.
  - apply Forall_forall. intros r Hr. unfold map2 in Hr. apply in_map_iff in Hr.
    destruct Hr as [[fd fc] [<- Hin]]. cbn [fst snd]. apply in_combine_l in Hin.
    rewrite Forall_forall in Hd. destruct (Hd fd Hin) as [HP Hpd].
    rewrite Forall_forall in Hpd. destruct (Hpd (nth p fd []) ltac:(apply nth_In; lia)) as [HT Hrow].
    rewrite Forall_forall in Hrow. rewrite app_length, (Hrow (nth t (nth p fd []) []) ltac:(apply nth_In; lia)). cbn. lia. Qed.

Section Body.
Variable sp : spline_t.
Hypothesis Hshape : spline_shape sp.
Variables (b : bodyR) (new_fps : option float) (k : kind).
Local Notation F := (frames_of b).
Local Notation P := (b_people R_ops b).
Local Notation Tn := (b_points R_ops b).
Local Notation D := (b_dims R_ops b).

Lemma cell_tracks n j p t : (p < P)%nat -> (t < Tn)%nat ->
  cell R_ops (tracks_result R_ops sp b k n) j p t = nth j (track_of sp b k n p t) [].
Proof. intros Hp Ht. unfold cell, tracks_result, track_of, track_out.
  rewrite (nth_map_seq _ Tn t []) by exact Ht. rewrite (nth_map_seq _ P p []) by exact Hp. reflexivity. Qed.

(* FRAME COUNT: a result has round(F * new / old) frames of the input's people x points, at the new rate *)
Theorem interpolate_shape o : interpolate R_ops sp b new_fps k = Ok o ->
  exists n, new_frame_count F (target b new_fps) (b_fps R_ops b) = Ok n /\
    o_fps R_ops o = target b new_fps /\
    length (o_data R_ops o) = n /\ length (o_conf R_ops o) = n /\ length (o_mask R_ops o) = n /\
    (forall j, (j < n)%nat -> length (nth j (o_data R_ops o) []) = P /\ length (nth j (o_conf R_ops o) []) = P /\
       forall p, (p < P)%nat -> length (nth p (nth j (o_data R_ops o) []) []) = Tn /\ length (nth p (nth j (o_conf R_ops o) []) []) = Tn).
Proof. unfold interpolate. fold (target b new_fps). fold F.
  destruct (Nat.eqb_spec F 1) as [|HF]; [discriminate|].
  destruct (new_frame_count F (target b new_fps) (b_fps R_ops b)) as [n|e]; cbn [rbind]; [|discriminate].
  destruct (Nat.eqb Tn 0 || Nat.eqb P 0); [discriminate|].
  destruct (forallb _ _); [|discriminate]. intros H. injection H as <-. cbn [o_fps o_data o_conf o_mask].
  exists n. repeat split; try reflexivity; try assumption; try (now rewrite !map_length, seq_length).
  - rewrite (nth_map_seq _ n j []) by assumption. now rewrite map_length, seq_length.
  - rewrite (nth_map_seq _ n j []) by assumption. now rewrite map_length, seq_length.
  - rewrite (nth_map_seq _ n j []), (nth_map_seq _ P p []) by assumption. now rewrite map_length, seq_length.
  - rewrite (nth_map_seq _ n j []), (nth_map_seq _ P p []) by assumption. now rewrite map_length, seq_length. Qed.

Hypothesis Hwf : wf_body b.

Theorem interpolate_row o n j p t : interpolate R_ops sp b new_fps k = Ok o ->
  new_frame_count F (target b new_fps) (b_fps R_ops b) = Ok n ->
  (j < n)%nat -> (p < P)%nat -> (t < Tn)%nat ->
  out_row o j p t = nth j (track_of sp b k n p t) [] /\ out_mask o j p t = Reqb (out_conf o j p t) 0.
Proof. unfold interpolate. fold (target b new_fps). fold F. intros H Hn Hj Hp Ht.
  destruct (Nat.eqb_spec F 1) as [|HF]; [discriminate|]. rewrite Hn in H. cbn [rbind] in H.
  destruct (Nat.eqb Tn 0 || Nat.eqb P 0); [discriminate|].
  destruct (forallb _ _); [|discriminate]. injection H as <-.
  unfold out_row, out_coords, out_conf, out_mask. cbn [o_data o_conf o_mask].
  rewrite (nth_map_lt _ _ j [] []) by (now rewrite map_length, seq_length).
  rewrite !(nth_map_seq _ n j []) by assumption.
  rewrite (nth_map_lt _ _ p [] []) by (now rewrite map_length, seq_length).
  rewrite !(nth_map_seq _ P p []) by assumption.
  rewrite (nth_map_lt _ _ t 0 false) by (now rewrite map_length, seq_length).
  rewrite (nth_map_seq _ Tn t []), !(nth_map_seq _ Tn t 0) by assumption. rewrite cell_tracks by assumption.
  split; [|reflexivity].
  (* a track's row is never empty: it ends with the confidence *)
  symmetry. apply app_removelast_last. intros E.
  pose proof (out_width sp Hshape k (S D) F n (track R_ops b p t) (track_wf b p t Hwf Hp Ht) j Hj) as Hl.
  fold (track_of sp b k n p t) in Hl. rewrite E in Hl. discriminate. Qed.

Theorem interpolate_defined n : F <> 1%nat -> (0 < P)%nat -> (0 < Tn)%nat ->
  new_frame_count F (target b new_fps) (b_fps R_ops b) = Ok n ->
  exists o, interpolate R_ops sp b new_fps k = Ok o.
Proof. intros HF HP HT Hn. unfold interpolate. fold (target b new_fps). fold F.
  destruct (Nat.eqb_spec F 1) as [|_]; [contradiction|]. rewrite Hn. cbn [rbind].
  destruct (Nat.eqb_spec Tn 0) as [|_]; [lia|]. destruct (Nat.eqb_spec P 0) as [|_]; [lia|]. cbn [orb].
  replace (forallb _ (tracks_result R_ops sp b k n)) with true; [eexists; reflexivity|].
  symmetry. apply forallb_forall. intros per_t Hin. unfold tracks_result in Hin. apply in_map_iff in Hin.
  destruct Hin as [t [<- Ht]]. apply in_seq in Ht. apply forallb_forall. intros r Hr. apply in_map_iff in Hr.
  destruct Hr as [p [<- Hp]]. apply in_seq in Hp. apply Nat.eqb_eq.
  apply (track_length sp k (S D) F n (track R_ops b p t)). apply track_wf; [exact Hwf|lia|lia]. Qed.
End Body.
