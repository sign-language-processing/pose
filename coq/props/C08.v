(* C08 - NumPy, PyTorch and TensorFlow bodies hold the same pose.
   Model: model/C08_Body.v (constructors, containers, operations, per backend as in the source),
   model/C08_Read.v (Pose.read into each body class, torch()/tensorflow()), model/C08_Spec.v (the
   backend-independent content [core], its representation [rep b] in each backend, the observation
   [obs_core] and the reference result of every operation).  cfgR mm eo = the constructors / zero_filled as
   repaired for F7, F8, F9 and the NumPy stacking axis, for either shape (mm) of MaskedTensor.matmul's mask and
   (eo) of the int32 cast of TensorFlow index lists - the two places other owners' proposed fixes change; the
   source is tied to one of these configurations by ctor_cfg_tie.

   Every theorem equates what is observed of backend b (shape, values, validity in one polarity, confidence,
   fps) with a term that does not mention b: all backends agree, and the common value is the stated one.

   Partial, and visible as such:
   * TensorFlow clauses assume no subnormal confidence ([ok_for Tf]; tf_subnormal_confidence_refuted).
   * index / step arguments are taken from the frameworks' common domain (non-negative in-range positions,
     non-empty lists, positive steps); outside it the frameworks' own conventions differ
     (tf_negative_index_refuted, tf_empty_index_list_refuted, torch_negative_step_refuted,
     unchecked_index_on_empty_body_refuted).
   * matmul: every non-empty width when MaskedTensor.matmul rebuilds its mask from the rows ([MmAllExpand], what
     the source does: matmul_agree_after_F16a, ctor_cfg_tie); square matrices only when it keeps the mask
     ([MmKeep]: matmul_agree_partial, matmul_nonsquare_refuted, DESIGN F16); a matrix without columns raises on NumPy only; the float32 dot
     product is a parameter [dot] - rounding and summation order of the three kernels are not modelled.
   * flatten: column 0 (frame / fps in the backend's float type) is kept as (frame, fps); its rounding is not modelled. *)
From Coq Require Import ZArith NArith List Bool String Lia.
Require Import Result Tree F32 Codec C08_Body C08_Read C08_Spec C08_Run C08_Lemmas C08_Ctor C08_Ops C08_Main C08_Edge C08_GenTie Gen_C08.
Import ListNotations.

Theorem read_is_rep : forall mm eo b buffer a, read_body (cfgR mm eo) b buffer a = rmap (rep b) (read_core buffer a).
Proof. intros. apply read_body_rep. Qed.
Print Assumptions read_is_rep.
Theorem read_backends_agree : forall mm eo b buffer a, ok_res b (read_core buffer a) ->
  rmap (observe b) (read_body (cfgR mm eo) b buffer a) = rmap obs_core (read_core buffer a).
Proof. intros mm eo b buffer a H. unfold cfgR. rewrite read_body_rep. now apply obs_rep_res. Qed.
Print Assumptions read_backends_agree.
Theorem convert_agree : forall mm eo b buffer a, ok_res b (read_core buffer a) ->
  rmap (observe b) (read_convert (cfgR mm eo) b buffer a) = rmap obs_core (read_core buffer a).
Proof. intros mm eo b buffer a H. unfold cfgR. rewrite read_convert_rep. now apply obs_rep_res. Qed.
Print Assumptions convert_agree.
Theorem read_dims_positive : forall buffer a k, read_core buffer a = Ok k -> kD k <> 0%nat.
Proof. exact read_core_D. Qed.
Print Assumptions read_dims_positive.
Example read_example : read_core file_ex no_args = Ok k_ex.
Proof. vm_compute. reflexivity. Qed.
Print Assumptions read_example.
Example hyps_example : kD k_ex <> 0%nat /\ (forall b, ok_for b (k_pts k_ex)) /\ rows_ok k_ex /\
  in_range (kF k_ex) [1; 0; 1]%Z /\ in_range (kT k_ex) [1; 1]%Z /\ pos_step (every 2) /\
  out_of (kF k_ex) (-3)%Z /\ (kP k_ex * (kT k_ex * (kD k_ex * 1)) <> 0)%nat.
Proof. split; [discriminate|]. split; [intros b; destruct b; cbn [ok_for]; trivial; vm_compute; reflexivity|].
  split; [repeat constructor|]. split; [repeat constructor; cbn; lia|]. split; [repeat constructor; cbn; lia|].
  split; [cbn; lia|]. split; [unfold out_of; cbn; lia|discriminate]. Qed.
Print Assumptions hyps_example.

Theorem missing_iff_zero_conf : forall mm eo b buffer a x, read_body (cfgR mm eo) b buffer a = Ok x -> ok_res b (read_core buffer a) ->
  exists k, read_core buffer a = Ok k /\ observe b x = obs_core k /\
    forall f p t d, (t < List.length (nth p (nth f (k_pts k) []) []))%nat -> (d < kD k)%nat ->
      nth d (at3 [] (rows (fun w => negb (is_zero32 w)) (kD k) (k_pts k)) f p t) true
      = negb (is_zero32 (at3 0%N (map3 fst (k_pts k)) f p t)).
Proof. exact C08_Main.missing_iff_zero_conf. Qed.
Print Assumptions missing_iff_zero_conf.
(* the validity pattern of the example: valid, missing, valid (negative confidence), valid (NaN confidence) *)
Example valid_example :
  o_valid (obs_core k_ex) = Some ([2; 1; 2; 3]%nat, [ [ [ [true; true; true]; [false; false; false] ] ]; [ [ [true; true; true]; [true; true; true] ] ] ]).
Proof. vm_compute. reflexivity. Qed.
Print Assumptions valid_example.

Theorem get_points_agree : forall mm eo b k, kD k <> 0%nat -> ok_for b (k_pts k) -> forall idx, idx <> [] -> in_range (kT k) idx ->
  rmap (observe b) (get_points (cfgR mm eo) b idx (rep b k)) = Ok (obs_core (ref_points (map Z.to_nat idx) k)).
Proof. intros mm eo b k HD Hok idx Hne Hin. unfold cfgR. rewrite get_points_rep by assumption. cbn [rmap]. f_equal.
  apply obs_rep. now apply ok_for_gat2. Qed.
Print Assumptions get_points_agree.
Theorem get_points_out_of_range : forall mm eo b k idx, (kF k * (kP k * (kD k * 1)) <> 0)%nat -> Exists (out_of (kT k)) idx ->
  get_points (cfgR mm eo) b idx (rep b k) = Err Index.
Proof. intros mm eo b k idx Hi H. unfold get_points, extent, inner2. cbn [rep g_data dshape kshape nth fold_right].
  now rewrite ix_list_out. Qed.
Print Assumptions get_points_out_of_range.
Theorem select_frames_agree : forall mm eo b k, kD k <> 0%nat -> ok_for b (k_pts k) -> forall idx, idx <> [] -> in_range (kF k) idx ->
  rmap (observe b) (select_frames (cfgR mm eo) b idx (rep b k)) = Ok (obs_core (ref_frames (k_fps k) (map Z.to_nat idx) k)).
Proof. intros mm eo b k HD Hok idx Hne Hin. unfold cfgR. rewrite select_frames_rep by assumption. cbn [rmap]. f_equal.
  apply obs_rep. now apply ok_for_gat. Qed.
Print Assumptions select_frames_agree.
Theorem select_frames_out_of_range : forall mm eo b k idx, (kP k * (kT k * (kD k * 1)) <> 0)%nat -> Exists (out_of (kF k)) idx ->
  select_frames (cfgR mm eo) b idx (rep b k) = Err Index.
Proof. intros mm eo b k idx Hi H. unfold select_frames, extent, inner0. cbn [rep g_data dshape kshape nth tl fold_right].
  now rewrite ix_list_out. Qed.
Print Assumptions select_frames_out_of_range.
Theorem getitem_int_agree : forall mm eo b k, kD k <> 0%nat -> ok_for b (k_pts k) -> forall i,
  rmap (observe3 b) (getitem_int (cfgR mm eo) b i (rep b k)) = rmap (fun j => fobs_core (ref_frame j k)) (norm_wrap (kF k) i).
Proof. intros mm eo b k HD Hok i. unfold cfgR. rewrite getitem_int_rep by exact HD.
  destruct (norm_wrap (kF k) i) as [j|e]; cbn [rmap]; [|reflexivity].
  f_equal. apply fobs_rep. destruct b; cbn [ok_for2 ok_for] in *; trivial. cbn [ref_frame q_pts]. now apply tf_safe_nth. Qed.
Print Assumptions getitem_int_agree.
Theorem getitem_int_out_of_range : forall mm eo b k, kD k <> 0%nat -> forall i, (i < - Z.of_nat (kF k) \/ Z.of_nat (kF k) <= i)%Z ->
  getitem_int (cfgR mm eo) b i (rep b k) = Err Index.
Proof. intros mm eo b k HD i H. unfold cfgR. rewrite getitem_int_rep by exact HD. now rewrite norm_wrap_out. Qed.
Print Assumptions getitem_int_out_of_range.
Theorem getitem_slice_agree : forall mm eo b k, kD k <> 0%nat -> ok_for b (k_pts k) -> forall s, pos_step s ->
  rmap (observe b) (getitem_slice (cfgR mm eo) b s (rep b k)) = rmap (fun ix => obs_core (ref_frames (k_fps k) ix k)) (slice_idx (kF k) s).
Proof. intros mm eo b k HD Hok s Hs. unfold cfgR. rewrite getitem_slice_gen by exact HD. rewrite ix_slice_pos by exact Hs.
  destruct (slice_idx (kF k) s) as [ix|e]; cbn [rmap]; [|reflexivity]. f_equal. apply obs_rep. now apply ok_for_gat. Qed.
Print Assumptions getitem_slice_agree.
Theorem getitem_slice_zero_step : forall mm eo b k, kD k <> 0%nat -> forall s, s_step s = Some 0%Z -> getitem_slice (cfgR mm eo) b s (rep b k) = Err Value.
Proof. intros mm eo b k HD s Hs. unfold cfgR. rewrite getitem_slice_gen by exact HD. now rewrite slice_zero_step. Qed.
Print Assumptions getitem_slice_zero_step.
Theorem slice_step_agree : forall mm eo b k, kD k <> 0%nat -> ok_for b (k_pts k) -> forall by_, (0 < by_)%Z ->
  rmap (observe b) (slice_step (cfgR mm eo) b by_ (rep b k)) =
  Ok (obs_core (ref_frames (fps_div (k_fps k) by_) (filter (fun i => (Z.of_nat i mod by_ =? 0)%Z) (seq 0 (kF k))) k)).
Proof. intros mm eo b k HD Hok by_ Hb. unfold cfgR. rewrite slice_step_gen by exact HD. rewrite ix_slice_pos by exact Hb.
  rewrite slice_idx_every by exact Hb. cbn [rmap]. f_equal. apply obs_rep. now apply ok_for_gat. Qed.
Print Assumptions slice_step_agree.
Theorem slice_step_zero : forall mm eo b k, kD k <> 0%nat -> slice_step (cfgR mm eo) b 0 (rep b k) = Err Value.
Proof. intros mm eo b k HD. unfold cfgR. rewrite slice_step_gen by exact HD. now rewrite slice_zero_step. Qed.
Print Assumptions slice_step_zero.
Theorem copy_agree : forall mm eo b k, kD k <> 0%nat -> ok_for b (k_pts k) -> rmap (observe b) (copy (cfgR mm eo) b (rep b k)) = Ok (obs_core k).
Proof. intros mm eo b k HD Hok. unfold cfgR. rewrite copy_rep by exact HD. cbn [rmap]. f_equal. now apply obs_rep. Qed.
Print Assumptions copy_agree.
(* Torch / TF leave a bare tensor in .data: shape, values, confidence and fps are compared *)
Theorem zero_filled_agree : forall mm eo b k, kD k <> 0%nat -> ok_for b (k_pts k) ->
  rmap (fun y => forget_valid (observe b y)) (zero_filled (cfgR mm eo) b (rep b k)) = Ok (forget_valid (obs_core (ref_zero k))).
Proof. intros mm eo b k HD Hok. unfold cfgR. destruct (bk_np_or_not b) as [->|Hb].
  - rewrite zero_filled_np by exact HD. reflexivity.
  - rewrite zero_filled_mt by assumption. cbn [rmap]. f_equal. unfold forget_valid, observe, gobserve, obs_core, ref_zero.
    cbn [g_fps g_data g_cs g_conf dshape dval o_fps o_shape o_val o_cshape o_conf k_fps kF kP kT kD k_pts kshape kcshape].
    f_equal. now rewrite map3_map3. Qed.
Print Assumptions zero_filled_agree.
Theorem matmul_agree_partial : forall (dot : list N -> list N -> N) mm eo b k m,
  kD k <> 0%nat -> ok_for b (k_pts k) -> rows_ok k -> m_rows m = kD k -> m_cols m = kD k ->
  rmap (fun y => visible (observe b y)) (matmul dot (cfgR mm eo) b m (rep b k)) = Ok (visible (obs_core (ref_matmul dot m k))).
Proof. intros dot mm eo b k m HD Hok Hrows Hr Hc. apply matmul_visible; try assumption; [lia|intros _ _; exact Hc]. Qed.
Print Assumptions matmul_agree_partial.
Theorem matmul_agree_after_F16a : forall (dot : list N -> list N -> N) eo b k m,
  kD k <> 0%nat -> ok_for b (k_pts k) -> rows_ok k -> m_rows m = kD k -> m_cols m <> 0%nat ->
  rmap (fun y => visible (observe b y)) (matmul dot (cfgR MmAllExpand eo) b m (rep b k)) = Ok (visible (obs_core (ref_matmul dot m k))).
Proof. exact C08_Edge.matmul_agree_after_F16a. Qed.
Print Assumptions matmul_agree_after_F16a.
Example matmul_example : m_rows m_ex = kD k_ex /\ m_cols m_ex = kD k_ex.
Proof. split; reflexivity. Qed.
Print Assumptions matmul_example.
Theorem matmul_numpy_any_width : forall (dot : list N -> list N -> N) mm eo k m,
  kD k <> 0%nat -> rows_ok k -> m_rows m = kD k -> m_cols m <> 0%nat ->
  rmap (fun y => visible (observe Np y)) (matmul dot (cfgR mm eo) Np m (rep Np k)) = Ok (visible (obs_core (ref_matmul dot m k))).
Proof. intros dot mm eo k m HD Hrows Hr Hc. apply matmul_visible; try assumption; [exact I|congruence]. Qed.
Print Assumptions matmul_numpy_any_width.
Theorem matmul_bad_rows : forall (dot : list N -> list N -> N) mm eo b k m, m_rows m <> kD k -> matmul dot (cfgR mm eo) b m (rep b k) = Err Value.
Proof. intros dot mm eo b k m H. unfold matmul. cbn [rep g_data dshape kshape last_dim last]. apply Nat.eqb_neq in H.
  rewrite Nat.eqb_sym in H. now rewrite H. Qed.
Print Assumptions matmul_bad_rows.
(* F16: a non-square matrix leaves the Torch / TF mask at the old width *)
Theorem matmul_nonsquare_refuted :
  exists k m, kD k <> 0%nat /\ m_rows m = kD k /\
    rmap (fun y => (o_shape (observe Torch y), option_map fst (o_valid (observe Torch y)))) (matmul dot32 (cfgR MmKeep false) Torch m (rep Torch k))
      = Ok ([2; 1; 2; 2]%nat, Some [2; 1; 2; 3]%nat) /\
    rmap (fun y => (o_shape (observe Np y), option_map fst (o_valid (observe Np y)))) (matmul dot32 (cfgR MmKeep false) Np m (rep Np k))
      = Ok ([2; 1; 2; 2]%nat, Some [2; 1; 2; 2]%nat).
Proof. exists k_ex, m_32. repeat split; try discriminate; vm_compute; reflexivity. Qed.
Print Assumptions matmul_nonsquare_refuted.
Theorem flatten_agree : forall k,
  flatten Np (rep Np k) = flatten Torch (rep Torch k) /\
  flatten Np (rep Np k) =
    (if fps_zero (k_fps k) then Err ZeroDiv else if Nat.eqb (kF k * (kP k * (kT k * 1))) 0 then Err Value else Ok (ref_flatten k)) /\
  flatten Tf (rep Tf k) = Err NotImplemented.
Proof. intros k. rewrite !flatten_rep by discriminate. repeat split. Qed.
Print Assumptions flatten_agree.

(* outside the common argument domain the frameworks follow their own conventions *)
Theorem tf_negative_index_refuted :
  is_ok (select_frames (cfgR MmKeep false) Np [-1]%Z (rep Np k_ex)) = true /\ is_ok (select_frames (cfgR MmKeep false) Torch [-1]%Z (rep Torch k_ex)) = true /\
  select_frames (cfgR MmKeep false) Tf [-1]%Z (rep Tf k_ex) = Err Index.
Proof. repeat split; vm_compute; reflexivity. Qed.
Print Assumptions tf_negative_index_refuted.
Theorem tf_empty_index_list_refuted :
  is_ok (get_points (cfgR MmKeep false) Np [] (rep Np k_ex)) = true /\ is_ok (get_points (cfgR MmKeep false) Torch [] (rep Torch k_ex)) = true /\
  get_points (cfgR MmKeep false) Tf [] (rep Tf k_ex) = Err Type_.
Proof. repeat split; vm_compute; reflexivity. Qed.
Print Assumptions tf_empty_index_list_refuted.
Theorem torch_negative_step_refuted :
  is_ok (slice_step (cfgR MmKeep false) Np (-1) (rep Np k_ex)) = true /\ is_ok (slice_step (cfgR MmKeep false) Tf (-1) (rep Tf k_ex)) = true /\
  slice_step (cfgR MmKeep false) Torch (-1) (rep Torch k_ex) = Err Value.
Proof. repeat split; vm_compute; reflexivity. Qed.
Print Assumptions torch_negative_step_refuted.
(* TensorFlow reads a subnormal confidence as 0 *)
Theorem tf_subnormal_confidence_refuted :
  exists k, kD k <> 0%nat /\ o_valid (observe Tf (rep Tf k)) = Some ([1; 1; 1; 1]%nat, [[[[false]]]])
                      /\ o_valid (observe Np (rep Np k)) = Some ([1; 1; 1; 1]%nat, [[[[true]]]]).
Proof. exists {| k_fps := 0%N; kF := 1; kP := 1; kT := 1; kD := 1; k_pts := [[[(1%N, [w1])]]] |}. repeat split; try discriminate; vm_compute; reflexivity. Qed.
Print Assumptions tf_subnormal_confidence_refuted.
(* Torch / TF do not check positions on a body without elements *)
Theorem unchecked_index_on_empty_body_refuted :
  exists k, kD k <> 0%nat /\ select_frames (cfgR MmKeep false) Np [5]%Z (rep Np k) = Err Index /\ is_ok (select_frames (cfgR MmKeep false) Torch [5]%Z (rep Torch k)) = true
                      /\ is_ok (select_frames (cfgR MmKeep false) Tf [5]%Z (rep Tf k)) = true.
Proof. exists {| k_fps := 0%N; kF := 2; kP := 0; kT := 3; kD := 2; k_pts := [[]; []] |}. repeat split; try discriminate; vm_compute; reflexivity. Qed.
Print Assumptions unchecked_index_on_empty_body_refuted.

(* [cfg_pinned]: the constructors and zero_filled with the defects DESIGN F7, F8, F9 and the NumPy stacking axis 3 *)
(* F7: TensorFlow stacks the mask twice whatever the number of dimensions *)
Theorem pinned_tf_mask_shape_refuted :
  exists r, res_shape (body_of_raw cfg_pinned Tf r) = Some ([1; 1; 2; 3]%nat, Some [1; 1; 2; 2]%nat)
         /\ res_shape (body_of_raw cfg_pinned Np r) = Some ([1; 1; 2; 3]%nat, Some [1; 1; 2; 3]%nat).
Proof. exists raw_ex. split; vm_compute; reflexivity. Qed.
Print Assumptions pinned_tf_mask_shape_refuted.
(* F8: conf > 0 marks negative and NaN confidences missing, conf == 0 does not *)
Theorem pinned_validity_rule_refuted :
  exists r, rmap (fun x => o_valid (observe Torch x)) (body_of_raw cfg_pinned Torch r)
            = Ok (Some ([1; 1; 2; 3]%nat, [[[[false; false; false]; [false; false; false]]]]))
         /\ rmap (fun x => o_valid (observe Np x)) (body_of_raw cfg_pinned Np r)
            = Ok (Some ([1; 1; 2; 3]%nat, [[[[true; true; true]; [true; true; true]]]])).
Proof. exists raw_ex. split; vm_compute; reflexivity. Qed.
Print Assumptions pinned_validity_rule_refuted.
(* np.stack(..., axis=3): body[int] raises on NumPy only *)
Theorem pinned_numpy_int_index_refuted :
  exists r x y, body_of_raw cfg_pinned Np r = Ok x /\ body_of_raw cfg_pinned Torch r = Ok y /\
    getitem_int cfg_pinned Np 0 x = Err Index /\ is_ok (getitem_int cfg_pinned Torch 0 y) = true.
Proof. exists raw_ex. eexists. eexists. repeat split; vm_compute; reflexivity. Qed.
Print Assumptions pinned_numpy_int_index_refuted.
(* F9: multiplying by the mask keeps NaN / infinity of a missing point *)
Theorem pinned_zero_filled_refuted :
  exists k, rmap (fun y => o_val (observe Torch y)) (zero_filled cfg_pinned Torch (rep Torch k)) = Ok [[[[wnan]]]]
         /\ rmap (fun y => o_val (observe Np y)) (zero_filled cfg_pinned Np (rep Np k)) = Ok [[[[0%N]]]].
Proof. exists {| k_fps := 0%N; kF := 1; kP := 1; kT := 1; kD := 1; k_pts := [[[(0%N, [wnan])]]] |}. split; vm_compute; reflexivity. Qed.
Print Assumptions pinned_zero_filled_refuted.

(* ties to the source (gen/Gen_C08.v is regenerated on every run) *)
Theorem ctor_cfg_tie : exists mm eo, t_cfg (Nd (map L Gen_C08.cfg_code)) = cfg_repaired mm eo.
Proof. eexists. eexists. reflexivity. Qed.
Print Assumptions ctor_cfg_tie.
Theorem points_dims_involution :
  nth 0 Gen_C08.points_dims 9%nat = 2%nat /\ nth 3 Gen_C08.points_dims 9%nat = 3%nat /\
  map (fun i => nth (nth i Gen_C08.points_dims 9%nat) Gen_C08.points_dims 9%nat) [0; 1; 2; 3]%nat = [0; 1; 2; 3]%nat.
Proof. exact C08_GenTie.points_dims_involution. Qed.
Print Assumptions points_dims_involution.
Theorem tf_flatten_tie : Gen_C08.tf_flatten = "absent"%string.
Proof. reflexivity. Qed.
Print Assumptions tf_flatten_tie.
Open Scope string_scope.
Theorem ctor_facts_tie : Gen_C08.ctor_facts =
  [ "numpy: mask = confidence == 0; np.stack axis=-1";
    "torch: valid = confidence != 0; torch.stack([mask] * data.shape[-1], dim=3)";
    "tensorflow: valid = confidence != 0; tf.stack([mask] * data.shape[-1], axis=3)" ].
Proof. reflexivity. Qed.
Print Assumptions ctor_facts_tie.
Theorem zf_facts_tie : Gen_C08.zf_facts =
  [ "torch: where";
    "tensorflow: where" ].
Proof. reflexivity. Qed.
Print Assumptions zf_facts_tie.
Theorem points_dims_tie : Gen_C08.points_dims = [2; 1; 0; 3]%nat.
Proof. exact C08_GenTie.points_dims_tie. Qed.
Print Assumptions points_dims_tie.
Theorem read_source_tie : (Gen_C08.tensor_readers, Gen_C08.fn_unpack_torch, Gen_C08.fn_unpack_tensorflow) =
  (
  [ "numpy:unpack_numpy";
    "torch:unpack_torch";
    "tensorflow:unpack_tensorflow" ],
  [ "import torch";
    "arr = self.unpack_numpy(s, shape)";
    "return torch.from_numpy(arr)" ],
  [ "import tensorflow as tf";
    "arr = self.unpack_numpy(s, shape)";
    "return tf.constant(arr)" ]).
Proof. exact C08_GenTie.read_source_tie. Qed.
Print Assumptions read_source_tie.
Theorem convert_source_tie : (Gen_C08.fn_np_torch, Gen_C08.fn_np_tensorflow) =
  (
  [ "try:
    import torch
except ImportError:
    raise ImportError('Please install torch. https://pytorch.org/')";
    "import torch";
    "from ..torch.pose_body import TorchPoseBody";
    "torch_confidence = torch.from_numpy(self.confidence)";
    "torch_data = torch.from_numpy(self.data.data)";
    "return TorchPoseBody(self.fps, torch_data, torch_confidence)" ],
  [ "import tensorflow";
    "from ..tensorflow.pose_body import TensorflowPoseBody";
    "tf_confidence = tensorflow.constant(self.confidence)";
    "tf_data = tensorflow.constant(self.data.data)";
    "return TensorflowPoseBody(self.fps, tf_data, tf_confidence)" ]).
Proof. reflexivity. Qed.
Print Assumptions convert_source_tie.
Theorem frames_source_tie : (Gen_C08.fn_base_getitem, Gen_C08.fn_base_select_frames, Gen_C08.fn_base_slice_step, Gen_C08.fn_tf_select_frames, Gen_C08.fn_mt_torch_getitem, Gen_C08.fn_mt_tf_getitem, Gen_C08.fn_mt_tf_gather) =
  (
  [ "sliced_data = self.data[index]";
    "sliced_confidence = self.confidence[index]";
    "return type(self)(self.fps, sliced_data, sliced_confidence)" ],
  [ "data = self.data[frame_indexes]";
    "confidence = self.confidence[frame_indexes]";
    "return self.__class__(fps=self.fps, data=data, confidence=confidence)" ],
  [ "new_data = self.data[::by]";
    "new_confidence = self.confidence[::by]";
    "new_fps = self.fps / by";
    "return self.__class__(fps=new_fps, data=new_data, confidence=new_confidence)" ],
  [ "data = self.data.gather(frame_indexes)";
    "confidence = tf.gather(self.confidence, frame_indexes)";
    "return self.__class__(fps=self.fps, data=data, confidence=confidence)" ],
  [ "tensor = self.tensor[key]";
    "mask = self.mask[key]";
    "return MaskedTensor(tensor=tensor, mask=mask)" ],
  [ "if isinstance(key, list):
    tensor = tf.gather(self.tensor, key)
    mask = tf.gather(self.mask, key)
else:
    tensor = self.tensor[key]
    mask = self.mask[key]";
    "return MaskedTensor(tensor=tensor, mask=mask)" ],
  [ "tensor = tf.gather(self.tensor, indexes)";
    "mask = tf.gather(self.mask, indexes)";
    "return MaskedTensor(tensor=tensor, mask=mask)" ]).
Proof. reflexivity. Qed.
Print Assumptions frames_source_tie.
Theorem get_points_source_tie : (Gen_C08.fn_np_get_points, Gen_C08.fn_torch_get_points, Gen_C08.fn_torch_points_perspective, Gen_C08.fn_tf_get_points, Gen_C08.fn_mt_torch_permute, Gen_C08.fn_mt_tf_transpose) =
  (
  [ "data = ma.transpose(self.data, axes=POINTS_DIMS)";
    "new_data = ma.transpose(data[indexes], axes=POINTS_DIMS)";
    "confidence_reshape = (2, 1, 0)";
    "confidence = np.transpose(self.confidence, axes=confidence_reshape)";
    "new_confidence = np.transpose(confidence[indexes], axes=confidence_reshape)";
    "return NumPyPoseBody(self.fps, new_data, new_confidence)" ],
  [ "data = self.points_perspective()";
    "new_data = data[indexes].permute(POINTS_DIMS)";
    "confidence_reshape = (2, 1, 0)";
    "confidence = self.confidence.permute(confidence_reshape)";
    "new_confidence = confidence[indexes].permute(confidence_reshape)";
    "return self.__class__(self.fps, new_data, new_confidence)" ],
  [ "return self.data.permute(POINTS_DIMS)" ],
  [ "data = self.data.transpose(perm=POINTS_DIMS)";
    "new_data = data[indexes].transpose(perm=POINTS_DIMS)";
    "confidence_reshape = [2, 1, 0]";
    "confidence = tf.transpose(self.confidence, perm=confidence_reshape)";
    "new_confidence = tf.transpose(tf.gather(confidence, indexes), perm=confidence_reshape)";
    "return TensorflowPoseBody(self.fps, new_data, new_confidence)" ],
  [ "tensor = self.tensor.permute(dims)";
    "mask = self.mask.permute(dims)";
    "return MaskedTensor(tensor=tensor, mask=mask)" ],
  [ "tensor = tf.transpose(self.tensor, perm=perm)";
    "mask = tf.transpose(self.mask, perm=perm)";
    "return MaskedTensor(tensor=tensor, mask=mask)" ]).
Proof. reflexivity. Qed.
Print Assumptions get_points_source_tie.
Theorem copy_source_tie : (Gen_C08.fn_np_copy, Gen_C08.fn_torch_copy, Gen_C08.fn_tf_copy) =
  (
  [ "return type(self)(fps=self.fps, data=self.data.copy(), confidence=self.confidence.copy())" ],
  [ "data_copy = MaskedTensor(tensor=self.data.tensor.detach().clone().to(self.data.tensor.device), mask=self.data.mask.detach().clone().to(self.data.mask.device))";
    "confidence_copy = self.confidence.detach().clone().to(self.confidence.device)";
    "return self.__class__(fps=self.fps, data=data_copy, confidence=confidence_copy)" ],
  [ "detached_data = tf.convert_to_tensor(self.data.tensor.numpy())";
    "detached_mask = tf.convert_to_tensor(self.data.mask.numpy())";
    "data_copy = MaskedTensor(detached_data, detached_mask)";
    "confidence_copy = tf.convert_to_tensor(self.confidence.numpy())";
    "return self.__class__(fps=self.fps, data=data_copy, confidence=confidence_copy)" ]).
Proof. reflexivity. Qed.
Print Assumptions copy_source_tie.
(* body level; the container level is in zf_facts *)
Theorem zero_filled_source_tie : (Gen_C08.fn_np_zero_filled, Gen_C08.fn_torch_zero_filled, Gen_C08.fn_tf_zero_filled) =
  (
  [ "copy = self.copy()";
    "copy.data = ma.array(copy.data.filled(0), mask=copy.data.mask)";
    "return copy" ],
  [ "copy = self.copy()";
    "copy.data = copy.data.zero_filled()";
    "return copy" ],
  [ "copy = self.copy()";
    "copy.data = self.data.zero_filled()";
    "return copy" ]).
Proof. reflexivity. Qed.
Print Assumptions zero_filled_source_tie.
(* harness/translate_c08.py recognises MaskedTensor.matmul's mask statements in two shapes (mask kept / rebuilt
   from the rows), records which one the source has in entries 6, 7 of [cfg_code] (ctor_cfg_tie) and prints the
   first shape here whichever it found: the last two lists are not the source text when [cfg_code] says 1.
   The int32 cast of TensorFlow index lists (entry 8; getitem / get_points ties) is treated alike. *)
Theorem matmul_source_tie : (Gen_C08.fn_np_matmul, Gen_C08.fn_torch_matmul, Gen_C08.fn_tf_matmul, Gen_C08.fn_mt_torch_matmul, Gen_C08.fn_mt_tf_matmul) =
  (
  [ "data = ma.dot(self.data, matrix)";
    "return NumPyPoseBody(self.fps, data, self.confidence)" ],
  [ "data = self.data.matmul(torch.from_numpy(matrix))";
    "return self.__class__(fps=self.fps, data=data, confidence=self.confidence)" ],
  [ "matrix = tf.convert_to_tensor(matrix, dtype=self.data.dtype)";
    "data = self.data.matmul(matrix)";
    "return self.__class__(fps=self.fps, data=data, confidence=self.confidence)" ],
  [ "tensor = torch.matmul(self.tensor, matrix.to(self.device))";
    "return MaskedTensor(tensor, self.mask)" ],
  [ "tensor = tf.matmul(self.tensor, matrix)";
    "return MaskedTensor(tensor=tensor, mask=self.mask)" ]).
Proof. reflexivity. Qed.
Print Assumptions matmul_source_tie.
(* TensorFlow inherits the base class's NotImplementedError *)
Theorem flatten_source_tie : (Gen_C08.fn_np_flatten, Gen_C08.fn_torch_flatten, Gen_C08.fn_base_flatten) =
  (
  [ "shape = self.data.shape";
    "data = self.data.data.reshape(-1, shape[-1])";
    "confidence = self.confidence.flatten()";
    "indexes = list(np.ndindex(shape[:-1]))";
    "flat = np.c_[indexes, confidence, data]";
    "flat = flat[confidence != 0]";
    "scalar = np.ones(len(shape) + shape[-1])";
    "scalar[0] = 1 / self.fps";
    "return flat * scalar" ],
  [ "shape = self.data.shape";
    "data = self.data.tensor.reshape(-1, shape[-1])";
    "confidence = self.confidence.flatten()";
    "indexes = torch.tensor(list(np.ndindex(shape[:-1])), dtype=torch.float32, device=data.device)";
    "flat = torch.cat([indexes, torch.unsqueeze(confidence, dim=1), data], dim=1)";
    "flat = flat[confidence != 0.0]";
    "scalar = torch.ones(len(shape) + shape[-1], device=data.device)";
    "scalar[0] = 1 / self.fps";
    "return flat * scalar" ],
  [ "raise NotImplementedError(""'flatten' not implemented on '%s'"" % self.__class__)" ]).
Proof. reflexivity. Qed.
Print Assumptions flatten_source_tie.

(* class structure of the source: overrides and attribute hooks (proofs/ClassesTie.v) *)
Require Import ClassesTie.
Theorem C08_tie_class_numpy_body : over_numpy_body = Some exp_over_numpy_body.
Proof. exact over_numpy_body_tie. Qed.
Print Assumptions C08_tie_class_numpy_body.
Theorem C08_tie_class_torch_body : over_torch_body = Some exp_over_torch_body.
Proof. exact over_torch_body_tie. Qed.
Print Assumptions C08_tie_class_torch_body.
Theorem C08_tie_class_tf_body : over_tf_body = Some exp_over_tf_body.
Proof. exact over_tf_body_tie. Qed.
Print Assumptions C08_tie_class_tf_body.
Theorem C08_tie_class_subclasses : subclasses = exp_subclasses.
Proof. exact subclasses_tie. Qed.
Print Assumptions C08_tie_class_subclasses.
Theorem C08_tie_class_attr_hooks : Gen_Classes.attr_hooks = exp_attr_hooks.
Proof. exact attr_hooks_tie. Qed.
Print Assumptions C08_tie_class_attr_hooks.

