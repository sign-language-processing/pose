(* C14 - SciPy's linear interp1d (model: lerp / seg) over exact reals: it interpolates its nodes, reproduces
   affine data, and every value is a convex combination of the two neighbouring observations. *)
From Coq Require Import Reals List Arith Bool Lia Lra Sorted.
Require Import Num RealFacts C14_Interp C14_Index.
Import ListNotations.
Local Open Scope R_scope.

Definition col (c : nat) (row : list R) : R := nth c row 0.
Definition obsR := list (R * list R).
Definition xs_of (obs : obsR) : list R := map fst obs.
Definition widths (w : nat) (obs : obsR) : Prop := Forall (fun xy => length (snd xy) = w) obs.
Definition dflt : R * list R := (0, []).

Lemma map2_nth {A B C} (f : A -> B -> C) da db dc : forall la lb c,
  (c < length la)%nat -> (c < length lb)%nat -> nth c (map2 f la lb) dc = f (nth c la da) (nth c lb db).
Proof. unfold map2. induction la as [|a la IH]; intros [|b lb] c Ha Hb; cbn [length] in *; try lia.
  destruct c as [|c]; [reflexivity|]. cbn [combine map nth]. apply IH; lia. Qed.
Lemma map2_len {A B C} (f : A -> B -> C) la lb : length (map2 f la lb) = Nat.min (length la) (length lb).
Proof. unfold map2. now rewrite map_length, combine_length. Qed.

Lemma last_nth {A} (l : list A) d : last l d = nth (length l - 1) l d.
Proof. induction l as [|a l IH]; [reflexivity|]. destruct l as [|b l]; [reflexivity|].
  change (last (a :: b :: l) d) with (last (b :: l) d). rewrite IH. cbn [length]. 
  replace (S (S (length l)) - 1)%nat with (S (S (length l) - 1)) by lia. reflexivity. Qed.

Lemma seg_col x0 y0 x1 y1 x c : (c < length y0)%nat -> (c < length y1)%nat ->
  col c (seg R_ops x0 y0 x1 y1 x) = (x - x0) / (x1 - x0) * col c y1 + (x1 - x) / (x1 - x0) * col c y0.
Proof. intros H0 H1. unfold col, seg. rewrite (map2_nth _ 0 0 0) by assumption. reflexivity. Qed.
Lemma seg_length x0 y0 x1 y1 x : length y0 = length y1 -> length (seg R_ops x0 y0 x1 y1 x) = length y0.
Proof. intros H. unfold seg. rewrite map2_len, <- H. apply Nat.min_id. Qed.
Lemma seg_left x0 y0 x1 y1 : x0 <> x1 -> length y0 = length y1 -> seg R_ops x0 y0 x1 y1 x0 = y0.
Proof. intros Hx Hl. apply (nth_ext _ _ 0 0); [apply seg_length, Hl|]. intros c Hc. rewrite seg_length in Hc by exact Hl.
  fold (col c (seg R_ops x0 y0 x1 y1 x0)). rewrite seg_col by lia. unfold col. field. lra. Qed.
Lemma seg_right x0 y0 x1 y1 : x0 <> x1 -> length y0 = length y1 -> seg R_ops x0 y0 x1 y1 x1 = y1.
Proof. intros Hx Hl. apply (nth_ext _ _ 0 0); [etransitivity; [apply seg_length, Hl|exact Hl]|]. intros c Hc. rewrite seg_length in Hc by exact Hl.
  fold (col c (seg R_ops x0 y0 x1 y1 x1)). rewrite seg_col by lia. unfold col. field. lra. Qed.

(* which segment interp1d picks *)
Lemma lerp_seg : forall (obs : obsR) x, (2 <= length obs)%nat ->
  exists m, (S m < length obs)%nat /\
    lerp R_ops obs x = seg R_ops (fst (nth m obs dflt)) (snd (nth m obs dflt)) (fst (nth (S m) obs dflt)) (snd (nth (S m) obs dflt)) x /\
    (fst (nth 0 obs dflt) <= x -> x <= last (xs_of obs) 0 -> fst (nth m obs dflt) <= x <= fst (nth (S m) obs dflt)).
Proof. induction obs as [|[x0 y0] rest IH]; intros x Hlen; [cbn in Hlen; lia|].
  destruct rest as [|[x1 y1] [|r2 rest']]; [cbn in Hlen; lia| |].
  - exists 0%nat. cbn. split; [lia|]. split; [reflexivity|]. intros; lra.
  - change (lerp R_ops ((x0, y0) :: (x1, y1) :: r2 :: rest') x)
      with (if Rleb x x1 then seg R_ops x0 y0 x1 y1 x else lerp R_ops ((x1, y1) :: r2 :: rest') x).
    destruct (Rleb x x1) eqn:E.
    + exists 0%nat. cbn [length nth fst snd]. split; [lia|]. split; [reflexivity|].
      apply Rleb_true in E. intros; lra.
    + apply Rleb_false in E. destruct (IH x ltac:(cbn; lia)) as [m [Hm [Heq Hr]]].
      exists (S m). split; [cbn [length] in *; lia|]. split; [exact Heq|].
      intros _ Hlast. apply Hr; [cbn; lra|exact Hlast]. Qed.

Section Sorted.
Variables (obs : obsR) (w : nat).
Hypothesis Hsort : StronglySorted Rlt (xs_of obs).
Hypothesis Hw : widths w obs.

Lemma xs_nth i : nth i (xs_of obs) 0 = fst (nth i obs dflt).
Proof. unfold xs_of. change 0 with (fst dflt). apply map_nth. Qed.
Lemma xs_lt i j : (i < j)%nat -> (j < length obs)%nat -> fst (nth i obs dflt) < fst (nth j obs dflt).
Proof. intros Hij Hj. rewrite <- !xs_nth. apply StronglySorted_nth; [exact Hsort|exact Hij|].
  unfold xs_of. rewrite map_length. exact Hj. Qed.
Lemma xs_le i j : (i <= j)%nat -> (j < length obs)%nat -> fst (nth i obs dflt) <= fst (nth j obs dflt).
Proof. intros Hij Hj. destruct (Nat.eq_dec i j) as [->|NE]; [lra|]. left. apply xs_lt; lia. Qed.
Lemma xs_lt_inv i j : (i < length obs)%nat -> (j < length obs)%nat -> fst (nth i obs dflt) < fst (nth j obs dflt) -> (i < j)%nat.
Proof. intros Hi Hj H. destruct (le_lt_dec j i) as [Hle|]; [|assumption]. pose proof (xs_le j i Hle Hi). lra. Qed.
Lemma xs_last : last (xs_of obs) 0 = fst (nth (length obs - 1) obs dflt).
Proof. rewrite last_nth, xs_nth. unfold xs_of. now rewrite map_length. Qed.
Lemma xs_first : nth 0 (xs_of obs) 0 = fst (nth 0 obs dflt).
Proof. apply xs_nth. Qed.
Lemma row_width i : (i < length obs)%nat -> length (snd (nth i obs dflt)) = w.
Proof. intros Hi. unfold widths in Hw. rewrite Forall_forall in Hw. apply Hw. apply nth_In. exact Hi. Qed.

Section Two.
Hypothesis Hlen : (2 <= length obs)%nat.

Lemma lerp_width x : length (lerp R_ops obs x) = w.
Proof. destruct (lerp_seg obs x Hlen) as [m [Hm [-> _]]]. rewrite seg_length; rewrite !row_width by lia; reflexivity. Qed.

Lemma lerp_node i : (i < length obs)%nat -> lerp R_ops obs (fst (nth i obs dflt)) = snd (nth i obs dflt).
Proof. intros Hi. destruct (lerp_seg obs (fst (nth i obs dflt)) Hlen) as [m [Hm [-> Hr]]].
  assert (Hrange : fst (nth m obs dflt) <= fst (nth i obs dflt) <= fst (nth (S m) obs dflt)).
  { apply Hr; [apply xs_le; lia|]. rewrite xs_last. apply xs_le; lia. }
  assert (Hne : fst (nth m obs dflt) <> fst (nth (S m) obs dflt)) by (pose proof (xs_lt m (S m) ltac:(lia) Hm); lra).
  assert (Hwm : length (snd (nth m obs dflt)) = length (snd (nth (S m) obs dflt))) by (rewrite !row_width by lia; reflexivity).
  destruct (lt_eq_lt_dec i m) as [[Hlt| ->]|Hgt].
  - pose proof (xs_lt i m Hlt ltac:(lia)). lra.
  - apply seg_left; assumption.
  - destruct (Nat.eq_dec i (S m)) as [-> |NE]; [apply seg_right; assumption|].
    pose proof (xs_lt (S m) i ltac:(lia) Hi). lra. Qed.

Lemma lerp_affine c a b x : (c < w)%nat ->
  (forall i, (i < length obs)%nat -> col c (snd (nth i obs dflt)) = a * fst (nth i obs dflt) + b) ->
  col c (lerp R_ops obs x) = a * x + b.
Proof. intros Hc Ha. destruct (lerp_seg obs x Hlen) as [m [Hm [-> _]]].
  rewrite seg_col by (rewrite row_width by lia; exact Hc).
  rewrite !Ha by lia. pose proof (xs_lt m (S m) ltac:(lia) Hm). field. lra. Qed.

Lemma lerp_between c x : (c < w)%nat -> fst (nth 0 obs dflt) <= x -> x <= last (xs_of obs) 0 ->
  exists m, (S m < length obs)%nat /\ fst (nth m obs dflt) <= x <= fst (nth (S m) obs dflt) /\
    Rmin (col c (snd (nth m obs dflt))) (col c (snd (nth (S m) obs dflt))) <= col c (lerp R_ops obs x)
      <= Rmax (col c (snd (nth m obs dflt))) (col c (snd (nth (S m) obs dflt))).
Proof. intros Hc H0 H1. destruct (lerp_seg obs x Hlen) as [m [Hm [-> Hr]]]. exists m. split; [exact Hm|].
  specialize (Hr H0 H1). split; [exact Hr|].
  rewrite seg_col by (rewrite row_width by lia; exact Hc).
  pose proof (xs_lt m (S m) ltac:(lia) Hm) as Hd.
  set (xa := fst (nth m obs dflt)) in *. set (xb := fst (nth (S m) obs dflt)) in *.
  set (ya := col c (snd (nth m obs dflt))). set (yb := col c (snd (nth (S m) obs dflt))).
  set (t := (x - xa) / (xb - xa)).
  assert (Ht : 0 <= t <= 1).
  { unfold t. split.
    - apply Rmult_le_pos; [lra|]. left. apply Rinv_0_lt_compat. lra.
    - apply (Rmult_le_reg_r (xb - xa)); [lra|]. unfold Rdiv. rewrite Rmult_assoc, Rinv_l by lra. lra. }
  replace ((xb - x) / (xb - xa)) with (1 - t) by (unfold t; field; lra).
  unfold Rmin, Rmax. destruct (Rle_dec ya yb); split; nra. Qed.
End Two.
End Sorted.
