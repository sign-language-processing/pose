(* Non-vacuity of the C03 consumption bound: a 600-frame file (14 452 bytes) is longer than the bound for the
   window [1,2) under an empty memo (10 416 bytes), and the model's stream read of that window pulls 10 364
   bytes - the 10 340-byte prefetch plus the 24 bytes of the window - not the remainder of the file. *)
From Coq Require Import ZArith NArith List Lia Bool.
Require Import ListN Result Bytes Utf8 Utf8S F32 Prog Codec ProgLemmas CodecRT PoseRead PoseReadLemmas WindowLemmas StreamRead C03_Window C03_Consume C03_Examples C01_Accepts.
Import ListNotations.
Open Scope N_scope.

Definition ex600 : wpose :=
  {| w_dims := w_dims ex3; w_comps := w_comps ex3; w_fps := w_fps ex3;
     w_shape := [600; 1; 2; 2];
     w_data := repeat 4607182418800017408 (N.to_nat 2400);
     w_cshape := [600; 1; 2];
     w_conf := repeat 4607182418800017408 (N.to_nat 1200) |}.
Definition ex600_file : bytes := match write_pose ex600 with Ok b => b | Err _ => [] end.

(* only the writer's acceptance test is evaluated, not the 14 452 bytes *)
Lemma ex600_written : write_pose ex600 = Ok ex600_file.
Proof.
  assert (R : representable ex600 = true) by (vm_compute; reflexivity).
  destruct (write_accepts ex600 R) as [bs E]. unfold ex600_file. now rewrite E.
Qed.
Lemma ex600_wf : wf_arrays ex600 /\ 1 <= nth 3 (w_shape ex600) 0.
Proof. split; [split; vm_compute; reflexivity|]. cbn. lia. Qed.
(* the bound is 42 + 10 + 10340 + 24 = 10416 < 14452 = the file's length; the model pulls 10364 *)
Lemma ex600_bound_below_file :
  header_len ex600 + 10 + prefetch_len None + window_bytes ex600 (Some 1%Z) (Some 2%Z) = 10416 /\
  lenN ex600_file = 14452 /\
  snd (read_stream no_legacy None ex600_file ex3_frames) = 10364.
Proof. split; [vm_compute; reflexivity|]. split; vm_compute; reflexivity. Qed.
