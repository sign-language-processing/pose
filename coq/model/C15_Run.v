(* C15 - execution instances and wire format of the spatial model.  Definitions only.
   request  (op dtype body args...)   dtype 0 = binary64 arithmetic, 1 = binary32 arithmetic
     body = ((F P N D) data mask conf)   data: binary64 words, row-major (F,P,N,D); mask: 0/1 per element;
                                         conf: binary64 words (F,P,N)
     op 1 flip      (1 dtype body axis)
     op 2 matmul    (2 dtype body R K (row-major words))
     op 3 augment2d (3 dtype body (rotation_std shear_std scale_std) (g_shear cos sin g_scale))
     op 4 focus     (4 dtype body)                       -> (1 (body (w h d)))
     op 5 bbox      (5 dtype body (n_1 ... n_C))
     op 6 bbox header (6 ((name format) ...))            -> ((name format points limbs colors) ...)
        (the limb colour is the regenerated constant handed to [dispatch_with] by extract/X_c15.v)
   reply (1 payload) | (0 code) *)
From Coq Require Import ZArith List Bool PrimFloat SpecFloat FloatOps.
Require Import Result Tree Num F32 C15_Spatial.
Import ListNotations.
Local Open Scope nat_scope.

(* binary32 arithmetic on binary64 carriers: round every result to binary32 (double rounding is innocuous for
   + - * / sqrt since 53 >= 2*24+2) *)
Definition r32 (f : float) : float := SF2Prim (round32 (Prim2SF f)).
(* float literals directly inside a record whose carrier is a field are extracted without the coercion and do not
   type-check in OCaml: the two constants are named.  [F64_ops] is field for field [Num.F_ops]
   (theorem executed_instance_is_F_ops in props/C15.v). *)
Definition f_zero : float := 0%float.
Definition f_one : float := 1%float.
Definition F64_ops : ops :=
  {| T := float; zero := f_zero; one := f_one; add := PrimFloat.add; sub := PrimFloat.sub; mul := PrimFloat.mul;
     div := PrimFloat.div; opp := PrimFloat.opp; sqrt := PrimFloat.sqrt; abs := PrimFloat.abs;
     leb := PrimFloat.leb; ltb := PrimFloat.ltb; eqb := PrimFloat.eqb; of_Z := f_of_Z |}.
Definition F32_ops : ops :=
  {| T := float; zero := f_zero; one := f_one;
     add := fun a b => r32 (PrimFloat.add a b); sub := fun a b => r32 (PrimFloat.sub a b);
     mul := fun a b => r32 (PrimFloat.mul a b); div := fun a b => r32 (PrimFloat.div a b);
     opp := PrimFloat.opp; sqrt := fun a => r32 (PrimFloat.sqrt a); abs := PrimFloat.abs;
     leb := PrimFloat.leb; ltb := PrimFloat.ltb; eqb := PrimFloat.eqb; of_Z := fun z => r32 (f_of_Z z) |}.
(* math.ceil *)
Definition F_ceil (f : float) : option Z := sf_ceil (Prim2SF f).

Fixpoint chunks {A} (count n : nat) (l : list A) : list (list A) :=
  match count with 0%nat => [] | S c => firstn n l :: chunks c n (skipn n l) end.

Section Run.
Variable O : ops.
Variable dec : Z -> T O.
Variable enc : T O -> Z.
Variable ceilZ : T O -> option Z.

Definition t_vals (t : tree) : list (T O) := map (fun x => dec (t_z x)) (t_list t).
Definition t_body (t : tree) : (nat * nat * nat * nat) * frames O :=
  let sh := t_nats (t_nth 0 t) in
  let F := nth 0 sh 0 in let P := nth 1 sh 0 in let N := nth 2 sh 0 in let D := nth 3 sh 0 in
  let cells := combine (t_vals (t_nth 1 t)) (t_bools (t_nth 2 t)) in
  (* the body under test is built by NumPyPoseBody.__init__ from (data, optional mask, confidence) *)
  let pts := map (fun pc => reinit O (mkP (fst pc) (snd pc))) (combine (chunks (F * P * N) D cells) (t_vals (t_nth 3 t))) in
  ((F, P, N, D), chunks F P (chunks (F * P) N pts)).
Definition of_body (sh : nat * nat * nat * nat) (b : frames O) : tree :=
  let '(F, P, N, D) := sh in
  let pts := concat (concat b) in
  let cells := flat_map (@pcs O) pts in
  Nd [of_nats [F; P; N; D]; Nd (map (fun c => L (enc (fst c))) cells); of_bools (map snd cells);
      Nd (map (fun p => L (enc (pc p))) pts)].

Definition t_hcomp (t : tree) : hcomp := mkH (t_zs (t_nth 0 t)) (t_zs (t_nth 1 t)) [] [] [].
Definition of_hcomp (c : hcomp) : tree :=
  Nd [of_zs (hc_name c); of_zs (hc_format c); Nd (map of_zs (hc_points c));
      Nd (map (fun l => of_zs [fst l; snd l]) (hc_limbs c));
      Nd (map (fun k => of_zs [fst (fst k); snd (fst k); snd k]) (hc_colors c))].
Definition run (t : tree) : tree :=
  let op := t_z (t_nth 0 t) in
  let '(sh, b) := t_body (t_nth 2 t) in
  let '(F, P, N, D) := sh in
  if (op =? 1)%Z then of_result (of_body sh) (flip O D (t_z (t_nth 3 t)) b)
  else if (op =? 2)%Z then
    let R := t_nat (t_nth 3 t) in let K := t_nat (t_nth 4 t) in
    of_result (of_body (F, P, N, K)) (matmul O D R K (chunks R K (t_vals (t_nth 5 t))) b)
  else if (op =? 3)%Z then
    let s := t_vals (t_nth 3 t) in let g := t_vals (t_nth 4 t) in
    let z := zero O in
    of_result (of_body sh) (augment2d O D (nth 0 s z) (nth 1 s z) (nth 2 s z)
                                      (mkD (nth 0 g z) (nth 1 g z) (nth 2 g z) (nth 3 g z)) b)
  else if (op =? 4)%Z then
    of_result (fun r => Nd [of_body sh (fst r); of_zs [fst (fst (snd r)); snd (fst (snd r)); snd (snd r)]])
              (focus O ceilZ D b)
  else if (op =? 5)%Z then
    let ns := t_nats (t_nth 3 t) in
    of_result (of_body (F, P, 2 * length ns, D)) (bbox O D N ns b)
  else Nd [L 0; L (-1)].
End Run.

Definition dispatch_with (colors : list (Z * Z * Z)) (t : tree) : tree :=
  let op := t_z (t_nth 0 t) in
  if (op =? 6)%Z then Nd [L 1; Nd (map of_hcomp (bbox_header colors (map t_hcomp (t_list (t_nth 1 t)))))]
  else if (t_z (t_nth 1 t) =? 1)%Z then run F32_ops float_of_bits bits_of_float F_ceil t
  else run F64_ops float_of_bits bits_of_float F_ceil t.
