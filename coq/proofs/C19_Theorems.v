(* C19 - the theorems behind props/C19.v, in the vocabulary of model/C19_Spec.v. *)
From Coq Require Import List Arith NArith ZArith Bool Lia.
Require Import Result ResultFacts F32 C19_Layout C19_FrameId C19_OpenPose C19_Spec C19_ArrayLemmas C19_LoopLemmas C19_LoadProofs C19_FrameIdProofs.
Import ListNotations.
Local Open Scope nat_scope.

Lemma comps137_xyc : formats_xyc comps137.
Proof.
  apply Forall_nth. intros i d Hi. change (length comps137) with 4 in Hi.
  do 4 (destruct i as [|i]; [reflexivity|]). lia.
Qed.
Lemma comps137_total : total_points comps137 = 137.
Proof. reflexivity. Qed.

Theorem recorded cs (fs : frames) fps w h d nf ps : load_openpose cs fs fps w h d nf = Ok ps ->
  p_dims ps = (w, h, d) /\ p_fps ps = fps /\ p_comps ps = cs.
Proof. intros H. destruct (load_inv _ _ _ _ _ _ _ _ H) as (a & F & P & ->). auto. Qed.

Section L137.
Variables (fs : frames) (fps : num) (w h d : Z) (nf : option nat) (ps : pose).
Hypothesis Hload : load_openpose comps137 fs fps w h d nf = Ok ps.
Hypothesis Hdict : dict_ok fs.
Hypothesis Hcount : count_ok fs nf.
Hypothesis Hfit : frames_fit comps137 fs.

Lemma load_nonempty : fs <> [].
Proof. clear Hdict Hcount Hfit. intros ->. unfold load_openpose in Hload. destruct nf; discriminate. Qed.

Lemma general_137 :
  p_shape ps = (frame_count fs nf, max_people fs, 137) /\ pose_shape_ok ps /\
  forall f p k, f < frame_count fs nf -> p < max_people fs -> k < 137 ->
    cell_at ps f p k = Some (expected_cell comps137 fs f p k) /\
    forall x y c, expected_cell comps137 fs f p k = (x, y, c) ->
      mask_at ps f p k 0 = Some (is_zero32 c) /\ mask_at ps f p k 1 = Some (is_zero32 c).
Proof.
  destruct (load_general comps137 fs fps w h d nf comps137_xyc load_nonempty Hdict Hcount Hfit)
    as (ps' & E & _ & _ & _ & Hsh & Hok & Hcell).
  rewrite Hload in E. injection E as <-. rewrite comps137_total in *. auto.
Qed.
Lemma reads_137 f p k x y c : f < frame_count fs nf -> p < max_people fs -> k < 137 ->
  expected_cell comps137 fs f p k = (x, y, c) ->
  data_at ps f p k 0 = Some x /\ data_at ps f p k 1 = Some y /\ conf_at ps f p k = Some c /\
  mask_at ps f p k 0 = Some (is_zero32 c) /\ mask_at ps f p k 1 = Some (is_zero32 c).
Proof.
  intros Hf Hp Hk E. destruct general_137 as (_ & _ & Hcell). destruct (Hcell f p k Hf Hp Hk) as [Hc Hm].
  rewrite E in Hc. destruct (cell_at_inv _ _ _ _ _ _ _ Hc) as (D0 & D1 & C0). destruct (Hm _ _ _ E). auto.
Qed.
Lemma listed_137 f p k per ts x y c :
  json_person fs f p = Some per -> person_triples comps137 per = Some ts -> nth_error ts k = Some (x, y, c) -> k < 137 ->
  data_at ps f p k 0 = Some (cast32 x) /\ data_at ps f p k 1 = Some (cast32 y) /\ conf_at ps f p k = Some (cast32 c) /\
  mask_at ps f p k 0 = Some (is_zero32 (cast32 c)) /\ mask_at ps f p k 1 = Some (is_zero32 (cast32 c)).
Proof.
  intros Hper Ets Nk Hk. destruct (json_person_lt _ _ _ _ _ Hcount Hper) as [Hf Hp].
  exact (reads_137 f p k _ _ _ Hf Hp Hk (expected_listed _ _ _ _ _ _ _ _ _ _ Hper Ets Nk)).
Qed.
End L137.

Lemma json_person_absent_frame (fs : frames) f p : ~ In f (map fst fs) -> json_person fs f p = None.
Proof. intros H. unfold json_person. now rewrite (find_frame_none f fs H). Qed.
Lemma json_person_absent_person (fs : frames) f p fr : find_frame f fs = Some fr -> length fr <= p -> json_person fs f p = None.
Proof. intros H Hl. unfold json_person. rewrite H. now apply nth_error_None. Qed.
Lemma json_person_beyond_last (fs : frames) f p : last_id fs < f -> json_person fs f p = None.
Proof.
  intros H. apply json_person_absent_frame. intros Hin. apply (list_max_ge (map fst fs) f) in Hin. unfold last_id in H. lia.
Qed.

Lemma dict_set_keys {V} k (v : V) dct : map fst (dict_set k v dct) = if existsb (Nat.eqb k) (map fst dct) then map fst dct else map fst dct ++ [k].
Proof.
  induction dct as [|[k' v'] r IH]; [reflexivity|]. cbn [dict_set map fst existsb].
  destruct (Nat.eqb_spec k k') as [->|N]; cbn [orb map fst]; [reflexivity|]. rewrite IH.
  destruct (existsb (Nat.eqb k) (map fst r)); reflexivity.
Qed.
Lemma NoDup_snoc {A} (l : list A) x : NoDup l -> ~ In x l -> NoDup (l ++ [x]).
Proof. intros Hn Hx. apply (NoDup_Add (Add_app x l [])). rewrite app_nil_r. split; assumption. Qed.
Lemma dict_set_fresh {V} k (v : V) dct : ~ In k (map fst dct) -> dict_set k v dct = dct ++ [(k, v)].
Proof.
  induction dct as [|[k' v'] r IH]; [reflexivity|]. cbn [dict_set app map fst In]. intros Hnot.
  destruct (Nat.eqb_spec k k') as [->|N]; [tauto|]. rewrite IH by tauto. reflexivity.
Qed.
Lemma dict_set_nodup {V} k (v : V) dct : NoDup (map fst dct) -> NoDup (map fst (dict_set k v dct)).
Proof.
  intros H. rewrite dict_set_keys. destruct (existsb (Nat.eqb k) (map fst dct)) eqn:E; [exact H|].
  apply NoDup_snoc; [exact H|].
  intros Hin. assert (existsb (Nat.eqb k) (map fst dct) = true); [|congruence].
  apply existsb_exists. exists k. split; [exact Hin|apply Nat.eqb_refl].
Qed.

Lemma dir_frames_nodup : forall entries acc fs, dir_frames entries acc = Ok fs -> NoDup (map fst acc) -> NoDup (map fst fs).
Proof.
  induction entries as [|[name fr] rest IH]; intros acc fs H Hn; cbn [dir_frames] in H.
  - injection H as <-. exact Hn.
  - destruct (get_frame_id name) as [id|]; [|discriminate]. cbn [rbind] in H. eapply IH; [exact H|]. now apply dict_set_nodup.
Qed.
Theorem dir_frames_distinct : forall entries ids acc,
  Forall2 (fun e id => get_frame_id (fst e) = Ok (N.of_nat id)) entries ids -> NoDup (map fst acc ++ ids) ->
  dir_frames entries acc = Ok (acc ++ combine ids (map snd entries)).
Proof.
  induction entries as [|[name fr] rest IH]; intros ids acc H2 Hn; inversion H2 as [|e id r ids' He Hr]; subst.
  - cbn. now rewrite app_nil_r.
  - cbn [dir_frames fst] in *. rewrite He. cbn [rbind]. rewrite Nat2N.id.
    rewrite dict_set_fresh by (intros Hin; apply NoDup_remove_2 in Hn; apply Hn, in_app_iff; now left).
    rewrite IH with (ids := ids').
    + cbn [map snd combine]. now rewrite <- app_assoc.
    + exact Hr.
    + rewrite map_app. cbn [map fst]. rewrite <- app_assoc. exact Hn.
Qed.

Lemma nth_error_firstn {A} n (l : list A) k : nth_error (firstn n l) k = if k <? n then nth_error l k else None.
Proof.
  revert l k; induction n as [|n IH]; intros l k; [destruct k; reflexivity|].
  destruct l as [|x l]; [cbn [firstn]; destruct k; cbn [nth_error]; destruct (_ <? S n); reflexivity|].
  destruct k as [|k]; [reflexivity|]. cbn [firstn nth_error]. rewrite IH.
  destruct (Nat.ltb_spec k n), (Nat.ltb_spec (S k) (S n)); try reflexivity; lia.
Qed.
Lemma get3_firstn {A} n (a : list (list (list A))) f p k :
  get3 (map (map (firstn n)) a) f p k = if k <? n then get3 a f p k else None.
Proof.
  unfold get3. rewrite nth_error_map. destruct (nth_error a f) as [x|]; cbn [option_map]; [|destruct (k <? n); reflexivity].
  rewrite nth_error_map. destruct (nth_error x p) as [y|]; cbn [option_map]; [|destruct (k <? n); reflexivity].
  apply nth_error_firstn.
Qed.
Lemma empty_rest_triples cs per : Forall (fun c => lookup (c_name c) per = Some []) cs -> person_triples cs per = Some [].
Proof. induction 1 as [|c cs Hc _ IH]; [reflexivity|]. cbn [person_triples]. rewrite Hc, IH. reflexivity. Qed.
Lemma conforms_135_triples per : person_conforms_135 per ->
  exists ns ts, lookup (c_name (nth 0 comps137 ([], [], [], []))) per = Some ns /\ person_triples comps137 per = Some ts /\ length ts = 135 /\
    forall k, k < 135 -> exists x y c, nth_error ns (3 * k) = Some x /\ nth_error ns (3 * k + 1) = Some y /\
                                     nth_error ns (3 * k + 2) = Some c /\ nth_error ts k = Some (x, y, c).
Proof.
  intros (ns & El & Ln & Hrest). destruct (chunk3_len 135 ns Ln) as (t & Et & Lt & Ht).
  exists ns, t. split; [exact El|].
  change comps137 with (nth 0 comps137 ([], [], [], []) :: tl comps137). cbn [person_triples].
  rewrite El, Et, (empty_rest_triples _ _ Hrest), app_nil_r. auto.
Qed.
Lemma conforms_135_fits (fs : frames) : Forall (fun x => Forall person_conforms_135 (snd x)) fs -> frames_fit comps137 fs.
Proof.
  apply people_impl. intros per Hper. destruct (conforms_135_triples per Hper) as (ns & ts & _ & E & L & _).
  exists ts. split; [exact E|]. rewrite comps137_total, L. repeat constructor.
Qed.

(* the result of the 135 loader reads, below point 135, like the 137-point pose it slices *)
Lemma load_135_inv entries (fs : frames) fps w h d nf ps :
  dir_frames entries [] = Ok fs -> load_openpose_135_directory entries fps w h d nf = Ok ps ->
  exists ps0, load_openpose comps137 fs fps w h d nf = Ok ps0 /\
    p_comps ps = comps135 /\ p_dims ps = p_dims ps0 /\ p_fps ps = p_fps ps0 /\
    p_shape ps = (let '(f, pp, k) := p_shape ps0 in (f, pp, Nat.min 135 k)) /\
    forall f p k, k < 135 ->
      (forall j, data_at ps f p k j = data_at ps0 f p k j) /\ conf_at ps f p k = conf_at ps0 f p k /\
      (forall j, mask_at ps f p k j = mask_at ps0 f p k j).
Proof.
  intros Hdir H. unfold load_openpose_135_directory, load_openpose_directory in H. rewrite Hdir in H. cbn [rbind] in H.
  destruct (load_openpose comps137 fs fps w h d nf) as [ps0|]; [|discriminate]. cbn [rbind] in H.
  apply Ok_inj in H. subst ps.   (* [injection] would unfold [firstn 135] and [Nat.min 135] *)
  exists ps0. repeat (split; [reflexivity|]). intros f p k Hk.
  unfold data_at, conf_at, mask_at, get4. cbn [p_data p_conf p_mask]. rewrite !get3_firstn.
  apply Nat.ltb_lt in Hk. rewrite Hk. auto.
Qed.

Theorem cell_exact_135 entries (fs : frames) fps w h d nf ps :
  dir_frames entries [] = Ok fs -> load_openpose_135_directory entries fps w h d nf = Ok ps ->
  count_ok fs nf -> Forall (fun x => Forall person_conforms_135 (snd x)) fs ->
  p_comps ps = comps135 /\ p_dims ps = (w, h, d) /\ p_fps ps = fps /\ p_shape ps = (frame_count fs nf, max_people fs, 135) /\
  forall f p k, k < 135 ->
    (forall per, json_person fs f p = Some per ->
       exists numbers x y cf, lookup (c_name (nth 0 comps137 ([], [], [], []))) per = Some numbers /\
         nth_error numbers (3 * k + 0) = Some x /\ nth_error numbers (3 * k + 1) = Some y /\ nth_error numbers (3 * k + 2) = Some cf /\
         data_at ps f p k 0 = Some (cast32 x) /\ data_at ps f p k 1 = Some (cast32 y) /\ conf_at ps f p k = Some (cast32 cf) /\
         mask_at ps f p k 0 = Some (is_zero32 (cast32 cf)) /\ mask_at ps f p k 1 = Some (is_zero32 (cast32 cf))) /\
    (json_person fs f p = None -> f < frame_count fs nf -> p < max_people fs ->
       data_at ps f p k 0 = Some 0%N /\ data_at ps f p k 1 = Some 0%N /\ conf_at ps f p k = Some 0%N /\
       mask_at ps f p k 0 = Some true /\ mask_at ps f p k 1 = Some true).
Proof.
  intros Hdir H135 Hcount Hconf.
  destruct (load_135_inv _ _ _ _ _ _ _ _ Hdir H135) as (ps0 & Hload & -> & -> & -> & -> & Hread).
  assert (Hdict : dict_ok fs) by (eapply dir_frames_nodup; [exact Hdir|constructor]).
  pose proof (conforms_135_fits fs Hconf) as Hfit.
  destruct (recorded _ _ _ _ _ _ _ _ Hload) as (-> & -> & _).
  destruct (general_137 fs fps w h d nf ps0 Hload Hdict Hcount Hfit) as (-> & _).
  repeat (split; [reflexivity|]).
  intros f p k Hk. destruct (Hread f p k Hk) as (Ed & -> & Em). rewrite !Ed, !Em.
  assert (Hk' : k < 137) by (apply (Nat.lt_trans _ 135); [exact Hk|do 2 constructor]).
  split.
  - intros per Hper.
    destruct (conforms_135_triples per (json_person_Forall _ _ _ _ _ Hconf Hper)) as (ns & ts & El & Ets & _ & Hts).
    destruct (Hts k Hk) as (x & y & cf & N0 & N1 & N2 & Nk).
    exists ns, x, y, cf. rewrite Nat.add_0_r. split; [exact El|]. split; [exact N0|]. split; [exact N1|]. split; [exact N2|].
    exact (listed_137 fs fps w h d nf ps0 Hload Hdict Hcount Hfit f p k per ts x y cf Hper Ets Nk Hk').
  - intros Hnone Hf Hp.
    exact (reads_137 fs fps w h d nf ps0 Hload Hdict Hcount Hfit f p k _ _ _ Hf Hp Hk' (expected_absent _ _ _ _ _ Hnone)).
Qed.
