(* Pose.read with the header memo: the memo is neutral (C01, C06, C07); the header decoder and a full body read are
   skip-free ([noSkip]), which gives truncation (C07) and the soundness of the memo a read leaves. *)
From Coq Require Import ZArith NArith List Lia ZifyBool ZifyN ZifyNat Bool.
Require Import ListN Result Bytes Utf8S Prog Codec ProgLemmas CodecRT PoseRead.
Import ListNotations.
Open Scope N_scope.

Lemma bytes_eqb_eq a : forall b, bytes_eqb a b = true -> a = b.
Proof. induction a as [|x a IH]; intros [|y b] H; cbn [bytes_eqb] in H; try discriminate; [reflexivity|].
  apply andb_true_iff in H. destruct H as [Hx H]. apply N.eqb_eq in Hx. subst. f_equal. now apply IH. Qed.
Lemma bytes_eqb_refl a : bytes_eqb a a = true.
Proof. induction a as [|x a IH]; [reflexivity|]. cbn [bytes_eqb]. now rewrite N.eqb_refl, IH. Qed.

Lemma py_slice_0 e b : py_slice 0 e b = takeN e b.
Proof. unfold py_slice. now rewrite dropN_0, N.sub_0_r. Qed.

Lemma noSkip_rd_u16 : noSkip rd_u16. Proof. cbn. auto. Qed.
Lemma noSkip_rd_str : noSkip rd_str.
Proof. unfold rd_str. apply noSkip_bind; [apply noSkip_rd_u16|]. intros n. cbn [noSkip]. intros b. destruct (dec_utf8 b); exact I. Qed.
Lemma noSkip_rd_component : noSkip rd_component.
Proof.
  unfold rd_component.
  apply noSkip_bind; [apply noSkip_rd_str|]. intros name.
  apply noSkip_bind; [apply noSkip_rd_str|]. intros fmt.
  apply noSkip_bind; [cbn; auto|]. intros [[np nl] nc].
  apply noSkip_bind; [apply noSkip_prep, noSkip_rd_str|]. intros pts.
  apply noSkip_bind; [apply noSkip_prep; cbn; auto|]. intros limbs.
  apply noSkip_bind; [cbn; auto|]. intros cols. exact I.
Qed.
Lemma noSkip_rd_header : noSkip rd_header.
Proof.
  unfold rd_header.
  apply noSkip_bind; [cbn; auto|]. intros v.
  apply noSkip_bind; [cbn; auto|]. intros dims.
  apply noSkip_bind; [apply noSkip_rd_u16|]. intros n.
  apply noSkip_bind; [apply noSkip_prep, noSkip_rd_component|]. intros comps. exact I.
Qed.
Lemma noBL_rd_header : noBL rd_header.
Proof. apply noSkip_noBL, noSkip_rd_header. Qed.

(* a memo is consistent when its header is the parse of exactly the bytes it hashed *)
Definition MemoOK (m : option memo) : Prop :=
  match m with
  | None => True
  | Some c => m_start c = 0 /\ lenN (m_slice c) = m_end c /\
              run_plain rd_header {| pbuf := m_slice c; poff := 0 |} =
              Ok (m_header c, {| pbuf := m_slice c; poff := m_end c |})
  end.

(* a hit means: the buffer starts with the hashed slice, so parsing the buffer gives the memoised header *)
Lemma check_cache_hit m buffer c : MemoOK m -> check_cache m buffer = Some c ->
  m = Some c /\
  run_plain rd_header {| pbuf := buffer; poff := 0 |} = Ok (m_header c, {| pbuf := buffer; poff := m_end c |}).
Proof.
  unfold check_cache. destruct m as [c'|]; [|discriminate]. intros [Hs [Hl Hrun]].
  destruct (bytes_eqb (m_slice c') (py_slice (m_start c') (m_end c') buffer)) eqn:E; [|discriminate].
  intros [= <-]. split; [reflexivity|].
  apply bytes_eqb_eq in E. rewrite Hs, py_slice_0 in E.
  assert (Hb : buffer = m_slice c' ++ dropN (m_end c') buffer) by (rewrite E at 1; symmetry; apply take_drop_split).
  rewrite Hb. apply run_plain_ext; [apply noBL_rd_header|exact Hrun].
Qed.

(* the memo Pose.read leaves after bytes [q] whose header parses to [h] and ends at [o]: a miss stores the parsed
   header under the hash of q[0:o] *)
Definition memo_after (m : option memo) (q : bytes) (h : header) (o : N) : option memo :=
  match check_cache m q with
  | Some _ => m
  | None => Some {| m_start := 0; m_end := o; m_slice := py_slice 0 o q; m_header := h |}
  end.

Section WithLegacy.
Variable legacy : vclass -> header -> rargs -> prog body.

(* where the header parses, Pose.read is the body decoder run from the header's end, whatever a consistent memo holds *)
Lemma read_bytes_at_header m q a h o : MemoOK m ->
  run_plain rd_header {| pbuf := q; poff := 0 |} = Ok (h, {| pbuf := q; poff := o |}) ->
  read_bytes legacy m q a =
  (rmap (fun br => {| p_header := h; p_body := fst br |}) (run_plain (read_body legacy h a) {| pbuf := q; poff := o |}),
   memo_after m q h o).
Proof.
  intros Hm Hh. unfold read_bytes, memo_after. destruct (check_cache m q) as [c|] eqn:Hc.
  - destruct (check_cache_hit m q c Hm Hc) as [_ Hrun]. rewrite Hh in Hrun. injection Hrun as <- <-. reflexivity.
  - rewrite Hh. reflexivity.
Qed.
(* also where it does not parse: then both reads raise the header decoder's exception *)
Lemma read_bytes_memo_neutral m buffer a : MemoOK m ->
  fst (read_bytes legacy m buffer a) = fst (read_bytes legacy None buffer a).
Proof.
  intros Hm. unfold read_bytes. cbn [check_cache]. destruct (check_cache m buffer) as [c|] eqn:Hc.
  - destruct (check_cache_hit m buffer c Hm Hc) as [_ ->]. reflexivity.
  - now destruct (run_plain rd_header {| pbuf := buffer; poff := 0 |}) as [[h r]|e].
Qed.
Lemma version_word_class : version_class version_word = V02.
Proof. vm_compute. reflexivity. Qed.

Lemma header_of_written p bs h b : write_header (w_dims p) (w_comps p) = Ok h -> bs = h ++ b ->
  run_plain rd_header {| pbuf := bs; poff := 0 |} = Ok (canon_header p, {| pbuf := bs; poff := lenN h |}).
Proof.
  intros Hh ->. unfold canon_header. destruct (w_dims p) as [[w hh] d]. exact (RTp_start _ _ _ b (rd_header_rt _ _ _ Hh)).
Qed.

Lemma header_of_written_x p bs h b x : write_header (w_dims p) (w_comps p) = Ok h -> bs = h ++ b ->
  run_plain rd_header {| pbuf := bs ++ x; poff := 0 |} = Ok (canon_header p, {| pbuf := bs ++ x; poff := lenN h |}).
Proof. intros Hh Hbs. apply run_plain_ext; [apply noBL_rd_header|]. now apply (header_of_written p bs h b). Qed.

Lemma read_body_dispatch p a : read_body legacy (canon_header p) a = read_v0_2 (canon_header p) (a_sf a) (a_st a) (a_ef a) (a_et a).
Proof. unfold read_body, read_body_with, canon_header. destruct (w_dims p) as [[w hh] d]. cbn [h_version].
  rewrite version_word_class. reflexivity. Qed.

(* C01 + C07 (trailing bytes): whatever follows a complete file, and whatever the memo holds, the read
   returns the canonical image of the written pose *)
Theorem read_bytes_written_trailing m p bs x :
  MemoOK m -> write_pose p = Ok bs -> wf_arrays p -> 1 <= nth 3 (w_shape p) 0 ->
  fst (read_bytes legacy m (bs ++ x) no_args) = Ok (canon p).
Proof.
  intros Hm H Hwf HD.
  destruct (write_pose_ok _ _ H) as [F [P [T [D [h [b [Hs [Hcs [Hnd [Htp [Hh [Hb Hbs]]]]]]]]]]]].
  rewrite Hs in HD. cbn [nth] in HD.
  pose proof (header_of_written_x p bs h b x Hh Hbs) as Hhead.
  pose proof (read_body_rt p b F P T D Hs Hcs Hwf Hnd Htp HD Hb h x) as Hbody.
  rewrite app_assoc, <- Hbs in Hbody.
  rewrite (read_bytes_at_header m _ _ _ _ Hm Hhead), read_body_dispatch. cbn [fst a_sf a_st a_ef a_et no_args].
  now rewrite Hbody.
Qed.
Theorem read_bytes_written m p bs : MemoOK m -> write_pose p = Ok bs -> wf_arrays p -> 1 <= nth 3 (w_shape p) 0 ->
  fst (read_bytes legacy m bs no_args) = Ok (canon p).
Proof. intros. rewrite <- (app_nil_r bs). now apply read_bytes_written_trailing. Qed.

(* a full v0.2 body read is skip-free *)
Lemma noSkip_read_frames_full frames cells : noSkip (read_frames frames cells None None).
Proof. unfold read_frames. cbn [andb]. cbv iota beta. apply noSkip_bind; [|intros t; exact I].
  unfold zblock. destruct (4 * frames * cells <? 0)%Z; cbn; auto. Qed.
Lemma noSkip_plift {A} (r : result A) : noSkip (plift r).
Proof. destruct r; exact I. Qed.
Lemma noSkip_read_v0_2_full h : noSkip (read_v0_2 h None None None None).
Proof.
  unfold read_v0_2.
  apply noSkip_bind; [cbn; auto|]. intros fps.
  apply noSkip_bind; [cbn; auto|]. intros F.
  apply noSkip_bind; [apply noSkip_rd_u16|]. intros P.
  destruct (num_dims h) as [D|e]; cbn [plift pbind]; [|exact I].
  apply noSkip_bind; [apply noSkip_read_frames_full|]. intros dat.
  apply noSkip_bind; [apply noSkip_read_frames_full|]. intros cnf.
  apply noSkip_plift.
Qed.

(* C07: every proper prefix of a written file is rejected by a full read, whatever the memo holds *)
Theorem read_bytes_truncated m p bs q s :
  MemoOK m -> write_pose p = Ok bs -> wf_arrays p -> 1 <= nth 3 (w_shape p) 0 ->
  bs = q ++ s -> s <> [] ->
  exists e, fst (read_bytes legacy m q no_args) = Err e.
Proof.
  intros Hm H Hwf HD Hq Hs.
  destruct (write_pose_ok _ _ H) as [F [P [T [D [h [b [Hsh [Hcs [Hnd [Htp [Hh [Hb Hbs]]]]]]]]]]]].
  rewrite Hsh in HD. cbn [nth] in HD.
  pose proof (header_of_written p bs h b Hh Hbs) as Hhead.
  pose proof (read_body_rt p b F P T D Hsh Hcs Hwf Hnd Htp HD Hb h []) as Hbody.
  rewrite app_nil_r, <- Hbs in Hbody.
  assert (Hlen : lenN q < lenN bs).
  { rewrite Hq, lenN_app. destruct s; [contradiction|]. unfold lenN. cbn [length]. lia. }
  assert (Hlb : lenN bs = lenN h + lenN b) by (rewrite Hbs; apply lenN_app).
  rewrite (read_bytes_memo_neutral m _ _ Hm).
  destruct (run_plain rd_header {| pbuf := q; poff := 0 |}) as [[hd [rb o]]|e] eqn:Hr;
    [|unfold read_bytes; cbn [check_cache]; rewrite Hr; now exists e].
  pose proof (run_plain_buf _ _ _ _ Hr) as Hbuf. cbn [pbuf] in Hbuf. subst rb.
  (* the header parsed on the prefix is the written header, and the body read runs beyond the prefix *)
  pose proof (run_plain_ext _ noBL_rd_header q s 0 hd o Hr) as Hx. rewrite <- Hq, Hhead in Hx. injection Hx as <- <-.
  pose proof (run_plain_bound _ noSkip_rd_header _ _ _ _ Hr) as Hob.
  rewrite (read_bytes_at_header None _ _ _ _ I Hr), read_body_dispatch. cbn [fst a_sf a_st a_ef a_et no_args]. rewrite Hq in Hbody.
  destruct (run_plain_trunc _ (noSkip_read_v0_2_full _) q s (lenN h) _ _ Hbody) as [e He]; [lia|lia|].
  rewrite He. now exists e.
Qed.

Theorem read_bytes_memo_ok m buffer a : MemoOK m -> MemoOK (snd (read_bytes legacy m buffer a)).
Proof.
  intros Hm. unfold read_bytes. destruct (check_cache m buffer) as [c|]; [exact Hm|].
  destruct (run_plain rd_header {| pbuf := buffer; poff := 0 |}) as [[h r]|e] eqn:Hr; [|exact Hm].
  cbn [snd MemoOK m_start m_end m_slice m_header].
  pose proof (run_plain_buf _ _ _ _ Hr) as Hbuf. cbn [pbuf] in Hbuf. destruct r as [rb ro]. cbn [pbuf poff] in *. subst rb.
  pose proof (run_plain_bound _ noSkip_rd_header _ _ _ _ Hr) as Hle.
  rewrite py_slice_0.
  split; [reflexivity|]. split; [rewrite lenN_takeN; lia|].
  apply run_plain_restrict; [apply noSkip_rd_header|exact Hr].
Qed.
End WithLegacy.
