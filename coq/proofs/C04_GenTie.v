(* The literals model/C04_Legacy.v was transcribed from, to be compared (props/C04.v, by reflexivity) with the regenerated
   facts of the source (coq/gen/Gen_C04.v, produced on every run by harness/translate_c04.py from /repo): the statement
   sequences and signatures of the two legacy decoders, the version dispatch, and the reader methods they alone use
   (bytes_remaining of both readers, advance).  What the model relies on in them: read_v0_1 sizes the body by
   reader.bytes_remaining(), the v0.0 mask is confidence != 0, read_v0_0 returns an empty pose for zero frames, and
   both decoders take the four window arguments; a source that differs in any of these fails the comparison.
   exp_stream_reader_methods lists the method names sorted; CodecGenTie's literal of that name has them in source order. *)
From Coq Require Import String List.
Import ListNotations.
Open Scope string_scope.

Definition exp_read_v0_1_signature : string :=
 "cls, header: PoseHeader, reader: BufferReader, start_frame: Optional[int]=None, end_frame: Optional[int]=None, start_time: Optional[int]=None, end_time: Optional[int]=None, **unused_kwargs".

Definition exp_read_v0_1_body : list string :=
  [ "if start_time is not None and start_frame is not None:
    raise ValueError('Cannot specify both start_time and start_frame')";
    "if end_time is not None and end_frame is not None:
    raise ValueError('Cannot specify both end_time and end_frame')";
    "fps, _frames = reader.unpack(ConstStructs.double_ushort)";
    "_people = reader.unpack(ConstStructs.ushort)";
    "_points = sum((len(c.points) for c in header.components))";
    "_dims = header.num_dims()";
    "_frames = int(reader.bytes_remaining() / (_people * _points * (_dims + 1) * 4))";
    "if start_time is not None:
    start_frame = math.floor(start_time / 1000 * fps)";
    "if end_time is not None:
    end_frame = math.ceil(end_time / 1000 * fps)";
    "data = cls.read_v0_1_frames(_frames, (_people, _points, _dims), reader, start_frame, end_frame)";
    "confidence = cls.read_v0_1_frames(_frames, (_people, _points), reader, start_frame, end_frame)";
    "return cls(fps, data, confidence)" ].

Definition exp_read_dispatch : list string :=
  [ "if header.version == 0:
    return cls.read_v0_0(header, reader, **kwargs)";
    "if round(header.version, 3) == 0.1:
    return cls.read_v0_1(header, reader, **kwargs)";
    "if round(header.version, 3) == 0.2:
    return cls.read_v0_2(header, reader, **kwargs)";
    "raise NotImplementedError('Unknown version - %f' % header.version)" ].

Definition exp_read_v0_0_signature : string :=
 "cls, header: PoseHeader, reader: BufferReader, start_frame: Optional[int]=None, end_frame: Optional[int]=None, start_time: Optional[int]=None, end_time: Optional[int]=None, **unused_kwargs".

Definition exp_read_v0_0_body : list string :=
  [ "if start_time is not None and start_frame is not None:
    raise ValueError('Cannot specify both start_time and start_frame')";
    "if end_time is not None and end_frame is not None:
    raise ValueError('Cannot specify both end_time and end_frame')";
    "fps, _frames = reader.unpack(ConstStructs.double_ushort)";
    "if start_time is not None:
    start_frame = math.floor(start_time / 1000 * fps)";
    "if end_time is not None:
    end_frame = math.ceil(end_time / 1000 * fps)";
    "if start_frame is not None and start_frame > 0 and (start_frame >= _frames):
    raise ValueError(f'Start frame {start_frame} is greater than the number of frames {_frames}')";
    "window = slice(max(start_frame or 0, 0), None if end_frame is None else max(end_frame, 0))";
    "_dims = max([len(c.format) for c in header.components]) - 1";
    "_points = sum([len(c.points) for c in header.components])";
    "frames_d = []";
    "frames_c = []";
    "for _ in range(_frames):
    _people = reader.unpack(ConstStructs.ushort)
    people_d = []
    people_c = []
    for pid in range(_people):
        reader.advance(ConstStructs.short)
        person_d = []
        person_c = []
        for component in header.components:
            points = np.array(reader.unpack_numpy(ConstStructs.float, (len(component.points), len(component.format))))
            dimensions, confidence = np.split(points, [-1], axis=1)
            boolean_confidence = np.where(confidence != 0, 0, 1)
            mask = np.column_stack(tuple([boolean_confidence] * (len(component.format) - 1)))
            person_d.append(ma.masked_array(dimensions, mask=mask))
            person_c.append(np.squeeze(confidence, axis=-1))
        if pid == 0:
            people_d.append(ma.concatenate(person_d))
            people_c.append(np.concatenate(person_c))
    if len(people_d) == 0:
        people_d.append(np.zeros((_points, _dims)))
        people_c.append(np.zeros(_points))
    frames_d.append(ma.stack(people_d))
    frames_c.append(np.stack(people_c))";
    "frames_d, frames_c = (frames_d[window], frames_c[window])";
    "if len(frames_d) == 0:
    return cls(fps, np.zeros((0, 1, _points, _dims)), np.zeros((0, 1, _points)))";
    "return cls(fps, ma.stack(frames_d), ma.stack(frames_c))" ].

Definition exp_reader_bytes_left : list string :=
  [ "return len(self.buffer) - self.read_offset + self.read_skipped" ].

Definition exp_reader_bytes_remaining : list string :=
  [ "return self.bytes_left()" ].

Definition exp_stream_reader_bytes_remaining : list string :=
  [ "return self.reader.seek(0, 2) - self.read_offset" ].

Definition exp_reader_advance : list string :=
  [ "self.read_offset += s.size * times" ].

Definition exp_stream_reader_methods : list string :=
  [ "__init__";
    "bytes_remaining";
    "expect_to_read";
    "read_chunk";
    "skip" ].
