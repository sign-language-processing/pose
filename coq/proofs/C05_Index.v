(* C05: frameRepresentation - the index arithmetic is the row-major position of the Python tensors, and looking a
   cell up by component name and dimension letter finds it.  The algebra of object keys comes first (keq, obj_get of
   obj_set): the lookups here and the header lemmas of C05_Header rest on it. *)
From Coq Require Import ZArith NArith List Lia ZifyBool ZifyN ZifyNat Bool Arith.
Require Import ListN Result Bytes Tensor Codec C05_JsParser C05_View.
Import ListNotations.
Open Scope nat_scope.

(* parser.ts:151-156 against row-major ravel *)
Lemma js_place_ravel (F P T i j k l : nat) :
  js_place (js_offset (Z.of_nat i) (Z.of_nat P) (Z.of_nat T) (Z.of_nat j)) (Z.of_nat k) (Z.of_nat l)
  = Z.of_nat (ravel [F; P; T] [i; j; k + l]).
Proof.
  unfold js_place, js_offset. cbn [ravel prod fold_right]. lia.
Qed.
Lemma js_data_index_cell (F P T D i j t k : nat) :
  js_data_index (Z.of_nat (ravel [F; P; T] [i; j; t])) (Z.of_nat D) (Z.of_nat k) = Z.of_nat (ravel [F; P; T; D] [i; j; t; k]).
Proof.
  unfold js_data_index. cbn [ravel prod fold_right]. lia.
Qed.
Lemma f32_at_nth (a : list N) (n : nat) : n < length a -> f32_at a (Z.of_nat n) = VF32 (nth n a 0%N).
Proof.
  intros H. unfold f32_at. destruct (Z.ltb_spec (Z.of_nat n) 0); [lia|]. rewrite Nat2Z.id.
  destruct (nth_error a n) as [w|] eqn:E; [now rewrite (nth_error_nth _ _ _ E)|].
  apply nth_error_None in E. lia.
Qed.

Lemma keq_refl k : keq k k = true.
Proof. induction k as [|x k IH]; [reflexivity|]. cbn [keq]. now rewrite N.eqb_refl, IH. Qed.
Lemma keq_eq a : forall b, keq a b = true -> a = b.
Proof. induction a as [|x a IH]; intros [|y b] H; cbn [keq] in H; try discriminate; [reflexivity|].
  apply andb_true_iff in H. destruct H as [H1 H2]. apply N.eqb_eq in H1. subst. f_equal. now apply IH. Qed.
Lemma keq_sym a b : keq a b = keq b a.
Proof. destruct (keq a b) eqn:E.
  - apply keq_eq in E. subst. now rewrite keq_refl.
  - destruct (keq b a) eqn:E'; [|reflexivity]. apply keq_eq in E'. subst. now rewrite keq_refl in E. Qed.
Lemma keq_neq a b : a <> b -> keq a b = false.
Proof. intros H. destruct (keq a b) eqn:E; [|reflexivity]. apply keq_eq in E. contradiction. Qed.
Lemma obj_get_set_same o k v : obj_get (obj_set o k v) k = Some v.
Proof. induction o as [|[k' v'] r IH]; cbn [obj_set obj_get]; [now rewrite keq_refl|].
  destruct (keq k' k) eqn:E; cbn [obj_get]; rewrite E; [reflexivity|exact IH]. Qed.
Lemma obj_get_set_other o k v k' : k <> k' -> obj_get (obj_set o k v) k' = obj_get o k'.
Proof. intros Hne. induction o as [|[k0 v0] r IH]; cbn [obj_set obj_get].
  - now rewrite (keq_neq _ _ Hne).
  - destruct (keq k0 k) eqn:E; cbn [obj_get].
    + apply keq_eq in E. subst k0. now rewrite (keq_neq _ _ Hne).
    + destruct (keq k0 k'); [reflexivity|exact IH]. Qed.

(* number of coordinate letters (not "C") before position d of a format *)
Definition coord_index (fmt : list N) (d : nat) : nat := length (filter (fun y => negb (y =? 67)%N) (firstn d fmt)).

(* one point: parser.ts:153-160 *)
Section Point.
Variables (b : jbody) (place : Z).
Definition pstep (pt : obj) (dd : N * Z) : obj :=
  let '(dim, dim_index) := dd in
  if (dim =? 67)%N then pt else obj_set pt [dim] (f32_at (jb_data b) (js_data_index place (jb_dims b) dim_index)).
(* a key the remaining letters do not set ("C" never is) keeps its value *)
Lemma pstep_fold_other fmt : forall n pt x, (x <> 67%N -> ~ In x fmt) ->
  obj_get (fold_left pstep (enum_coords n fmt) pt) [x] = obj_get pt [x].
Proof.
  induction fmt as [|y fmt IH]; intros n pt x Hx; cbn [enum_coords fold_left]; [reflexivity|].
  rewrite IH by (intros Hn H; apply (Hx Hn); now right). unfold pstep.
  destruct (N.eqb_spec y 67) as [|Hy]; [reflexivity|]. apply obj_get_set_other. intros [= ->]. apply (Hx Hy). now left.
Qed.
Lemma pstep_fold_at fmt : forall n pt d x, nth_error fmt d = Some x -> x <> 67%N -> ~ In x (skipn (S d) fmt) ->
  obj_get (fold_left pstep (enum_coords n fmt) pt) [x]
  = Some (f32_at (jb_data b) (js_data_index place (jb_dims b) (n + Z.of_nat (coord_index fmt d)))).
Proof.
  induction fmt as [|y fmt IH]; intros n pt d x Hd Hx Hlater; [destruct d; discriminate|].
  destruct d as [|d]; cbn [nth_error enum_coords fold_left skipn] in *.
  - injection Hd as ->. rewrite pstep_fold_other by (intros _; exact Hlater). unfold pstep.
    destruct (N.eqb_spec x 67); [contradiction|]. rewrite obj_get_set_same. unfold coord_index. cbn [firstn filter length].
    now rewrite Z.add_0_r.
  - rewrite (IH _ _ d x Hd Hx Hlater). do 3 f_equal. unfold coord_index. cbn [firstn filter].
    destruct (N.eqb_spec y 67); cbn [negb length]; lia.
Qed.
End Point.

Lemma js_point_fields b fmt i j k l :
  js_point b fmt i j k l =
  VObj (fold_left (pstep b (js_place (js_offset i (jb_people b) (jb_points b) j) k l)) (enum_coords 0 fmt)
                  [(k_C, f32_at (jb_conf b) (js_place (js_offset i (jb_people b) (jb_points b) j) k l))]).
Proof. reflexivity. Qed.

(* one person: parser.ts:143-162 *)
Section Person.
Variables (b : jbody) (i j : Z).
Definition comp_points (c : jcomp) (k : Z) : value :=
  VArr (map (fun l => js_point b (jc_format c) i j k l) (zrange 0 (Z.to_nat (jc_plen c)))).
Definition cstep (acc : obj * Z) (c : jcomp) : obj * Z :=
  let '(person, k) := acc in (obj_set person (jc_name c) (comp_points c k), (k + jc_plen c)%Z).
Lemma cstep_fold_other comps : forall person k name, ~ In name (map jc_name comps) ->
  obj_get (fst (fold_left cstep comps (person, k))) name = obj_get person name.
Proof.
  induction comps as [|c comps IH]; intros person k name Hn; cbn [fold_left cstep]; [reflexivity|].
  rewrite IH by (intros H; apply Hn; now right). apply obj_get_set_other. intros E. apply Hn. now left.
Qed.
Definition koff (comps : list jcomp) : Z := fold_right Z.add 0%Z (map jc_plen comps).
Lemma cstep_fold_at comps : forall person k n c, nth_error comps n = Some c ->
  ~ In (jc_name c) (map jc_name (skipn (S n) comps)) ->
  obj_get (fst (fold_left cstep comps (person, k))) (jc_name c) = Some (comp_points c (k + koff (firstn n comps))).
Proof.
  induction comps as [|c0 comps IH]; intros person k n c Hn Hlater; [destruct n; discriminate|].
  destruct n as [|n]; cbn [nth_error fold_left cstep skipn firstn] in *.
  - injection Hn as ->. rewrite cstep_fold_other by exact Hlater. rewrite obj_get_set_same.
    unfold koff. cbn [map fold_right]. now rewrite Z.add_0_r.
  - rewrite (IH _ _ n c Hn Hlater). unfold koff. cbn [map fold_right]. do 2 f_equal. lia.
Qed.
End Person.
Lemma js_person_fields comps b i j : js_person comps b i j = VObj (fst (fold_left (cstep b i j) comps (@pair obj Z [] 0%Z))).
Proof. reflexivity. Qed.

Lemma nth_error_zrange n : forall s k, k < n -> nth_error (zrange s n) k = Some (s + Z.of_nat k)%Z.
Proof. induction n as [|n IH]; intros s k Hk; [lia|]. destruct k as [|k]; cbn [zrange nth_error]; [f_equal; lia|].
  rewrite IH by lia. f_equal. lia. Qed.
Lemma nth_error_map_zrange {A} (f : Z -> A) n k : k < n -> nth_error (map f (zrange 0 n)) k = Some (f (Z.of_nat k)).
Proof. intros Hk. rewrite nth_error_map, nth_error_zrange by exact Hk. reflexivity. Qed.

Theorem js_cell_lookup (comps : list jcomp) (b : jbody) (i j n l : nat) (c : jcomp) :
  j < Z.to_nat (jb_people b) -> nth_error comps n = Some c -> l < Z.to_nat (jc_plen c) ->
  ~ In (jc_name c) (map jc_name (skipn (S n) comps)) ->
  let place := js_place (js_offset (Z.of_nat i) (jb_people b) (jb_points b) (Z.of_nat j)) (koff (firstn n comps)) (Z.of_nat l) in
  js_cell (js_frame_rep comps b (Z.of_nat i)) j (jc_name c) l 67 = Some (f32_at (jb_conf b) place) /\
  (forall d x, nth_error (jc_format c) d = Some x -> x <> 67%N -> ~ In x (skipn (S d) (jc_format c)) ->
   js_cell (js_frame_rep comps b (Z.of_nat i)) j (jc_name c) l x
   = Some (f32_at (jb_data b) (js_data_index place (jb_dims b) (Z.of_nat (coord_index (jc_format c) d))))).
Proof.
  intros Hj Hn Hl Hlater place.
  assert (Hcell : forall letter, js_cell (js_frame_rep comps b (Z.of_nat i)) j (jc_name c) l letter =
            match js_point b (jc_format c) (Z.of_nat i) (Z.of_nat j) (koff (firstn n comps)) (Z.of_nat l) with
            | VObj pt => obj_get pt [letter] | _ => None end).
  { intros letter. unfold js_cell, js_frame_rep.
    change (obj_get [(k_people, ?v)] k_people) with (Some v). cbv iota beta.
    rewrite nth_error_map_zrange by exact Hj. rewrite js_person_fields. cbv beta iota.
    rewrite (cstep_fold_at b (Z.of_nat i) (Z.of_nat j) comps [] 0%Z n c Hn Hlater). rewrite Z.add_0_l.
    unfold comp_points. cbv beta iota. rewrite nth_error_map_zrange by exact Hl. reflexivity. }
  split.
  - rewrite Hcell, js_point_fields. rewrite pstep_fold_other by (intros H; now elim H). reflexivity.
  - intros d x Hd Hx Hxl. rewrite Hcell, js_point_fields.
    rewrite (pstep_fold_at b _ (jc_format c) 0%Z _ d x Hd Hx Hxl). rewrite Z.add_0_l. reflexivity.
Qed.
