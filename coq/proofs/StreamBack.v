(* Backward transfer for skip-free programs (the header decoder): whatever BytesIOReader returns for such a program
   from a reader that has not skipped yet, BufferReader returns on the whole byte string, at the same offsets.
   Consequences: the header memo a STREAM read leaves behind is sound (MemoOK), and a stream read that got past the
   header did so on bytes whose header the plain reader parses to the same object.
   (For programs WITH skips the converse of StreamLemmas.sim_fwd is false: a zero-length block after a skip past the end
   of the stream is served by BytesIOReader - the slice of the retained buffer is empty but in range - and refused by
   BufferReader; see [bwd_counterexample].) *)
From Coq Require Import ZArith NArith List Lia ZifyBool ZifyN ZifyNat Bool.
Require Import ListN Result Bytes Prog Codec ProgLemmas PoseRead PoseReadLemmas StreamLemmas StreamRead.
Import ListNotations.
Open Scope N_scope.

(* [Pre], and the read position has not left the buffer: kept by every skip-free run ([nsk_bwd]) *)
Definition HPre (q : bytes) (r : sreader) : Prop := Pre q r /\ off r <= lenN (buf r).

Lemma pre_len q r : Pre q r -> lenN (buf r) <= lenN q.
Proof. intros [_ Hb]. apply (f_equal lenN) in Hb. rewrite lenN_takeN in Hb. lia. Qed.

Theorem nsk_bwd {A} q (p : prog A) : noSkip p -> forall sr b sr',
  HPre q sr -> run_stream q p sr = Ok (b, sr') ->
  run_plain p {| pbuf := q; poff := off sr |} = Ok (b, {| pbuf := q; poff := off sr' |}) /\ HPre q sr'.
Proof.
  induction p as [a|n k IH|n k IH|n k IH|k IH|e]; intros Hns sr b sr' [HP Ho] Hr;
    cbn [run_stream run_plain noSkip pbuf poff] in *; try contradiction; try discriminate.
  - injection Hr as <- <-. split; [reflexivity|split; assumption].
  - destruct (expect q n sr) as [ra|e] eqn:Hea; [|discriminate].
    pose proof (pre_expect q n sr ra HP Hea) as HPa. destruct (expect_off q n sr ra Hea) as [Hoa _].
    destruct (N.leb_spec (off ra - skipped ra + n) (lenN (buf ra))) as [Hfit|]; [|discriminate].
    pose proof (pre_len q ra HPa) as Hlen. destruct HPa as [Hsa Hba]. rewrite Hsa, N.sub_0_r in *.
    destruct (N.leb_spec (off sr + n) (lenN q)) as [_|Hbad]; [|lia].
    assert (Hdat : takeN n (dropN (off ra) (buf ra)) = takeN n (dropN (off sr) q)).
    { rewrite Hba, dropN_takeN, Hoa. apply takeN_takeN_le. lia. }
    rewrite Hdat in Hr.
    specialize (IH (takeN n (dropN (off sr) q)) (Hns _)
                   {| buf := buf ra; off := off ra + n; skipped := 0; pulled := pulled ra |} b sr').
    cbn [off] in IH. rewrite Hoa in IH. rewrite Hoa in Hr. apply IH; [|exact Hr].
    split; [split; cbn [skipped buf]; [reflexivity|assumption]|cbn [off buf]; lia].
Qed.

Example bwd_counterexample :
  let p : prog bytes := Skip 5 (Block 0 (fun b => Ret b)) in
  let sr := {| buf := [1; 2]; off := 0; skipped := 0; pulled := 2 |} in
  fst (match run_stream [1; 2] p sr with Ok x => Ok (fst x) | Err e => Err e end, 0) = Ok [] /\
  run_plain p {| pbuf := [1; 2]; poff := 0 |} = Err StructError.
Proof. vm_compute. split; reflexivity. Qed.

Section WithLegacy.
Variable legacy : vclass -> header -> rargs -> prog body.

Lemma stream_header_bwd q m r1 h r2 :
  expect q (prefetch_len m) {| buf := []; off := 0; skipped := 0; pulled := 0 |} = Ok r1 ->
  run_stream q rd_header r1 = Ok (h, r2) ->
  run_plain rd_header {| pbuf := q; poff := 0 |} = Ok (h, {| pbuf := q; poff := off r2 |}) /\
  py_slice 0 (off r2) (buf r2) = py_slice 0 (off r2) q /\
  MemoOK (Some {| m_start := 0; m_end := off r2; m_slice := py_slice 0 (off r2) (buf r2); m_header := h |}).
Proof.
  intros Hex Hrs.
  destruct (prefetch_pre q m r1 Hex) as [HP [Ho _]].
  assert (HP1 : HPre q r1) by (split; [exact HP|lia]).
  destruct (nsk_bwd q rd_header noSkip_rd_header r1 h r2 HP1 Hrs) as [Hpl [HP2 Ho2]]. rewrite Ho in Hpl.
  split; [exact Hpl|].
  pose proof (pre_slice q r2 _ HP2 Ho2) as Hsl. split; [exact Hsl|]. rewrite Hsl.
  pose proof (read_bytes_memo_ok legacy None q no_args I) as H.
  rewrite (read_bytes_at_header legacy None q no_args h _ I Hpl) in H. exact H.
Qed.

Lemma stream_start_bwd m q h sr m' : MemoOK m -> stream_start m q = Ok (h, sr, m') ->
  run_plain rd_header {| pbuf := q; poff := 0 |} = Ok (h, {| pbuf := q; poff := off sr |}) /\ MemoOK m'.
Proof.
  intros Hm. unfold stream_start.
  destruct (expect q (prefetch_len m) _) as [r1|e1] eqn:Hex; [|discriminate].
  destruct (prefetch_pre q m r1 Hex) as [_ [_ Hbuf]]. rewrite Hbuf, (check_cache_prefetch m q Hm).
  destruct (check_cache m q) as [c|] eqn:Hc.
  - intros [= <- <- <-]. exact (conj (proj2 (check_cache_hit m q c Hm Hc)) Hm).
  - destruct (run_stream q rd_header r1) as [[h' r2]|e2] eqn:Hrs; [|discriminate]. intros [= <- <- <-].
    destruct (stream_header_bwd q m r1 h' r2 Hex Hrs) as [Hpl [_ Hok]]. exact (conj Hpl Hok).
Qed.

Lemma read_stream_no_header m q a e : MemoOK m -> any_arg a = true ->
  run_plain rd_header {| pbuf := q; poff := 0 |} = Err e -> exists e', fst (fst (read_stream legacy m q a)) = Err e'.
Proof.
  intros Hm Ha He. rewrite (read_stream_start legacy m q a Ha). unfold read_from_start.
  destruct (stream_start m q) as [[[h sr] m']|e1] eqn:E; [|eexists; reflexivity].
  apply (stream_start_bwd m q h sr m' Hm) in E. rewrite (proj1 E) in He. discriminate.
Qed.

Theorem read_stream_memo_ok m q a : MemoOK m -> MemoOK (snd (fst (read_stream legacy m q a))).
Proof.
  intros Hm. destruct (any_arg a) eqn:Ha.
  - rewrite (read_stream_start legacy m q a Ha). unfold read_from_start.
    destruct (stream_start m q) as [[[h sr] m']|e] eqn:E; [|exact Hm].
    apply (stream_start_bwd m q h sr m' Hm) in E. destruct (run_stream q _ sr) as [[b r3]|e]; exact (proj2 E).
  - unfold read_stream. rewrite Ha. cbn [negb].
    pose proof (read_bytes_memo_ok legacy m q a Hm) as H. destruct (read_bytes legacy m q a) as [r m']. exact H.
Qed.
End WithLegacy.
