(* C10 - refinement, part 3: every instruction, then every program (induction, any length). *)
From Coq Require Import List Arith ZArith Bool Lia.
Require Import ListFacts Result Tensor Num C10_Tensor C10_Masked C10_TensorLemmas C10_Aligned C10_RefBase C10_Stats.
Import ListNotations.

Lemma prod_app_one s e : prod (s ++ [e]) = prod s * e.
Proof. induction s as [|x s IH]; cbn [app prod fold_right]; [lia|]. fold (prod (s ++ [e])) (prod s). rewrite IH. lia. Qed.
Lemma flat_map_length_const {X Y} (row : X -> list Y) e l : (forall x, length (row x) = e) -> length (flat_map row l) = length l * e.
Proof. intros H. induction l as [|x l IH]; cbn; [reflexivity|]. rewrite app_length, H, IH. reflexivity. Qed.
Lemma combine_map_repeat {X Y} (f : nat -> X) (y : Y) l : combine (map f l) (repeat y (length l)) = map (fun j => (f j, y)) l.
Proof. induction l as [|a l IH]; cbn; [reflexivity|]. now rewrite IH. Qed.
Lemma expand_last_wf {X Y} e (row : X -> list Y) t : wf t -> (forall x, length (row x) = e) -> wf (expand_last e row t).
Proof. intros Hw Hr. unfold wf, expand_last; cbn [shape data]. rewrite prod_app_one, (flat_map_length_const row e) by exact Hr. now rewrite Hw. Qed.

Section Refines.
Variable O : ops.
Variable trig : uname -> T O -> T O.
Hypothesis add_0_r : forall x : T O, add O x (zero O) = x.
Hypothesis count_faithful : forall l : list (T O), nonzero O (count O l) = false -> l = [].
Notation A := (T O).
Notation mt := (mt O).
Notation pair_of := (pair_of O).
Notation dp := (dp O).
Notation z0 := (z0 O).
Notation ok := (ok O).
Notation fsum := (fsum O).
Notation exec := (exec O trig).
Notation rexec := (rexec O trig).

Lemma sum_refines dd (m : mt) : ok m ->
  pair_of (tmap fsum (slices_opt z0 dd (fst m)), tmap (forallb (fun b => b)) (slices_opt false dd (snd m)))
  = tmap (fun l : list (A * bool) => (fsum (map fst l), forallb snd l)) (slices_opt dp dd (pair_of m)).
Proof. intros Hm. destruct (slices_opt_tzip (zero O) false dd _ _ (ok_al _ _ Hm) (ok_len _ _ Hm)) as [ns [ca [cb [Ea [Eb [Ep Hl]]]]]].
  unfold C10_Masked.pair_of, C10_Masked.dp, C10_Masked.z0; cbn [fst snd]. rewrite Ea, Eb, Ep, !tmap_tabulate, tzip_tabulate.
  apply tabulate_ext. intros k _. now rewrite map_fst_combine, forallb_snd_combine. Qed.

(* the row functions of [exec] / [rexec] for IMatmul, named so that [matmul_refines] can be stated; [exec_refines]
   meets them as lambdas and matches by conversion *)
Definition rowv (mat : tensor A) (e : nat) (row : list A) : list A := map (fun j => dot O row (column O mat j)) (seq 0 e).
Definition rowk (e : nat) (row : list bool) : list bool := repeat (forallb (fun b => b) row) e.
Definition rowp (mat : tensor A) (e : nat) (row : list (A * bool)) : list (A * bool) :=
  map (fun j => (dot O (map fst row) (column O mat j), forallb snd row)) (seq 0 e).
Lemma row_combine mat e a b : length a = length b -> combine (rowv mat e a) (rowk e b) = rowp mat e (combine a b).
Proof. intros H. unfold rowv, rowk, rowp. rewrite map_fst_combine, forallb_snd_combine by exact H.
  rewrite <- (seq_length e 0) at 2. apply combine_map_repeat. Qed.
Lemma rows_combine mat e (ca : nat -> list A) (cb : nat -> list bool) l : (forall k, length (ca k) = length (cb k)) ->
  combine (flat_map (rowv mat e) (map ca l)) (flat_map (rowk e) (map cb l))
  = flat_map (rowp mat e) (map (fun k => combine (ca k) (cb k)) l).
Proof. intros H. induction l as [|x l IH]; cbn [map flat_map]; [reflexivity|].
  rewrite combine_app by (unfold rowv, rowk; now rewrite map_length, seq_length, repeat_length).
  now rewrite IH, row_combine. Qed.
Lemma matmul_refines (m : mt) mat e : ok m ->
  pair_of (expand_last e (rowv mat e) (slices z0 (length (shape (fst m)) - 1) (fst m)),
           expand_last e (rowk e) (slices false (length (shape (snd m)) - 1) (snd m)))
  = expand_last e (rowp mat e) (slices dp (length (shape (fst m)) - 1) (pair_of m))
  /\ ok (expand_last e (rowv mat e) (slices z0 (length (shape (fst m)) - 1) (fst m)),
         expand_last e (rowk e) (slices false (length (shape (snd m)) - 1) (snd m))).
Proof. intros Hm. rewrite <- (ok_al _ _ Hm).
  destruct (slices_opt_tzip (zero O) false (Some (length (shape (fst m)) - 1)) _ _ (ok_al _ _ Hm) (ok_len _ _ Hm)) as [ns [ca [cb [Ea [Eb [Ep Hl]]]]]].
  cbn [slices_opt] in *. unfold C10_Masked.pair_of, C10_Masked.dp, C10_Masked.z0; cbn [fst snd]. rewrite Ea, Eb, Ep. split.
  - unfold expand_last, tzip, tabulate; cbn [shape data]. now rewrite rows_combine.
  - repeat split; cbn [fst snd].
    + apply expand_last_wf; [apply tabulate_wf | intros x; unfold rowv; now rewrite map_length, seq_length].
    + apply expand_last_wf; [apply tabulate_wf | intros x; apply repeat_length]. Qed.

Lemma unary_pair (u : A -> A) (x : mt) : pair_of (tmap u (fst x), snd x) = tmap (fun a : A * bool => (u (fst a), snd a)) (pair_of x).
Proof. unfold C10_Masked.pair_of, tzip, tmap; cbn [fst snd shape data]. f_equal. apply combine_map_l. Qed.
Lemma ok_unary (u : A -> A) (x : mt) : ok x -> ok (tmap u (fst x), snd x).
Proof. intros [X1 [X2 X3]]. repeat split; [now apply tmap_wf | exact X2 | exact X3]. Qed.

(* the reference combines the (value, validity) cells of a masked operand with those of [b]: it is refined by any
   pair of tensors tabulating, over the broadcast shape, the two components of what it computes *)
Lemma bzip_refines {Y} (dy : Y) (g' : A * bool -> Y -> A * bool) (m : mt) (b : tensor Y) ns (cv : nat -> A) (ck : nat -> bool) :
  ok m -> broadcast_shapes (shape (fst m)) (shape b) = Ok ns ->
  (forall j, g' (bget z0 ns (fst m) j, bget false ns (snd m) j) (bget dy ns b j) = (cv j, ck j)) ->
  (do x <- bzip dp dy g' (pair_of m) b; Ok [x]) = Ok (map pair_of [(tabulate ns cv, tabulate ns ck)])
  /\ Forall ok [(tabulate ns cv, tabulate ns ck)].
Proof. intros Hm B H. rewrite (bzip_of_shapes dp dy g' (pair_of m) b ns B). cbn [rbind map]. rewrite (pair_tabulate O).
  split; [|apply Forall_one, ok_tabulate]. do 2 f_equal. apply tabulate_ext. intros j _.
  rewrite (bget_pair O ns m j Hm). apply H. Qed.
(* both operands masked: valid exactly where both are *)
Lemma and_refines (g : A -> A -> A) (m m2 : mt) v k : ok m -> ok m2 ->
  bzip z0 z0 g (fst m) (fst m2) = Ok v -> bzip false false andb (snd m) (snd m2) = Ok k ->
  (do x <- bzip dp dp (fun a b : A * bool => (g (fst a) (fst b), snd a && snd b)) (pair_of m) (pair_of m2); Ok [x])
  = Ok (map pair_of [(v, k)]) /\ Forall ok [(v, k)].
Proof. intros Hm Hm2 Hv Hk. destruct (bzip_and_nf O g m m2 v k Hm Hm2 Hv Hk) as [ns [B [-> ->]]].
  apply (bzip_refines dp _ m (pair_of m2) ns _ _ Hm B). intros j. now rewrite (bget_pair O ns m2 j Hm2). Qed.

Lemma exec_refines f i env outs : instr_wf O i -> Forall ok env -> exec repaired f i env = Ok outs ->
  rexec f i (map pair_of env) = Ok (map pair_of outs) /\ Forall ok outs.
Proof. intros Hi He H.
  destruct (plans_of O f i) as [[r p]|] eqn:Hp; [exact (structural_moves_together O trig _ _ _ _ _ _ _ Hp He H)|].
  unfold C10_Masked.exec in H. unfold C10_Masked.rexec. rewrite Hp in *.
  destruct i; try discriminate.
  - (* IArith *)
    destruct (arith_ok O f op o); [|discriminate]. revert H. apply get_refines; [exact He|]. intros m Hm.
    destruct o as [r2|t].
    + apply get_refines; [exact He|]. intros m2 Hm2 H. binv H. binv H. injection H as <-.
      exact (and_refines _ _ _ _ _ Hm Hm2 E E0).
    + intros H. binv H. cbn [plain_bcast repaired] in H. binv H. injection H as <-.
      apply bzip_ok in E. destruct E as [ns [B ->]]. apply broadcast_tabulate in E0. subst x0.
      now apply (bzip_refines z0 _ m t ns).
  - (* IDivM *)
    destruct f; [|discriminate]. revert H. apply get_refines; [exact He|]. intros m Hm. apply get_refines; [exact He|]. intros m2 Hm2 H.
    binv H. destruct upd; binv H; injection H as <-; [exact (and_refines _ _ _ _ _ Hm Hm2 E E0)|].
    cbn [plain_bcast repaired] in E0. apply bzip_ok in E. destruct E as [ns [B ->]]. apply broadcast_tabulate in E0. subst x0.
    apply (bzip_refines dp _ m (pair_of m2) ns _ _ Hm B). intros j. now rewrite (bget_pair O ns m2 j Hm2).
  - (* ISum *)
    destruct (sum_ok f d); [|discriminate]. revert H. apply get_refines; [exact He|]. intros m Hm H.
    rewrite <- (ok_al _ _ Hm) in H. binv H. rewrite pair_shape, E. cbn [rbind]. injection H as <-. cbn [map].
    rewrite sum_refines by exact Hm. split; [reflexivity|]. apply Forall_one.
    repeat split; cbn [fst snd]; try apply tmap_wf, slices_opt_wf. cbn [tmap shape]. rewrite !slices_opt_shape. f_equal. apply Hm.
  - (* ICat *) refine (cat_stack_move_together O trig repaired f (ICat O os d) env outs _ He H). left. now exists os, d.
  - (* IStack *) refine (cat_stack_move_together O trig repaired f (IStack O rs d) env outs _ He H). right. now exists rs, d.
  - (* IMatmul *)
    revert H. apply get_refines; [exact He|]. intros x Hx H.
    rewrite pair_shape. destruct (matmul_ok (shape (fst x)) (shape m)); [|discriminate].
    cbn [matmul_rowall repaired] in H. injection H as <-. cbn [map].
    destruct (matmul_refines x m (nth 1 (shape m) 0) Hx) as [M1 M2]. split; [|now apply Forall_one].
    do 2 f_equal. symmetry. exact M1.
  - (* IStat *)
    destruct (stat_ok f); [|discriminate]. revert H. apply get_refines; [exact He|]. intros m Hm H. rewrite pair_shape.
    destruct k; binv H; injection H as <-.
    + destruct (mean_nf O add_0_r _ _ _ _ Hm E) as [dd [Hdd [Hpx Hx]]]. rewrite Hdd. cbn [rbind map].
      rewrite Hpx. split; [reflexivity | now apply Forall_one].
    + destruct (var_nf O add_0_r count_faithful _ _ _ Hm E) as [dd [Hdd [Hpx Hx]]]. rewrite Hdd. cbn [rbind map].
      rewrite Hpx. split; [reflexivity | now apply Forall_one].
    + destruct (var_nf O add_0_r count_faithful _ _ _ Hm E) as [dd [Hdd [Hpx Hx]]]. rewrite Hdd. cbn [rbind map].
      rewrite unary_pair, Hpx, tmap_tmap. split; [reflexivity | now apply Forall_one, ok_unary].
  - (* IZeroFill *)
    revert H. apply get_refines; [exact He|]. intros m Hm H.
    binv H. injection H as <-. cbn [map]. apply (zero_filled_nf O _ _ Hm) in E. subst x.
    assert (Hw : wf (tmap (hz O) (pair_of m))) by now apply tmap_wf, pair_wf.
    rewrite (pair_wrap O _ Hw). split; [|now apply Forall_one, ok_wrap]. unfold lift. now rewrite tmap_tmap.
  - (* IUnary *)
    destruct (unary_ok f u meth); [|discriminate]. revert H. apply get_refines; [exact He|]. intros m Hm H.
    injection H as <-. cbn [map]. rewrite unary_pair. split; [reflexivity | now apply Forall_one, ok_unary].
  - (* IUnsqueeze *)
    destruct f; discriminate.
Qed.

Definition prog_wf (p : list (instr O)) : Prop := Forall (instr_wf O) p.

Theorem run_refines f p : prog_wf p -> forall env env', Forall ok env -> run O trig repaired f p env = Ok env' ->
  rrun O trig f p (map pair_of env) = Ok (map pair_of env') /\ Forall ok env'.
Proof. induction 1 as [|i p Hi _ IH]; cbn [run rrun]; intros env env' He H; [injection H as <-; now split|].
  binv H. destruct (exec_refines f i env x Hi He E) as [R1 R2]. rewrite R1. cbn [rbind]. rewrite <- map_app.
  apply IH; [|exact H]. apply Forall_app. now split. Qed.
End Refines.
