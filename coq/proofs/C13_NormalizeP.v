(* C13 - Pose.normalize over the reals: post-condition, invariance under translation and uniform positive
   scaling, mask unchanged.  Both steps of normalize, and the change of input of the invariance theorem, act on
   the coordinates of every observed point as x |-> a * x + t_d; the two reductions are computed once for such maps. *)
From Coq Require Import Reals List Lra Lia Arith Bool.
Require Import ListFacts Num RealFacts C13_Normalize C13_RBase.
Import ListNotations.
Open Scope R_scope.

Notation rpt := (C13_Normalize.pt R_ops).
Notation rgetp := (getp R_ops).
Notation rcoord := (coord R_ops).
Notation rboth := (both R_ops).
Notation rdist := (dist R_ops).
Notation rmid := (mid R_ops).

Lemma getp_lt (r : list rpt) i : pm (rgetp r i) = false -> (i < length r)%nat.
Proof. intros H. destruct (Nat.lt_ge_cases i (length r)) as [Hlt|Hge]; [exact Hlt|].
  unfold getp in H. rewrite nth_overflow in H by exact Hge. discriminate. Qed.
Lemma getp_map (f : rpt -> rpt) r i : pm (rgetp r i) = false -> rgetp (map f r) i = f (rgetp r i).
Proof. intros H. apply nth_map_lt, getp_lt, H. Qed.
Lemma getp_in r i : pm (rgetp r i) = false -> In (rgetp r i) r.
Proof. intros H. apply nth_In, getp_lt, H. Qed.
Lemma pm_getp_map (f : rpt -> rpt) r i : (forall p, pm (f p) = pm p) -> pm (rgetp (map f r) i) = pm (rgetp r i).
Proof. intros Hf. unfold getp. revert i. induction r as [|p r IH]; intros [|i]; cbn [nth map]; try reflexivity; [apply Hf|apply IH]. Qed.
Lemma both_map (f : rpt -> rpt) r i j : (forall p, pm (f p) = pm p) -> rboth i j (map f r) = rboth i j r.
Proof. intros Hf. unfold both. rewrite !(pm_getp_map f) by exact Hf. reflexivity. Qed.
Lemma filter_both_map (f : rpt -> rpt) b i j : (forall p, pm (f p) = pm p) ->
  filter (rboth i j) (map (map f) b) = map (map f) (filter (rboth i j) b).
Proof. intros Hf. induction b as [|r b IH]; [reflexivity|]. cbn [map filter]. rewrite both_map by exact Hf.
  destruct (rboth i j r); cbn [map]; rewrite IH; reflexivity. Qed.
Lemma both_true r i j : rboth i j r = true -> pm (rgetp r i) = false /\ pm (rgetp r j) = false.
Proof. unfold both. destruct (pm (rgetp r i)), (pm (rgetp r j)); cbn; intros H; try discriminate; split; reflexivity. Qed.
Lemma nth_map_default {A B} (f : A -> B) l d a a' : f a = a' -> nth d (map f l) a' = f (nth d l a).
Proof. intros <-. apply map_nth. Qed.
Lemma in_seq0 d D : In d (seq 0 D) -> (d < D)%nat.
Proof. intros H. apply in_seq in H. lia. Qed.

Definition sqsum D (p q : rpt) : R := rsum (map (fun d => sq R_ops (sub R_ops (rcoord p d) (rcoord q d))) (seq 0 D)).
Lemma sqsum_nonneg D p q : 0 <= sqsum D p q.
Proof. apply rsum_nonneg. intros x Hx. apply in_map_iff in Hx. destruct Hx as [d [<- _]]. unfold sq. rsimp. apply Rle_0_sqr. Qed.
Lemma dist_nonneg D i j r : 0 <= rdist D i j r.
Proof. unfold dist. rsimp. apply sqrt_pos. Qed.
Lemma center_nth D i j b d : (d < D)%nat ->
  nth d (center R_ops D i j b) 0 = rmean (map (rmid i j d) (filter (rboth i j) b)).
Proof. intros Hd. unfold center.
  exact (nth_map_seq (fun d => rmean (map (rmid i j d) (filter (rboth i j) b))) D d 0 Hd). Qed.

(* point maps that keep the mask and are affine on the first D coordinates of observed points *)
Section Affine.
Variables (D : nat) (a : R) (t : nat -> R) (f : rpt -> rpt).
Hypothesis f_pm : forall p, pm (f p) = pm p.
Definition acts_on (p : rpt) : Prop := forall d, (d < D)%nat -> rcoord (f p) d = a * rcoord p d + t d.

Lemma mid_affine r i j d : rboth i j r = true -> acts_on (rgetp r i) -> acts_on (rgetp r j) -> (d < D)%nat ->
  rmid i j d (map f r) = a * rmid i j d r + t d.
Proof. intros Hb Ai Aj Hd. destruct (both_true _ _ _ Hb) as [Hi Hj]. unfold mid.
  rewrite !getp_map by assumption. rewrite Ai, Aj by exact Hd. unfold two. rsimp. lra. Qed.
Lemma sqsum_affine p q : acts_on p -> acts_on q -> sqsum D (f p) (f q) = a * a * sqsum D p q.
Proof. intros Ap Aq. unfold sqsum. rewrite Rmult_comm, <- rsum_map_scal. apply rsum_map_ext. intros d Hd. apply in_seq0 in Hd.
  rewrite Ap, Aq by exact Hd. unfold sq. rsimp. ring. Qed.
Lemma dist_affine r i j : rboth i j r = true -> acts_on (rgetp r i) -> acts_on (rgetp r j) ->
  rdist D i j (map f r) = Rabs a * rdist D i j r.
Proof. intros Hb Ai Aj. destruct (both_true _ _ _ Hb) as [Hi Hj]. unfold dist. rewrite !getp_map by assumption.
  fold (sqsum D (f (rgetp r i)) (f (rgetp r j))) (sqsum D (rgetp r i) (rgetp r j)).
  rewrite sqsum_affine by assumption. apply sqrt_sq_scal, sqsum_nonneg. Qed.

Variables (i j : nat) (b : list (list rpt)).
Hypothesis Hacts : forall r p, In r b -> In p r -> pm p = false -> acts_on p.
Lemma refs_act r : In r (filter (rboth i j) b) -> rboth i j r = true /\ acts_on (rgetp r i) /\ acts_on (rgetp r j).
Proof. intros Hr. apply filter_In in Hr. destruct Hr as [Hr Hb]. destruct (both_true _ _ _ Hb) as [Hi Hj].
  split; [exact Hb|]. split; apply (Hacts r); try apply getp_in; assumption. Qed.
Lemma mean_distance_affine : mean_distance R_ops D i j (map (map f) b) = Rabs a * mean_distance R_ops D i j b.
Proof. unfold mean_distance. rewrite filter_both_map by exact f_pm. rewrite map_map, Rmult_comm, <- rmean_map_scal.
  apply rmean_map_ext. intros r Hr. destruct (refs_act r Hr) as (Hb & Ai & Aj). rewrite Rmult_comm. apply dist_affine; assumption. Qed.
Lemma center_affine d : (d < D)%nat -> filter (rboth i j) b <> [] ->
  nth d (center R_ops D i j (map (map f) b)) 0 = a * nth d (center R_ops D i j b) 0 + t d.
Proof. intros Hd Hne. rewrite !center_nth by exact Hd. rewrite filter_both_map by exact f_pm. rewrite map_map.
  rewrite <- rmean_map_linear by exact Hne. apply rmean_map_ext. intros r Hr. destruct (refs_act r Hr) as (Hb & Ai & Aj).
  apply mid_affine; assumption. Qed.
End Affine.

Lemma pm_shift D c (p : rpt) : pm (shift R_ops D c p) = pm p.
Proof. unfold shift. destruct (pm p) eqn:E; [exact E|reflexivity]. Qed.
Lemma pm_scalept s (p : rpt) : pm (scalept R_ops s p) = pm p.
Proof. unfold scalept. destruct (pm p) eqn:E; [exact E|reflexivity]. Qed.
Lemma shift_acts D c (p : rpt) : pm p = false -> acts_on D 1 (fun d => - nth d c 0) (shift R_ops D c) p.
Proof. intros Hp d Hd. unfold shift. rewrite Hp. unfold coord at 1. cbn [pc].
  rewrite (nth_map_seq _ D d _ Hd). rsimp. ring. Qed.
Lemma scalept_acts D s (p : rpt) : pm p = false -> acts_on D s (fun _ => 0) (scalept R_ops s) p.
Proof. intros Hp d _. unfold scalept. rewrite Hp. unfold coord. cbn [pc]. rsimp.
  rewrite (nth_map_default (fun x : R => x * s) (pc p) d 0 0 (Rmult_0_l s)). ring. Qed.

Lemma mean_distance_shift D c i j b :
  mean_distance R_ops D i j (map (map (shift R_ops D c)) b) = mean_distance R_ops D i j b.
Proof. rewrite (mean_distance_affine D 1 (fun d => - nth d c 0)); [rewrite Rabs_R1; apply Rmult_1_l|apply pm_shift|].
  intros r p _ _. apply shift_acts. Qed.
Lemma mean_distance_scale D s i j b :
  mean_distance R_ops D i j (map (map (scalept R_ops s)) b) = Rabs s * mean_distance R_ops D i j b.
Proof. apply (mean_distance_affine D s (fun _ => 0)); [apply pm_scalept|]. intros r p _ _. apply scalept_acts. Qed.
Lemma center_shift D c i j b d : (d < D)%nat -> filter (rboth i j) b <> [] ->
  nth d (center R_ops D i j (map (map (shift R_ops D c)) b)) 0 = 1 * nth d (center R_ops D i j b) 0 + - nth d c 0.
Proof. apply (center_affine D 1 (fun d => - nth d c 0)); [apply pm_shift|]. intros r p _ _. apply shift_acts. Qed.
Lemma center_scale D s i j b d : (d < D)%nat -> filter (rboth i j) b <> [] ->
  nth d (center R_ops D i j (map (map (scalept R_ops s)) b)) 0 = s * nth d (center R_ops D i j b) 0 + 0.
Proof. apply (center_affine D s (fun _ => 0)); [apply pm_scalept|]. intros r p _ _. apply scalept_acts. Qed.

Definition nondeg (D i j : nat) (b : list (list rpt)) : Prop :=
  exists r, In r b /\ rboth i j r = true /\ rdist D i j r <> 0.
Lemma nondeg_valid D i j b : nondeg D i j b -> filter (rboth i j) b <> [].
Proof. intros [r [Hin [Hb _]]] E. assert (H : In r (filter (rboth i j) b)) by (apply filter_In; split; assumption).
  rewrite E in H. destruct H. Qed.
Lemma mean_distance_pos D i j b : nondeg D i j b -> 0 < mean_distance R_ops D i j b.
Proof. intros [r [Hin [Hb Hd]]]. unfold mean_distance. apply (rmean_pos _ (rdist D i j r)).
  - intros y Hy. apply in_map_iff in Hy. destruct Hy as [r' [<- _]]. apply dist_nonneg.
  - apply in_map. apply filter_In. split; assumption.
  - pose proof (dist_nonneg D i j r). lra. Qed.

Lemma normalized_pt D c s (p : rpt) : pm p = false ->
  scalept R_ops s (shift R_ops D c p) = @mkpt R_ops false (map (fun d => (rcoord p d - nth d c 0) * s) (seq 0 D)).
Proof. intros Hp. unfold scalept, shift. rewrite Hp. cbn [pm pc]. rewrite map_map. reflexivity. Qed.
Lemma normalize_eq D i j sf b : filter (rboth i j) b <> [] ->
  normalize R_ops D i j sf b =
  map (map (scalept R_ops (sf / mean_distance R_ops D i j b))) (map (map (shift R_ops D (center R_ops D i j b))) b).
Proof. intros Hne. unfold normalize. destruct (filter (rboth i j) b) eqn:E; [congruence|].
  cbv zeta. rewrite mean_distance_shift. reflexivity. Qed.

Theorem normalize_post D i j sf b : nondeg D i j b ->
  mean_distance R_ops D i j (normalize R_ops D i j sf b) = Rabs sf
  /\ forall d, (d < D)%nat -> nth d (center R_ops D i j (normalize R_ops D i j sf b)) 0 = 0.
Proof. intros Hn. pose proof (nondeg_valid _ _ _ _ Hn) as Hne. pose proof (mean_distance_pos _ _ _ _ Hn) as Hpos.
  rewrite normalize_eq by exact Hne. split.
  - rewrite mean_distance_scale, mean_distance_shift. unfold Rdiv. rewrite Rabs_mult, Rabs_inv.
    rewrite (Rabs_right (mean_distance R_ops D i j b)) by lra. req. field. lra.
  - intros d Hd. rewrite center_scale, center_shift; try assumption; [req; lra|].
    rewrite filter_both_map by apply pm_shift. intros E. apply map_eq_nil in E. exact (Hne E). Qed.

(* the input translated by t (per coordinate) and scaled by a: x |-> a * x + t_d, applied to the raw data of every point *)
Definition sim_pt (a : R) (t : list R) (p : rpt) : rpt :=
  @mkpt R_ops (pm p) (map (fun d => a * rcoord p d + nth d t 0) (seq 0 (length (pc p)))).
Definition sim (a : R) (t : list R) (b : list (list rpt)) : list (list rpt) := map (map (sim_pt a t)) b.
Definition wf_body (D : nat) (b : list (list rpt)) : Prop := forall r p, In r b -> In p r -> length (pc p) = D.

Lemma sim_acts a t (p : rpt) : acts_on (length (pc p)) a (fun d => nth d t 0) (sim_pt a t) p.
Proof. intros d Hd. unfold sim_pt, coord at 1. cbn [pc].
  exact (nth_map_seq (fun d => a * rcoord p d + nth d t 0) (length (pc p)) d 0 Hd). Qed.
Section Sim.
Variables (D i j : nat) (a : R) (t : list R) (b : list (list rpt)).
Hypothesis Ha : 0 < a.
Hypothesis Hwf : wf_body D b.
Lemma sim_acts_body r p : In r b -> In p r -> pm p = false -> acts_on D a (fun d => nth d t 0) (sim_pt a t) p.
Proof. intros Hr Hp _. rewrite <- (Hwf r p Hr Hp). apply sim_acts. Qed.
Lemma mean_distance_sim : mean_distance R_ops D i j (sim a t b) = a * mean_distance R_ops D i j b.
Proof. rewrite <- (Rabs_right a) at 2 by lra. apply (mean_distance_affine D a (fun d => nth d t 0)); [reflexivity|exact sim_acts_body]. Qed.
Lemma center_sim d : (d < D)%nat -> filter (rboth i j) b <> [] ->
  nth d (center R_ops D i j (sim a t b)) 0 = a * nth d (center R_ops D i j b) 0 + nth d t 0.
Proof. apply (center_affine D a (fun d => nth d t 0)); [reflexivity|exact sim_acts_body]. Qed.
Lemma nondeg_sim : nondeg D i j b -> nondeg D i j (sim a t b).
Proof. intros [r [Hin [Hb Hd]]]. exists (map (sim_pt a t) r). split; [apply in_map; exact Hin|]. split.
  - rewrite both_map by reflexivity. exact Hb.
  - destruct (both_true _ _ _ Hb) as [Hi Hj].
    rewrite (dist_affine D a (fun d => nth d t 0) (sim_pt a t) r i j Hb)
      by (apply (sim_acts_body r); try apply getp_in; assumption).
    rewrite Rabs_right by lra. intros E. apply Rmult_integral in E. destruct E; [lra|contradiction]. Qed.

Theorem normalize_invariant sf : nondeg D i j b ->
  filled R_ops D (normalize R_ops D i j sf (sim a t b)) = filled R_ops D (normalize R_ops D i j sf b).
Proof. intros Hn. pose proof (nondeg_valid _ _ _ _ Hn) as Hne. pose proof (nondeg_valid _ _ _ _ (nondeg_sim Hn)) as Hne'.
  pose proof (mean_distance_pos _ _ _ _ Hn) as Hpos.
  rewrite !normalize_eq by assumption. unfold filled, sim. rewrite !map_map.
  apply map_ext_in. intros r Hr. rewrite !map_map. apply map_ext_in. intros p Hp.
  rewrite !pm_scalept, !pm_shift. change (pm (sim_pt a t p)) with (pm p). destruct (pm p) eqn:Epm; [reflexivity|].
  rewrite !normalized_pt by exact Epm. f_equal. apply map_ext_in. intros d Hd. apply in_seq0 in Hd.
  rewrite (sim_acts_body r p Hr Hp Epm d Hd).
  fold (sim a t b). rewrite center_sim by assumption. rewrite mean_distance_sim. rsimp. field. lra. Qed.
End Sim.
