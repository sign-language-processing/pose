(* C06, object graph level: poses handed out by separate reads and by copy() share no cell with each other nor with the
   memo; an in-place edit changes exactly one node of its owner's tree and nothing else; every read returns the pose a
   fresh process would return, whatever was read, edited or copied before. *)
From Coq Require Import ZArith NArith List Lia ZifyBool ZifyN ZifyNat Bool.
Require Import ListN Result Bytes Prog Codec PoseRead PoseReadLemmas StreamLemmas StreamBack StreamIndep Graph GraphEdit C06_Graph.
Import ListNotations.
Open Scope N_scope.

Lemma dec_strs_enc l : forall fuel, (length l <= fuel)%nat -> dec_strs fuel (enc_strs l) = Some l.
Proof.
  induction l as [|s l IH]; intros fuel Hf; [destruct fuel; reflexivity|].
  destruct fuel as [|f]; [cbn in Hf; lia|]. unfold enc_strs. cbn [map concat]. cbn [app dec_strs].
  fold (enc_strs l).
  assert (Ht : takeN (lenN s) (s ++ enc_strs l) = s) by (rewrite takeN_app_le by lia; apply takeN_all; lia).
  assert (Hd : dropN (lenN s) (s ++ enc_strs l) = enc_strs l) by (rewrite dropN_app_le by lia; rewrite dropN_all by lia; reflexivity).
  rewrite Ht, Hd, N.eqb_refl. rewrite IH by (cbn in Hf; lia). reflexivity.
Qed.
Lemma length_enc_strs l : (length l <= length (enc_strs l))%nat.
Proof. induction l as [|s l IH]; [cbn; lia|]. unfold enc_strs in *. cbn [map concat]. cbn [app length]. rewrite app_length. lia. Qed.
Lemma dec_strs_enc_len l : dec_strs (length (enc_strs l)) (enc_strs l) = Some l.
Proof. apply dec_strs_enc. apply length_enc_strs. Qed.
Lemma unflat2_flat l : unflat2 (flat2 l) = Some l.
Proof. induction l as [|[a b] l IH]; [reflexivity|]. unfold flat2 in *. cbn [map concat fst snd app unflat2]. now rewrite IH. Qed.
Lemma unflat3_flat l : unflat3 (flat3 l) = Some l.
Proof. induction l as [|[[a b] c] l IH]; [reflexivity|]. unfold flat3 in *. cbn [map concat fst snd app unflat3]. now rewrite IH. Qed.
Lemma unbits_bits l : unbits (bits l) = l.
Proof. induction l as [|b l IH]; [reflexivity|]. unfold unbits, bits in *. cbn [map]. rewrite IH. destruct b; reflexivity. Qed.

Lemma comp_of_comp_tree c : comp_of_tree (comp_tree c) = Some c.
Proof.
  unfold comp_of_tree, comp_tree, leaf. rewrite !dec_strs_enc_len, unflat2_flat, unflat3_flat. destruct c; reflexivity.
Qed.
Lemma mapM_comp cs : mapM comp_of_tree (map comp_tree cs) = Some cs.
Proof. induction cs as [|c cs IH]; [reflexivity|]. cbn [map mapM]. now rewrite comp_of_comp_tree, IH. Qed.
Lemma header_of_header_tree h : header_of_tree (header_tree h) = Some h.
Proof.
  unfold header_of_tree, header_tree, dims_tree, leaf. destruct h as [v [[w hh] d] cs]. cbn [h_version h_dims h_comps fst snd].
  now rewrite mapM_comp.
Qed.
Lemma body_of_body_tree b : body_of_tree (body_tree b) = Some b.
Proof. unfold body_of_tree, body_tree, leaf. rewrite unbits_bits. destruct b; reflexivity. Qed.
Lemma pose_of_pose_tree p : pose_of_tree (pose_tree p) = Some p.
Proof. unfold pose_of_tree, pose_tree. rewrite header_of_header_tree. cbv beta iota. rewrite body_of_body_tree. destruct p; reflexivity. Qed.

(* depth of the object trees: FUEL is enough *)
Lemma depth_header_tree h : (depth (header_tree h) <= 4)%nat.
Proof.
  unfold header_tree. cbn [depth fold_right dims_tree leaf]. 
  assert (H : (fold_right (fun k m => Nat.max (depth k) m) 0%nat (map comp_tree (h_comps h)) <= 2)%nat).
  { induction (h_comps h) as [|c cs IH]; [cbn; lia|]. cbn [map fold_right]. unfold comp_tree at 1. cbn [depth fold_right leaf]. lia. }
  lia.
Qed.
Lemma depth_body_tree b : (depth (body_tree b) <= 2)%nat.
Proof. unfold body_tree, leaf. cbn [depth fold_right]. lia. Qed.
Lemma depth_pose_tree p : (depth (pose_tree p) <= 5)%nat.
Proof. unfold pose_tree. cbn [depth fold_right]. pose proof (depth_header_tree (p_header p)). pose proof (depth_body_tree (p_body p)). lia. Qed.

Lemma unbits_or_mask m : forall c, unbits (or_mask m c) = or_maskb (unbits m) c.
Proof.
  induction m as [|mb m IH]; intros [|cw c]; try reflexivity. cbn [or_mask unbits map or_maskb]. fold (unbits (or_mask m c)). fold (unbits m).
  rewrite IH. f_equal. destruct (F32.is_zero32 cw); reflexivity.
Qed.
(* copy_tree rewrites only the payload of the mask leaf of a tree of the shape of pose_tree and returns any other tree as
   it is: both proofs take t apart along copy_tree's own pattern; off the pattern the two sides are the same term, on it
   the mask leaf has the same depth, and its bits are unbits_or_mask *)
Lemma depth_copy_tree t : depth (copy_tree t) = depth t.
Proof.
  unfold copy_tree.
  repeat match goal with |- context [match ?x with _ => _ end] => destruct x; try reflexivity end.
Qed.
Lemma pose_of_copy_tree t : pose_of_tree (copy_tree t) = option_map copy_pose (pose_of_tree t).
Proof.
  unfold copy_tree, pose_of_tree, body_of_tree.
  repeat (match goal with
          | |- context [match ?x with _ => _ end] => is_var x; destruct x
          | |- context [header_of_tree ?x] => destruct (header_of_tree x)
          end; try reflexivity).
  cbn [option_map]. unfold copy_pose. cbn [p_header p_body b_fps b_shape b_data b_conf b_mask]. rewrite unbits_or_mask. reflexivity.
Qed.

Definition MemoG (s : gstate) (Ts : list T) : Prop :=
  match gmem s with
  | None => True
  | Some c => exists hd, nth_error Ts 0 = Some (header_tree hd) /\
              MemoOK (Some {| m_start := gm_start c; m_end := gm_end c; m_slice := gm_slice c; m_header := hd |})
  end.
Definition GInv (s : gstate) : Prop :=
  exists Ts Ss, OwnsL (gheap s) (roots s) Ts Ss /\ NoDup (concat Ss) /\ Forall (fun t => (depth t <= 5)%nat) Ts /\ MemoG s Ts.

Lemma ginv_init : GInv ginit.
Proof. exists [], []. unfold roots, memo_root, MemoG, ginit; cbn. repeat split; constructor. Qed.

(* MemoG looks at the memo and at the first tree only *)
Lemma memoG_ext s s' Ts Ts' : MemoG s Ts -> gmem s' = gmem s ->
  (forall c t, gmem s = Some c -> nth_error Ts 0 = Some t -> nth_error Ts' 0 = Some t) -> MemoG s' Ts'.
Proof.
  unfold MemoG. intros HM -> H0. destruct (gmem s) as [c|]; [|exact I].
  destruct HM as [hd [H Hok]]. exists hd. split; [exact (H0 c _ eq_refl H)|exact Hok].
Qed.

Lemma read_enough (h : heap W) a (t : T) S : Owns h a t S -> (depth t <= 5)%nat -> read_tree FUEL h a = Some t /\ footprint FUEL h a = S.
Proof. intros HO Hd. apply (proj1 (owns_read h) a t S HO). unfold FUEL. lia. Qed.

(* the roots: the memo's header object first (if there is one), then the poses handed out *)
Lemma nth_error_roots s k : nth_error (roots s) (length (memo_root s) + k) = nth_error (ghanded s) k.
Proof. unfold roots. rewrite nth_error_app2 by lia. f_equal. lia. Qed.
Lemma nth_error_roots_memo s c : gmem s = Some c -> nth_error (roots s) 0 = Some (gm_addr c) /\ length (memo_root s) = 1%nat.
Proof. unfold roots, memo_root. intros ->. split; reflexivity. Qed.

Lemma roots_owned (h : heap W) l Ts Ss : OwnsL h l Ts Ss -> Forall (fun t => (depth t <= 5)%nat) Ts ->
  forall i r, nth_error l i = Some r ->
  exists t S, nth_error Ts i = Some t /\ nth_error Ss i = Some S /\ Owns h r t S /\ (depth t <= 5)%nat.
Proof.
  intros HL HD i r Hi. destruct (ownsL_nth _ _ _ _ HL _ _ Hi) as [t [S [Ht [HS HO]]]]. exists t, S.
  repeat split; try assumption. exact (proj1 (Forall_forall _ _) HD t (nth_error_In _ _ Ht)).
Qed.
Lemma roots_read (h : heap W) l Ts Ss : OwnsL h l Ts Ss -> Forall (fun t => (depth t <= 5)%nat) Ts ->
  forall i r, nth_error l i = Some r -> read_tree FUEL h r = nth_error Ts i /\ nth_error Ss i = Some (footprint FUEL h r).
Proof.
  intros HL HD i r Hi. destruct (roots_owned h l Ts Ss HL HD i r Hi) as [t [S [-> [-> [HO Hd]]]]].
  destruct (read_enough h r t S HO Hd) as [-> ->]. split; reflexivity.
Qed.

Lemma ginv_pose s : GInv s -> forall k root, nth_error (ghanded s) k = Some root ->
  exists t S, Owns (gheap s) root t S /\ NoDup S /\ (depth t <= 5)%nat.
Proof.
  intros [Ts [Ss [HL [ND [HD _]]]]] k root Hk. rewrite <- nth_error_roots in Hk.
  destruct (roots_owned _ _ _ _ HL HD _ _ Hk) as [t [S [_ [HS [HO Hd]]]]]. exists t, S.
  split; [exact HO|]. split; [exact (NoDup_concat_nth Ss ND _ S HS)|exact Hd].
Qed.
Lemma ginv_cell s k root path x : GInv s -> nth_error (ghanded s) k = Some root -> addr_at (gheap s) root path = Some x ->
  exists p ptrs, nth_error (gheap s) x = Some {| c_pay := p; c_ptrs := ptrs |}.
Proof.
  intros HI Ek Ep. destruct (ginv_pose s HI k root Ek) as [t [S [HO _]]].
  pose proof (proj1 (owns_lt (gheap s)) root t S HO x (path_in_footprint _ _ _ _ _ _ HO Ep)) as Hlt.
  destruct (nth_error (gheap s) x) as [[p ptrs]|] eqn:Ex; [exists p, ptrs; reflexivity|]. apply nth_error_None in Ex. lia.
Qed.
Lemma ginv_memo s c : GInv s -> gmem s = Some c ->
  exists hd, read_tree FUEL (gheap s) (gm_addr c) = Some (header_tree hd) /\
             MemoOK (Some {| m_start := gm_start c; m_end := gm_end c; m_slice := gm_slice c; m_header := hd |}).
Proof.
  intros [Ts [Ss [HL [_ [HD HM]]]]] Eg. unfold MemoG in HM. rewrite Eg in HM. destruct HM as [hd [H0 Hok]].
  destruct (roots_read _ _ _ _ HL HD 0%nat _ (proj1 (nth_error_roots_memo s c Eg))) as [Hr _]. rewrite H0 in Hr.
  exists hd. split; [exact Hr|exact Hok].
Qed.
Lemma memo_view_g_eq s c hd : gmem s = Some c -> read_tree FUEL (gheap s) (gm_addr c) = Some (header_tree hd) ->
  memo_view_g s = Some {| m_start := gm_start c; m_end := gm_end c; m_slice := gm_slice c; m_header := hd |}.
Proof. intros Eg Hr. unfold memo_view_g, header_at. rewrite Eg, Hr, header_of_header_tree. reflexivity. Qed.
Lemma memo_view_g_ok s : GInv s -> MemoOK (memo_view_g s).
Proof.
  intros HI. destruct (gmem s) as [c|] eqn:Eg; [|unfold memo_view_g; rewrite Eg; exact I].
  destruct (ginv_memo s c HI Eg) as [hd [Hr Hok]]. rewrite (memo_view_g_eq s c hd Eg Hr). exact Hok.
Qed.

Lemma view_of_owns s k root t S : nth_error (ghanded s) k = Some root -> Owns (gheap s) root t S -> (depth t <= 5)%nat ->
  pose_at s k = pose_of_tree t /\ cells_of s k = S.
Proof.
  intros Hk HO Hd. unfold pose_at, cells_of. rewrite Hk. destruct (read_enough _ _ _ _ HO Hd) as [-> ->]. split; reflexivity.
Qed.
Lemma pose_at_alloc t h a h' m l : alloc_tree t h = (a, h') -> (depth t <= 5)%nat ->
  pose_at {| gheap := h'; gmem := m; ghanded := l ++ [a] |} (length l) = pose_of_tree t.
Proof.
  intros Hal Hd. destruct (alloc_owns _ _ _ _ Hal) as [e [S [_ [HO _]]]].
  refine (proj1 (view_of_owns {| gheap := h'; gmem := m; ghanded := l ++ [a] |} _ a t S _ HO Hd)).
  cbn [ghanded]. rewrite nth_error_app2, Nat.sub_diag by lia. reflexivity.
Qed.

(* s' is s with cells appended to the heap and poses appended to those handed out: earlier poses are untouched *)
Definition extends (s s' : gstate) : Prop := (exists e, gheap s' = gheap s ++ e) /\ (exists l, ghanded s' = ghanded s ++ l).
Lemma extends_refl s : extends s s.
Proof. split; exists []; symmetry; apply app_nil_r. Qed.
Lemma extends_trans s1 s2 s3 : extends s1 s2 -> extends s2 s3 -> extends s1 s3.
Proof.
  intros [[e1 H1] [l1 L1]] [[e2 H2] [l2 L2]]. split; [exists (e1 ++ e2); rewrite H2, H1|exists (l1 ++ l2); rewrite L2, L1]; symmetry; apply app_assoc.
Qed.
Lemma extends_alloc s t a h' m l : alloc_tree t (gheap s) = (a, h') -> extends s {| gheap := h'; gmem := m; ghanded := ghanded s ++ l |}.
Proof. intros Hal. destruct (alloc_owns _ _ _ _ Hal) as [e [_ [-> _]]]. split; [exists e|exists l]; reflexivity. Qed.
Lemma extends_keeps s s' : GInv s -> extends s s' -> forall j, (j < length (ghanded s))%nat ->
  pose_at s' j = pose_at s j /\ cells_of s' j = cells_of s j.
Proof.
  intros HI [[e He] [l Hl]] j Hj. destruct (nth_error (ghanded s) j) as [root|] eqn:Ej; [|apply nth_error_None in Ej; lia].
  destruct (ginv_pose s HI j root Ej) as [t [S [HO [_ Hd]]]]. destruct (view_of_owns s j root t S Ej HO Hd) as [-> ->].
  apply (view_of_owns s' j root t S); [rewrite Hl, nth_error_app1 by exact Hj; exact Ej|rewrite He; apply owns_ext; exact HO|exact Hd].
Qed.

(* what a read that decodes res leaves behind: on success a new pose, handed out last, that reads back as the decoded one *)
Definition handed_out (s : gstate) (res : result pose) (r : result nat * gstate) : Prop :=
  match res with
  | Ok p => exists ap, fst r = Ok ap /\ ghanded (snd r) = ghanded s ++ [ap] /\ pose_at (snd r) (length (ghanded s)) = Some p
  | Err e => fst r = Err e /\ ghanded (snd r) = ghanded s
  end.

(* what an edit through the k-th pose leaves alone: the other poses - values and cells - and the memo *)
Definition local_to (k : nat) (s s' : gstate) : Prop :=
  (forall j, j <> k -> pose_at s' j = pose_at s j /\ cells_of s' j = cells_of s j) /\
  memo_view_g s' = memo_view_g s /\ memo_cells s' = memo_cells s.
Lemma local_to_refl k s : local_to k s s.
Proof. repeat split; reflexivity. Qed.

Lemma Forall_upd {X} (Q : X -> Prop) f l : Forall Q l -> (forall x, Q x -> Q (f x)) -> forall i, Forall Q (upd i f l).
Proof. intros HF Hf. induction HF as [|x l Hx HF IH]; intros [|i]; cbn [upd]; constructor; auto. Qed.

(* the node x, reached from the k-th pose along path, is edited (heap h -> h', the tree there t -> f t): the owner's tree changes
   at that node, every other root keeps tree and footprint because x is in no footprint but its owner's *)
Lemma ginv_edit s k root path x h' f :
  GInv s -> nth_error (ghanded s) k = Some root -> addr_at (gheap s) root path = Some x ->
  agrees_except (gheap s) h' x ->
  (forall t S, Owns (gheap s) root t S -> NoDup S ->
     exists S', Owns h' root (tmap_at path f t) S' /\ NoDup S' /\ fresh_or_old (gheap s) S S') ->
  (forall t, (depth (f t) <= depth t)%nat) ->
  let s' := {| gheap := h'; gmem := gmem s; ghanded := ghanded s |} in
  GInv s' /\ local_to k s s'.
Proof.
  intros [Ts [Ss [HL [ND [HD HM]]]]] Ek Ep Hag Hed Hf s'.
  set (i0 := (length (memo_root s) + k)%nat).
  assert (Hn : nth_error (roots s) i0 = Some root) by (unfold i0; rewrite nth_error_roots; exact Ek).
  destruct (ownsL_nth _ _ _ _ HL _ _ Hn) as [tk [Sk [Htk [HSk HOk]]]].
  destruct (Hed tk Sk HOk (NoDup_concat_nth Ss ND i0 Sk HSk)) as [Sk' [HOk' [NDk' Hfo]]].
  destruct (ownsL_edit_child (gheap s) h' x (roots s) Ts Ss Hag HL ND i0 root Sk _ Sk' Hn HSk
              (path_in_footprint _ _ _ _ _ _ HOk Ep) HOk' NDk' Hfo) as [HL' [ND' _]].
  rewrite (upd_const_eq (tmap_at path f) Ts i0 tk Htk) in HL'.
  assert (HD' : Forall (fun t => (depth t <= 5)%nat) (upd i0 (tmap_at path f) Ts)).
  { apply Forall_upd; [exact HD|]. intros t Ht. pose proof (depth_tmap_at_le f Hf path t). lia. }
  assert (Hi0 : forall c, gmem s = Some c -> (0 <> i0)%nat).
  { intros c Eg. unfold i0. rewrite (proj2 (nth_error_roots_memo s c Eg)). discriminate. }
  split.
  { exists (upd i0 (tmap_at path f) Ts), (upd i0 (fun _ => Sk') Ss). repeat split; try assumption.
    apply (memoG_ext s s' Ts); [exact HM|reflexivity|]. intros c t Eg Ht. rewrite nth_error_upd_other; [exact Ht|].
    intros E. exact (Hi0 c Eg (eq_sym E)). }
  assert (Hsame : forall j r, j <> i0 -> nth_error (roots s) j = Some r ->
            read_tree FUEL h' r = read_tree FUEL (gheap s) r /\ footprint FUEL h' r = footprint FUEL (gheap s) r).
  { intros j r Hne Hj. destruct (roots_read _ _ _ _ HL HD j r Hj) as [E1 E2]. destruct (roots_read _ _ _ _ HL' HD' j r Hj) as [E1' E2'].
    assert (Hne' : i0 <> j) by (intros E; exact (Hne (eq_sym E))).
    rewrite nth_error_upd_other in E1' by exact Hne'. rewrite nth_error_upd_other in E2' by exact Hne'. split; congruence. }
  split.
  - intros j Hne. unfold pose_at, cells_of. cbn [ghanded gheap s'].
    destruct (nth_error (ghanded s) j) as [rj|] eqn:Ej; [|split; reflexivity]. rewrite <- nth_error_roots in Ej.
    destruct (Hsame (length (memo_root s) + j)%nat rj ltac:(unfold i0; lia) Ej) as [-> ->]. split; reflexivity.
  - unfold memo_view_g, header_at, memo_cells. cbn [gmem gheap s']. destruct (gmem s) as [c|] eqn:Eg; [|split; reflexivity].
    destruct (Hsame 0%nat (gm_addr c) (Hi0 c eq_refl) (proj1 (nth_error_roots_memo s c Eg))) as [-> ->]. split; reflexivity.
Qed.

Section WithLegacy.
Variable legacy : vclass -> header -> rargs -> prog body.

Lemma ginv_append s t a h' : GInv s -> (depth t <= 5)%nat -> alloc_tree t (gheap s) = (a, h') ->
  GInv {| gheap := h'; gmem := gmem s; ghanded := ghanded s ++ [a] |}.
Proof.
  intros [Ts [Ss [HL [ND [HD HM]]]]] Hd Hal.
  destruct (ownsL_alloc _ _ _ _ _ _ _ HL ND Hal) as [S [HL' [HO [_ [_ [N1 _]]]]]].
  exists (Ts ++ [t]), (Ss ++ [S]). unfold roots in *. cbn [gheap ghanded]. change (memo_root _) with (memo_root s). rewrite app_assoc.
  split; [apply ownsL_app; [exact HL'|constructor; [exact HO|constructor]]|]. split; [exact N1|].
  split; [apply Forall_app; split; [exact HD|constructor; [exact Hd|constructor]]|].
  apply (memoG_ext s _ Ts); [exact HM|reflexivity|]. intros c t0 _ Ht. rewrite nth_error_app1; [exact Ht|].
  apply nth_error_Some. rewrite Ht. discriminate.
Qed.

(* a memo hit hands out a copy of the memo's header tree with the body just decoded *)
Lemma hit_g_ok s p : GInv s ->
  match gmem s with
  | Some gc => exists hd ap h1, memo_view_g s = Some {| m_start := gm_start gc; m_end := gm_end gc; m_slice := gm_slice gc; m_header := hd |} /\
                 alloc_tree (pose_tree {| p_header := hd; p_body := p_body p |}) (gheap s) = (ap, h1) /\
                 hit_g s (Ok p) = (Ok ap, {| gheap := h1; gmem := gmem s; ghanded := ghanded s ++ [ap] |})
  | None => hit_g s (Ok p) = (Err Value, s)
  end.
Proof.
  intros HI. unfold hit_g. destruct (gmem s) as [gc|] eqn:Eg; [|reflexivity].
  destruct (ginv_memo s gc HI Eg) as [hd [Hr _]]. rewrite Hr.
  change (VNode [] [header_tree hd; body_tree (p_body p)]) with (pose_tree {| p_header := hd; p_body := p_body p |}).
  destruct (alloc_tree _ (gheap s)) as [ap h1] eqn:Hal. exists hd, ap, h1. split; [exact (memo_view_g_eq s gc hd Eg Hr)|]. split; [exact Hal|reflexivity].
Qed.
Lemma ginv_hit s res : GInv s -> GInv (snd (hit_g s res)).
Proof.
  intros HI. destruct res as [p|e]; [|exact HI]. pose proof (hit_g_ok s p HI) as H.
  destruct (gmem s) as [gc|] eqn:Eg; [|rewrite H; exact HI]. destruct H as [hd [ap [h1 [_ [Hal ->]]]]].
  rewrite <- Eg. exact (ginv_append s _ ap h1 HI (depth_pose_tree _) Hal).
Qed.
Lemma hit_value s res c : GInv s -> memo_view_g s = Some c -> (forall p, res = Ok p -> p_header p = m_header c) ->
  handed_out s res (hit_g s res).
Proof.
  intros HI Hmv Hph. destruct res as [p|e]; [|split; reflexivity]. specialize (Hph p eq_refl). pose proof (hit_g_ok s p HI) as H.
  destruct (gmem s) as [gc|] eqn:Eg; [|unfold memo_view_g in Hmv; rewrite Eg in Hmv; discriminate].
  destruct H as [hd [ap [h1 [Hv [Hal ->]]]]]. exists ap. split; [reflexivity|]. split; [reflexivity|]. cbn [snd].
  rewrite (pose_at_alloc _ _ ap h1 _ _ Hal (depth_pose_tree _)), pose_of_pose_tree.
  rewrite Hv in Hmv. injection Hmv as <-. cbn [m_header] in Hph. rewrite <- Hph. destruct p; reflexivity.
Qed.
Lemma hit_g_extends s res : extends s (snd (hit_g s res)).
Proof.
  unfold hit_g. destruct res as [p|e]; [|apply extends_refl]. destruct (gmem s) as [gc|]; [|apply extends_refl].
  destruct (read_tree FUEL (gheap s) (gm_addr gc)) as [tm|]; [|apply extends_refl].
  destruct (alloc_tree _ (gheap s)) as [ap h1] eqn:Hal. exact (extends_alloc s _ ap h1 _ [ap] Hal).
Qed.

(* a miss stores a copy of the parsed header as the memo's own objects - the old memo's objects are dropped from the roots - and
   hands out the parsed pose *)
Lemma ginv_miss s h e slice res : GInv s ->
  MemoOK (Some {| m_start := 0; m_end := e; m_slice := slice; m_header := h |}) -> GInv (snd (miss_g s h e slice res)).
Proof.
  intros [Ts0 [Ss0 [HL0 [ND0 [HD0 _]]]]] Hmemo. unfold miss_g.
  destruct (alloc_tree (header_tree h) (gheap s)) as [am h1] eqn:Hal1.
  unfold roots in HL0. destruct (ownsL_app_inv _ _ _ _ _ HL0) as [T1 [Ts [S1 [Ss [-> [-> [_ HL]]]]]]].
  rewrite concat_app in ND0. apply NoDup_app_r in ND0. apply Forall_app in HD0. destruct HD0 as [_ HD].
  destruct (ownsL_alloc _ _ _ _ _ _ _ HL ND0 Hal1) as [Sm [HL1 [HOm [_ [_ [_ N2]]]]]].
  set (gm := {| gm_start := 0; gm_end := e; gm_slice := slice; gm_addr := am |}).
  assert (HI1 : GInv {| gheap := h1; gmem := Some gm; ghanded := ghanded s |}).
  { exists (header_tree h :: Ts), (Sm :: Ss). unfold roots, memo_root, MemoG. cbn [gheap gmem ghanded gm_addr gm app].
    split; [constructor; assumption|]. split; [exact N2|].
    split; [constructor; [pose proof (depth_header_tree h); lia|exact HD]|]. exists h. split; [reflexivity|exact Hmemo]. }
  destruct res as [p|er]; [|exact HI1].
  destruct (alloc_tree (pose_tree p) h1) as [ap h2] eqn:Hal2.
  exact (ginv_append _ _ ap h2 HI1 (depth_pose_tree p) Hal2).
Qed.
Lemma miss_value s h e slice res : handed_out s res (miss_g s h e slice res).
Proof.
  unfold miss_g. destruct (alloc_tree (header_tree h) (gheap s)) as [am h1]. destruct res as [p|er]; [|split; reflexivity].
  destruct (alloc_tree (pose_tree p) h1) as [ap h2] eqn:Hal2. exists ap. split; [reflexivity|]. split; [reflexivity|]. cbn [snd].
  rewrite (pose_at_alloc _ _ ap h2 _ _ Hal2 (depth_pose_tree p)). apply pose_of_pose_tree.
Qed.
Lemma miss_g_extends s h e slice res : extends s (snd (miss_g s h e slice res)).
Proof.
  unfold miss_g. destruct (alloc_tree (header_tree h) (gheap s)) as [am h1] eqn:Hal1.
  set (gm := Some {| gm_start := 0; gm_end := e; gm_slice := slice; gm_addr := am |}).
  pose proof (extends_alloc s _ am h1 gm [] Hal1) as H1. rewrite app_nil_r in H1. destruct res as [p|er]; [|exact H1].
  destruct (alloc_tree (pose_tree p) h1) as [ap h2] eqn:Hal2.
  exact (extends_trans _ _ _ H1 (extends_alloc {| gheap := h1; gmem := gm; ghanded := ghanded s |} _ ap h2 gm [ap] Hal2)).
Qed.

(* the three ways a read that decodes res ends: it raises before anything is allocated, a memo hit, a miss *)
Inductive ending (s : gstate) (res : result pose) : result nat * gstate -> Prop :=
| end_raise e : res = Err e -> ending s res (Err e, s)
| end_hit c : memo_view_g s = Some c -> (forall p, res = Ok p -> p_header p = m_header c) -> ending s res (hit_g s res)
| end_miss h e slice : MemoOK (Some {| m_start := 0; m_end := e; m_slice := slice; m_header := h |}) ->
    ending s res (miss_g s h e slice res).
Lemma ending_ginv s res r : GInv s -> ending s res r -> GInv (snd r).
Proof. intros HI [e _|c _ _|h e slice Hok]; [exact HI|apply ginv_hit; exact HI|apply ginv_miss; assumption]. Qed.
Lemma ending_extends s res r : ending s res r -> extends s (snd r).
Proof. intros [e _|c _ _|h e slice _]; [apply extends_refl|apply hit_g_extends|apply miss_g_extends]. Qed.
Lemma ending_value s res r : GInv s -> ending s res r -> handed_out s res r.
Proof. intros HI [e ->|c Hc Hp|h e slice _]; [split; reflexivity|exact (hit_value s res c HI Hc Hp)|apply miss_value]. Qed.

(* read_g written with the endings hit_g and miss_g, as read_gs is *)
Lemma read_g_eq s buffer a :
  read_g legacy s buffer a =
  match check_cache (memo_view_g s) buffer with
  | Some _ => hit_g s (fst (read_bytes legacy (memo_view_g s) buffer a))
  | None => match run_plain rd_header {| pbuf := buffer; poff := 0 |} with
            | Err e => (Err e, s)
            | Ok (h, r) => miss_g s h (poff r) (py_slice 0 (poff r) buffer) (fst (read_bytes legacy (memo_view_g s) buffer a))
            end
  end.
Proof. reflexivity. Qed.
Lemma read_g_ending s buffer a : GInv s ->
  ending s (fst (read_bytes legacy (memo_view_g s) buffer a)) (read_g legacy s buffer a).
Proof.
  intros HI. pose proof (memo_view_g_ok s HI) as Hm. rewrite read_g_eq.
  destruct (check_cache (memo_view_g s) buffer) as [c|] eqn:Hc.
  - apply (end_hit s _ c (proj1 (check_cache_hit _ _ _ Hm Hc))). intros p Hrb.
    unfold read_bytes in Hrb. rewrite Hc in Hrb. cbn [fst] in Hrb.
    destruct (run_plain (read_body legacy (m_header c) a) _) as [[b rr]|e]; cbn in Hrb; [|discriminate].
    injection Hrb as <-. reflexivity.
  - pose proof (read_bytes_memo_ok legacy (memo_view_g s) buffer a Hm) as Hok. unfold read_bytes in Hok. rewrite Hc in Hok.
    destruct (run_plain rd_header {| pbuf := buffer; poff := 0 |}) as [[h r]|e] eqn:Hr; [exact (end_miss s _ _ _ _ Hok)|].
    apply end_raise. unfold read_bytes. rewrite Hc, Hr. reflexivity.
Qed.

(* the branch structure of PoseRead.read_stream, as read_gs follows it *)
Lemma read_stream_shape m file a : any_arg a = true ->
  match expect file (prefetch_len m) {| buf := []; off := 0; skipped := 0; pulled := 0 |} with
  | Err e => fst (fst (read_stream legacy m file a)) = Err e
  | Ok r1 =>
      match check_cache m (buf r1) with
      | Some c => forall p, fst (fst (read_stream legacy m file a)) = Ok p -> p_header p = m_header c
      | None => match run_stream file rd_header r1 with
                | Err e => fst (fst (read_stream legacy m file a)) = Err e
                | Ok _ => True
                end
      end
  end.
Proof.
  intros Ha. unfold read_stream. rewrite Ha. cbn [negb].
  destruct (expect file _ _) as [r1|e]; [|reflexivity].
  destruct (check_cache m (buf r1)) as [c|].
  - intros p. destruct (run_stream file (read_body legacy (m_header c) a) _) as [[b r3]|e]; cbn [fst]; [|discriminate].
    intros [= <-]. reflexivity.
  - destruct (run_stream file rd_header r1) as [[h r2]|e]; [exact I|reflexivity].
Qed.
Lemma read_gs_ending s file a : GInv s -> any_arg a = true ->
  ending s (fst (fst (read_stream legacy (memo_view_g s) file a))) (read_gs legacy s file a).
Proof.
  intros HI Ha. pose proof (read_stream_shape (memo_view_g s) file a Ha) as Hsh. unfold read_gs. rewrite Ha. cbn [negb].
  destruct (expect file _ _) as [r1|e] eqn:Hex; [|exact (end_raise s _ e Hsh)].
  destruct (check_cache (memo_view_g s) (buf r1)) as [c|] eqn:Hc.
  - exact (end_hit s _ c (proj1 (check_cache_hit _ _ _ (memo_view_g_ok s HI) Hc)) Hsh).
  - destruct (run_stream file rd_header r1) as [[h r2]|e] eqn:Hrs; [|exact (end_raise s _ e Hsh)].
    apply end_miss. exact (proj2 (proj2 (stream_header_bwd legacy file (memo_view_g s) r1 h r2 Hex Hrs))).
Qed.
(* without a window the stream is read into bytes *)
Lemma read_gs_ends s file a : GInv s -> exists res, ending s res (read_gs legacy s file a).
Proof.
  intros HI. destruct (any_arg a) eqn:Ha; [exact (ex_intro _ _ (read_gs_ending s file a HI Ha))|].
  unfold read_gs. rewrite Ha. exact (ex_intro _ _ (read_g_ending s file a HI)).
Qed.

Definition edited (o : gop) : option nat :=
  match o with GEdit k _ _ | GAssign k _ _ _ | GPop k _ => Some k | _ => None end.
Lemma edit_step s o k : GInv s -> edited o = Some k -> GInv (fst (step_g legacy s o)) /\ local_to k s (fst (step_g legacy s o)).
Proof.
  intros HI Ho.
  destruct o as [buffer a|k' path g|k'|k' path i w|k' path|file a]; try discriminate; injection Ho as ->; cbn [step_g];
    (destruct (nth_error (ghanded s) k) as [root|] eqn:Ek; [|exact (conj HI (local_to_refl k s))]);
    (destruct (addr_at (gheap s) root path) as [x|] eqn:Ep; [|exact (conj HI (local_to_refl k s))]); cbn [fst].
  - apply (ginv_edit s k root path x _ (pay g) HI Ek Ep).
    + intros y _ Hne. apply nth_error_upd_other. intros E. exact (Hne (eq_sym E)).
    + intros t S HO ND. exists S. split; [exact (owns_edit _ g x path root t S HO ND Ep)|]. split; [exact ND|]. intros y Hy. left. exact Hy.
    + intros [p kids]. apply Nat.le_refl.
  - destruct (ginv_cell s k root path x HI Ek Ep) as [p0 [ptrs0 Ex]].
    destruct (owns_assign_child (gheap s) x i (leaf w) p0 ptrs0 Ex) as [_ [Hag Hed]].
    apply (ginv_edit s k root path x _ _ HI Ek Ep Hag (fun t S HO ND => Hed path root t S HO ND Ep)).
    apply depth_node_edit_le. intros kids. apply maxd_upd_leaf.
  - destruct (ginv_cell s k root path x HI Ek Ep) as [p0 [ptrs0 Ex]].
    destruct (owns_pop_child (gheap s) x p0 ptrs0 Ex) as [_ [Hag Hed]].
    apply (ginv_edit s k root path x _ _ HI Ek Ep Hag (fun t S HO ND => Hed path root t S HO ND Ep)).
    apply depth_node_edit_le. exact maxd_removelast.
Qed.

Lemma ginv_step s o : GInv s -> GInv (fst (step_g legacy s o)).
Proof.
  intros HI. destruct o as [buffer a|k path g|k|k path i w|k path|file a].
  2: exact (proj1 (edit_step s (GEdit k path g) k HI eq_refl)).
  3: exact (proj1 (edit_step s (GAssign k path i w) k HI eq_refl)).
  3: exact (proj1 (edit_step s (GPop k path) k HI eq_refl)).
  all: cbn [step_g].
  - pose proof (ending_ginv s _ _ HI (read_g_ending s buffer a HI)) as H. destruct (read_g legacy s buffer a). exact H.
  - destruct (nth_error (ghanded s) k) as [root|] eqn:Ek; [|exact HI].
    destruct (ginv_pose s HI k root Ek) as [t [S [HO [_ Hd]]]]. rewrite (proj1 (read_enough _ _ _ _ HO Hd)).
    destruct (alloc_tree (copy_tree t) (gheap s)) as [ap h1] eqn:Hal.
    apply (ginv_append s (copy_tree t) ap h1 HI); [rewrite depth_copy_tree; exact Hd|exact Hal].
  - destruct (read_gs_ends s file a HI) as [res H]. apply (ending_ginv s _ _ HI) in H. destruct (read_gs legacy s file a). exact H.
Qed.
Lemma ginv_run ops : forall s, GInv s -> GInv (run_g legacy s ops).
Proof. induction ops as [|o ops IH]; intros s HI; [exact HI|]. cbn [run_g]. apply IH. now apply ginv_step. Qed.

Theorem no_sharing_g s : GInv s ->
  (forall i j x, i <> j -> In x (cells_of s i) -> ~ In x (cells_of s j)) /\
  (forall j x, In x (memo_cells s) -> ~ In x (cells_of s j)).
Proof.
  intros [Ts [Ss [HL [ND [HD _]]]]]. pose proof (fun i r Hi => proj2 (roots_read _ _ _ _ HL HD i r Hi)) as Hc. split.
  - intros i j x Hne Hi Hj. unfold cells_of in Hi, Hj.
    destruct (nth_error (ghanded s) i) as [ri|] eqn:Ei; [|contradiction].
    destruct (nth_error (ghanded s) j) as [rj|] eqn:Ej; [|contradiction]. rewrite <- nth_error_roots in Ei, Ej.
    exact (concat_disjoint Ss ND _ _ _ _ x (Hc _ _ Ei) (Hc _ _ Ej) ltac:(lia) Hi Hj).
  - intros j x Hm Hj. unfold memo_cells in Hm. unfold cells_of in Hj.
    destruct (gmem s) as [c|] eqn:Eg; [|contradiction].
    destruct (nth_error (ghanded s) j) as [rj|] eqn:Ej; [|contradiction]. rewrite <- nth_error_roots in Ej.
    destruct (nth_error_roots_memo s c Eg) as [E0 Hlen].
    exact (concat_disjoint Ss ND _ _ _ _ x (Hc _ _ E0) (Hc _ _ Ej) ltac:(lia) Hm Hj).
Qed.

(* the value a read returns does not depend on the memo (PoseReadLemmas.read_bytes_memo_neutral), so neither on the heap *)
Theorem read_g_value s buffer a : GInv s -> handed_out s (fst (read_bytes legacy None buffer a)) (read_g legacy s buffer a).
Proof.
  intros HI. rewrite <- (read_bytes_memo_neutral legacy _ buffer a (memo_view_g_ok s HI)).
  exact (ending_value s _ _ HI (read_g_ending s buffer a HI)).
Qed.
Theorem read_g_keeps_others s buffer a : GInv s -> forall j, (j < length (ghanded s))%nat ->
  pose_at (snd (read_g legacy s buffer a)) j = pose_at s j /\ cells_of (snd (read_g legacy s buffer a)) j = cells_of s j.
Proof. intros HI. exact (extends_keeps s _ HI (ending_extends s _ _ (read_g_ending s buffer a HI))). Qed.

Theorem read_gs_value s file a : GInv s -> any_arg a = true -> (forall h, v2prog (read_body legacy h a)) ->
  let r := read_gs legacy s file a in
  match fst (fst (read_stream legacy None file a)) with
  | Ok p => exists ap, fst r = Ok ap /\ ghanded (snd r) = ghanded s ++ [ap] /\ pose_at (snd r) (length (ghanded s)) = Some p
  | Err _ => (exists e, fst r = Err e) /\ ghanded (snd r) = ghanded s
  end.
Proof.
  intros HI Ha Hv r. subst r. pose proof (ending_value s _ _ HI (read_gs_ending s file a HI Ha)) as H.
  pose proof (read_stream_memo_independent legacy (memo_view_g s) file a (memo_view_g_ok s HI) Ha Hv) as Hso.
  destruct (fst (fst (read_stream legacy (memo_view_g s) file a))) as [p|e], (fst (fst (read_stream legacy None file a))) as [p0|e0];
    try contradiction.
  - cbn in Hso. subst p0. exact H.
  - destruct H as [H1 H2]. split; [exists e; exact H1|exact H2].
Qed.
Theorem read_gs_keeps_others s file a : GInv s -> forall j, (j < length (ghanded s))%nat ->
  pose_at (snd (read_gs legacy s file a)) j = pose_at s j /\ cells_of (snd (read_gs legacy s file a)) j = cells_of s j.
Proof. intros HI. destruct (read_gs_ends s file a HI) as [res H]. exact (extends_keeps s _ HI (ending_extends s _ _ H)). Qed.

Theorem edit_is_local s k path g : GInv s ->
  let s' := fst (step_g legacy s (GEdit k path g)) in
  (forall j, j <> k -> pose_at s' j = pose_at s j /\ cells_of s' j = cells_of s j) /\
  memo_view_g s' = memo_view_g s /\ memo_cells s' = memo_cells s /\ cells_of s' k = cells_of s k.
Proof.
  intros HI s'. destruct (proj2 (edit_step s (GEdit k path g) k HI eq_refl)) as [H1 [H2 H3]].
  split; [exact H1|]. split; [exact H2|]. split; [exact H3|]. subst s'. cbn [step_g].
  destruct (nth_error (ghanded s) k) as [root|] eqn:Ek; [|reflexivity].
  destruct (addr_at (gheap s) root path) as [x|] eqn:Ep; [|reflexivity]. cbn [fst].
  destruct (ginv_pose s HI k root Ek) as [t [S [HO [ND Hd]]]].
  rewrite (proj2 (view_of_owns s k root t S Ek HO Hd)).
  apply (view_of_owns {| gheap := set_pay x g (gheap s); gmem := gmem s; ghanded := ghanded s |} k root _ S Ek
           (owns_edit _ g x path root t S HO ND Ep)).
  pose proof (depth_tmap_at g path t). lia.
Qed.

Theorem copy_is_equal s k root : GInv s -> nth_error (ghanded s) k = Some root ->
  let s' := fst (step_g legacy s (GCopy k)) in
  ghanded s' = ghanded s ++ [length (gheap s') - 1]%nat /\ pose_at s' (length (ghanded s)) = option_map copy_pose (pose_at s k) /\
  (forall j, (j < length (ghanded s))%nat -> pose_at s' j = pose_at s j /\ cells_of s' j = cells_of s j).
Proof.
  intros HI Ek s'. subst s'. cbn [step_g]. rewrite Ek.
  destruct (ginv_pose s HI k root Ek) as [t [S [HO [_ Hd]]]]. rewrite (proj1 (read_enough _ _ _ _ HO Hd)).
  destruct (alloc_tree (copy_tree t) (gheap s)) as [ap h1] eqn:Hal. cbn [fst ghanded gheap].
  split; [rewrite (alloc_tree_root _ _ _ _ Hal); reflexivity|]. split.
  - rewrite (pose_at_alloc _ _ ap h1 _ _ Hal) by (rewrite depth_copy_tree; exact Hd).
    rewrite (proj1 (view_of_owns s k root t S Ek HO Hd)). apply pose_of_copy_tree.
  - exact (extends_keeps s _ HI (extends_alloc s _ ap h1 _ [ap] Hal)).
Qed.

Theorem structural_edit_is_local s o : GInv s ->
  match o with GAssign _ _ _ _ | GPop _ _ => True | _ => False end ->
  let k := match o with GAssign k _ _ _ | GPop k _ => k | _ => 0%nat end in
  let s' := fst (step_g legacy s o) in
  (forall j, j <> k -> pose_at s' j = pose_at s j /\ cells_of s' j = cells_of s j) /\
  memo_view_g s' = memo_view_g s /\ memo_cells s' = memo_cells s.
Proof.
  intros HI Ho. destruct o as [b a|k path g|k|k path i w|k path|f a]; try contradiction.
  - exact (proj2 (edit_step s (GAssign k path i w) k HI eq_refl)).
  - exact (proj2 (edit_step s (GPop k path) k HI eq_refl)).
Qed.
End WithLegacy.

(* non-vacuity: a read, an in-place edit of the result's dimensions, a copy of the edited pose, a second read of the same bytes *)
Require Import C01_Examples.
Definition ex_file : bytes := match write_pose ex_pose with Ok b => b | Err _ => [] end.
Definition ex_ghistory : list gop :=
  [GRead ex_file no_args; GEdit 0 [0; 0]%nat (fun _ => [1; 2; 3]); GCopy 0; GRead ex_file no_args].
Definition ex_ghistory2 : list gop :=
  [GRead ex_file no_args; GAssign 0 [0]%nat 0 [9; 9; 9]; GPop 0 [0; 1]%nat; GCopy 0; GRead ex_file no_args].

(* stream reads in a history: a windowed stream read, an in-place edit of its header, the same stream read again, a bytes read *)
Definition ex_win : rargs := {| a_sf := Some 0%Z; a_st := None; a_ef := Some 1%Z; a_et := None |}.
Definition ex_ghistory3 : list gop :=
  [GReadS ex_file ex_win; GEdit 0 [0; 0]%nat (fun _ => [1; 2; 3]); GReadS ex_file ex_win; GRead ex_file no_args].

(* the cells are few: duplicates are looked for by evaluation *)
Lemma NoDup_nodup_eq (l : list nat) : nodup Nat.eq_dec l = l -> NoDup l.
Proof. intros <-. apply NoDup_nodup. Qed.
