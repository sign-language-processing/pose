(* C07, stream clause: a windowed stream read of a proper prefix of a written file either raises or returns
   exactly what the intact file returns for that window. *)
From Coq Require Import ZArith NArith List.
Require Import ListN Result Bytes Prog Codec CodecRT PoseRead PoseReadLemmas StreamLemmas WindowLemmas StreamRead C03_Window.
Import ListNotations.
Open Scope N_scope.

Section WithLegacy.
Variable legacy : vclass -> header -> rargs -> prog body.

Theorem read_stream_prefix m p bs q s a ws we :
  MemoOK m -> write_pose p = Ok bs -> wf_arrays p -> 1 <= nth 3 (w_shape p) 0 ->
  bs = q ++ s -> any_arg a = true ->
  conflict (a_sf a) (a_st a) = false -> conflict (a_ef a) (a_et a) = false ->
  resolve_start (fps_word p) (a_sf a) (a_st a) = Ok ws -> resolve_end (fps_word p) (a_ef a) (a_et a) = Ok we ->
  valid_window p ws we ->
  match fst (fst (read_stream legacy m q a)) with
  | Ok pose => pose = window_pose p ws we
  | Err _ => True
  end.
Proof.
  intros Hm H Hwf HD Hq Ha Hc1 Hc2 Hrs Hre [Hv1 Hv2].
  destruct (write_pose_ok _ _ H) as [F [P [T [D [h [b [Hs [Hcs [Hnd [Htp [Hh [Hb Hbs]]]]]]]]]]]].
  unfold frames_of in *. rewrite Hs in HD, Hv1, Hv2. cbn [nth] in HD, Hv1, Hv2.
  pose proof (header_of_written p bs h b Hh Hbs) as Hhead.
  pose proof (read_body_window_rt p b F P T D _ _ _ _ ws we Hs Hcs Hwf Hnd Htp HD Hb Hc1 Hc2 Hrs Hre Hv1 Hv2 h []) as Hbody.
  rewrite app_nil_r, <- Hbs in Hbody.
  assert (Hwp : window_pose p ws we =
                {| p_header := canon_header p;
                   p_body := window_body (canon_body p) (start0 ws) (end0 we (Z.of_N F)) |})
    by (unfold window_pose, frames_of; rewrite Hs; reflexivity).
  rewrite (read_stream_start legacy m q a Ha). unfold read_from_start.
  destruct (stream_start m q) as [[[h' sr] m']|e] eqn:Hst; [|exact I].
  rewrite Hq in Hhead, Hbody. destruct (stream_start_prefix m q s _ _ _ _ _ Hm Hhead Hst) as [-> HS].
  rewrite (read_body_dispatch legacy p a).
  pose proof (sim_fwd q s _ (v2prog_read_v0_2 _ _ _ _ _) _ _ _ _ HS Hbody) as Hsim.
  destruct (run_stream q (read_v0_2 _ _ _ _ _) sr) as [[b' sr']|e]; [|exact I].
  destruct Hsim as [<- _]. cbn [fst]. symmetry. exact Hwp.
Qed.
End WithLegacy.
