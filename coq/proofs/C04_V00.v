(* v0.0: a reference-encoded file decodes to the first person of every frame (zeros, all missing, for a frame
   without people), from bytes and from a stream: every frame, or the frames of the requested window (frame bounds,
   time bounds, or one of each); a start at or beyond the last frame and a frame and a time bound for the same end
   are refused. *)
From Coq Require Import ZArith NArith List Lia ZifyBool ZifyN ZifyNat Bool.
Require Import ListN Result Bytes Utf8 Utf8S F32 Prog Codec ProgLemmas CodecRT PoseRead PoseReadLemmas StreamLemmas
  WindowLemmas StreamRead C04_Legacy C04_Spec C04_Stream C04_Handoff C04_SpecRT C04_V01.
Import ListNotations.
Open Scope N_scope.

Definition wf_point (L : N) (p : point00) : Prop := lenN (fst p) + 1 = L /\ Forall w32ok (fst p) /\ w32ok (snd p).
Definition wf_person (h : header) (L : N) (p : person00) : Prop :=
  Forall2 (fun comp pts => lenN pts = lenN (c_points comp) /\ Forall (wf_point L) pts) (h_comps h) (ps_comps p).
Definition wf00 (c : content00) : Prop :=
  let h := k0_header c in
  wf_header h /\ version_class (h_version h) = V00 /\ u16 (k0_fps c) /\ u16 (lenN (k0_frames c)) /\
  h_comps h <> [] /\ 2 <= spec_floats_per_point h /\
  Forall (fun comp => lenN (c_format comp) = spec_floats_per_point h) (h_comps h) /\
  Forall (fun people => u16 (lenN people) /\ Forall (wf_person h (spec_floats_per_point h)) people) (k0_frames c).

Definition row (p : point00) : list N := fst p ++ [snd p].
Lemma spec_point_row p : spec_point p = flat_map enc_u32 (row p).
Proof. unfold spec_point, row. rewrite flat_map_app, flat_map_enc. cbn [flat_map]. now rewrite app_nil_r. Qed.
Lemma spec_points_rows pts : concat (map spec_point pts) = flat_map enc_u32 (flat_map row pts).
Proof. induction pts as [|p pts IH]; [reflexivity|]. cbn [map concat flat_map]. now rewrite flat_map_app, IH, spec_point_row. Qed.
Lemma rows_flat (L : nat) pts : Forall (fun p => length (row p) = L) pts ->
  rows (length pts) L (flat_map row pts) = map row pts.
Proof.
  induction 1 as [|p pts Hp _ IH]; [reflexivity|]. cbn [length rows flat_map map].
  rewrite <- Hp at 1. rewrite firstn_app, Nat.sub_diag, firstn_all. cbn [firstn]. rewrite app_nil_r. f_equal.
  replace (skipn L (row p ++ flat_map row pts)) with (flat_map row pts); [exact IH|].
  rewrite <- Hp, skipn_app, Nat.sub_diag, skipn_all. reflexivity.
Qed.
Lemma length_flat_rows (L : nat) pts : Forall (fun p => length (row p) = L) pts -> length (flat_map row pts) = (length pts * L)%nat.
Proof. induction 1 as [|p pts Hp _ IH]; [reflexivity|]. cbn [flat_map length]. rewrite app_length, IH, Hp. lia. Qed.
Lemma map_flat_map {X Y Z} (f : Y -> Z) (g : X -> list Y) l : map f (flat_map g l) = flat_map (fun x => map f (g x)) l.
Proof. induction l as [|x l IH]; [reflexivity|]. cbn [flat_map]. now rewrite map_app, IH. Qed.

Definition comp_result (L : N) (pts : list point00) : N * frame00 :=
  (L, (flat_map fst pts, map snd pts, map is_zero32 (map snd pts))).

Lemma comp00_rt comp pts L : lenN (c_format comp) = L -> 2 <= L -> lenN pts = lenN (c_points comp) ->
  Forall (wf_point L) pts ->
  RTp (rd_comp00 comp) (concat (map spec_point pts)) (comp_result L pts).
Proof.
  intros HL HL2 Hn Hw. unfold rd_comp00. rewrite HL, <- Hn.
  assert (Hrow : Forall (fun p => length (row p) = N.to_nat L) pts).
  { eapply Forall_impl; [|exact Hw]. intros p [Hl _]. unfold row. rewrite app_length. cbn [length]. unfold lenN in Hl. lia. }
  assert (Hlt : Forall (fun n => n < 4294967296) (flat_map row pts)).
  { clear - Hw. induction Hw as [|p pts [_ [H1 H2]] _ IH]; [constructor|]. cbn [flat_map]. apply Forall_app. split; [|exact IH].
    unfold row. apply Forall_app. split; [exact H1|]. constructor; [exact H2|constructor]. }
  pose proof (length_flat_rows _ _ Hrow) as Hlen.
  rewrite spec_points_rows. rewrite <- (app_nil_r (flat_map enc_u32 (flat_map row pts))).
  apply RTp_block.
  { rewrite lenN_flat_enc_u32. unfold lenN. rewrite Hlen. lia. }
  destruct (N.ltb_spec L 2) as [|_]; [lia|].
  replace (N.to_nat (lenN pts * L)) with (length (flat_map row pts)) by (rewrite Hlen; unfold lenN; lia).
  rewrite <- (app_nil_r (flat_map enc_u32 (flat_map row pts))), words32_enc by exact Hlt.
  rewrite to_nat_lenN, rows_flat by exact Hrow.
  replace (flat_map (@removelast N) (map row pts)) with (flat_map fst pts).
  2:{ rewrite flat_map_map. apply flat_map_ext. intros p. unfold row. now rewrite removelast_last. }
  replace (map (fun r => last r 0) (map row pts)) with (map snd pts).
  2:{ rewrite map_map. apply map_ext. intros p. unfold row. now rewrite last_last. }
  apply RTp_ret.
Qed.

Lemma comps00_rt L comps pcs :
  Forall2 (fun comp pts => lenN (c_format comp) = L /\ lenN pts = lenN (c_points comp) /\ Forall (wf_point L) pts) comps pcs ->
  2 <= L ->
  RTp (pmapM rd_comp00 comps) (concat (map (fun pts => concat (map spec_point pts)) pcs)) (map (comp_result L) pcs).
Proof.
  intros H HL2. induction H as [|comp pts comps pcs [H1 [H2 H3]] _ IH]; cbn [pmapM map concat]; [apply RTp_ret|].
  apply RTp_bind with (a := comp_result L pts); [now apply comp00_rt|].
  rewrite <- (app_nil_r (concat _)). apply RTp_bind with (a := map (comp_result L) pcs); [exact IH|apply RTp_ret].
Qed.

Lemma all_eq_const {X} (L : N) (l : list X) : all_eq (map (fun _ => L) l) = true.
Proof. induction l as [|x [|y l] IH]; [reflexivity|reflexivity|]. cbn [map all_eq] in *. now rewrite N.eqb_refl, IH. Qed.

Definition person_frame (p : person00) : frame00 := (person_data p, person_conf p, map is_zero32 (person_conf p)).

Lemma person00_rt h L p (first : bool) :
  Forall (fun comp => lenN (c_format comp) = L) (h_comps h) -> 2 <= L -> wf_person h L p ->
  RTp (rd_person00 (h_comps h) first) (spec_person p) (if first then person_frame p else ([], [], [])).
Proof.
  intros HL HL2 Hw. unfold rd_person00, spec_person.
  apply RTp_adv; [reflexivity|].
  rewrite <- (app_nil_r (concat _)).
  apply RTp_bind with (a := map (comp_result L) (ps_comps p)).
  { apply comps00_rt; [|exact HL2]. unfold wf_person in Hw. clear - HL Hw.
    induction Hw as [|comp pts comps pcs [H1 H2] _ IH]; [constructor|].
    inversion HL; subst. constructor; [auto|]. now apply IH. }
  destruct first; [|apply RTp_ret].
  rewrite map_map. cbn [fst comp_result]. rewrite all_eq_const.
  unfold person_frame, person_data, person_conf. rewrite !flat_map_map. cbn [fst snd comp_result].
  rewrite map_flat_map. apply RTp_ret.
Qed.

Definition frame_mask (T : N) (people : list person00) : list bool :=
  match people with [] => repeat false (N.to_nat T) | p :: _ => map is_zero32 (person_conf p) end.
Definition frame_result (T D : N) (people : list person00) : frame00 :=
  (frame_data T D people, frame_conf T people, frame_mask T people).

Lemma frame00_rt h L T D people :
  Forall (fun comp => lenN (c_format comp) = L) (h_comps h) -> 2 <= L ->
  u16 (lenN people) -> Forall (wf_person h L) people ->
  RTp (rd_frame00 (h_comps h) T (Z.of_N D)) (spec_frame00 people) (frame_result T D people).
Proof.
  intros HL HL2 Hn Hw. unfold rd_frame00, spec_frame00.
  apply RTp_bind with (a := lenN people); [now apply rd_u16_rt|].
  rewrite to_nat_lenN. destruct people as [|p rest]; cbn [length map concat].
  - unfold zeros_frame. destruct (Z.ltb_spec (Z.of_N D) 0) as [|_]; [lia|]. rewrite N2Z.id. apply RTp_ret.
  - inversion Hw as [|? ? Hp Hrest]; subst.
    apply RTp_bind with (a := person_frame p); [exact (person00_rt h L p true HL HL2 Hp)|].
    rewrite <- (app_nil_r (concat _)).
    apply RTp_bind with (a := map (fun _ : person00 => (@nil N, @nil N, @nil bool)) rest); [|apply RTp_ret].
    rewrite <- (map_length (fun _ : person00 => (@nil N, @nil N, @nil bool)) rest). apply RTp_prep.
    clear - HL HL2 Hrest. induction Hrest as [|q rest Hq _ IH]; cbn [map]; constructor; [|exact IH].
    exact (person00_rt h L q false HL HL2 Hq).
Qed.

Definition mask_or (mc : bool * N) : bool := orb (fst mc) (is_zero32 (snd mc)).
(* a mask that hides only points of confidence zero adds nothing to the constructor's rule *)
Lemma mask_or_conf ms cs : Forall2 (fun (m : bool) c => m = true -> is_zero32 c = true) ms cs ->
  map mask_or (combine ms cs) = map is_zero32 cs.
Proof.
  induction 1 as [|m c ms cs H _ IH]; [reflexivity|]. cbn [combine map]. rewrite IH. f_equal.
  unfold mask_or. cbn [fst snd]. destruct m; [now rewrite H|reflexivity].
Qed.
Lemma frames_mask_ok T (frames : list (list person00)) :
  map mask_or (combine (flat_map (frame_mask T) frames) (flat_map (frame_conf T) frames)) =
  map is_zero32 (flat_map (frame_conf T) frames).
Proof.
  apply mask_or_conf. induction frames as [|[|p rest] frames IH]; [constructor| |];
    cbn [flat_map frame_mask frame_conf]; (apply Forall2_app; [|exact IH]).
  - induction (N.to_nat T); cbn [repeat]; constructor; [discriminate|assumption].
  - induction (person_conf p); cbn [map]; constructor; auto.
Qed.

Lemma lenN_flat_map_uniform {X Y} (f : X -> list Y) l c : Forall (fun x => lenN (f x) = c) l -> lenN (flat_map f l) = lenN l * c.
Proof.
  intros H. rewrite flat_map_concat_map, (lenN_concat_uniform _ c) by (apply Forall_map; exact H).
  unfold lenN. now rewrite map_length.
Qed.
Lemma comps_lengths L comps pcs : 1 <= L ->
  Forall2 (fun comp pts => lenN pts = lenN (c_points comp) /\ Forall (wf_point L) pts) comps pcs ->
  lenN (flat_map (fun pts : list point00 => flat_map fst pts) pcs) = sumN (map (fun c => lenN (c_points c)) comps) * (L - 1) /\
  lenN (flat_map (fun pts : list point00 => map snd pts) pcs) = sumN (map (fun c => lenN (c_points c)) comps).
Proof.
  intros HL1 Hw. induction Hw as [|comp pts comps pcs [H1 H2] _ [IH1 IH2]]; [split; reflexivity|].
  cbn [flat_map map sumN fold_right]. rewrite !lenN_app, IH1, IH2.
  assert (E1 : lenN (flat_map fst pts) = lenN pts * (L - 1)).
  { apply lenN_flat_map_uniform. eapply Forall_impl; [|exact H2]. intros q [Hq _]. lia. }
  assert (E2 : lenN (map snd pts) = lenN pts) by (unfold lenN; now rewrite map_length).
  rewrite E1, E2, H1. unfold sumN. split; lia.
Qed.
Lemma person_lengths h L p : 1 <= L -> wf_person h L p ->
  lenN (person_data p) = total_points h * (L - 1) /\ lenN (person_conf p) = total_points h.
Proof. intros HL1 Hw. apply (comps_lengths L _ _ HL1 Hw). Qed.
Lemma frame_lengths c : wf00 c ->
  let h := k0_header c in
  Forall (fun f => lenN (frame_data (total_points h) (spec_dims h) f) = total_points h * spec_dims h) (k0_frames c) /\
  Forall (fun f => lenN (frame_conf (total_points h) f) = total_points h) (k0_frames c).
Proof.
  intros [Hh [Hver [Hfps [HF [Hne [HL2 [HL Hfr]]]]]]] h. fold h in HL2, HL, Hfr.
  set (L := spec_floats_per_point h) in *.
  assert (H : Forall (fun f => lenN (frame_data (total_points h) (spec_dims h) f) = total_points h * spec_dims h /\
                               lenN (frame_conf (total_points h) f) = total_points h) (k0_frames c)).
  { eapply Forall_impl; [|exact Hfr]. intros [|p rest] [_ Hw]; cbn [frame_data frame_conf]; [rewrite !lenN_repeat; lia|].
    inversion Hw; subst. apply (person_lengths h L p); [lia|assumption]. }
  exact (Forall_and_inv _ _ H).
Qed.

Lemma start0_max s : Z.max (match s with Some z => z | None => 0%Z end) 0 = start0 s.
Proof. unfold start0. destruct s as [z|]; [destruct (Z.ltb_spec 0 z)|]; lia. Qed.
Lemma slice_window {X} (l : list X) F s e : F = Z.of_N (lenN l) ->
  slice_list (start0 s) (match e with Some z => Some (Z.max z 0) | None => None end) l =
  takeN (Z.to_N (end0 e F) - Z.to_N (start0 s)) (dropN (Z.to_N (start0 s)) l).
Proof.
  intros HF. unfold slice_list, end0. set (d := dropN (Z.to_N (start0 s)) l).
  assert (Hd : lenN d <= Z.to_N F - Z.to_N (start0 s)) by (unfold d; rewrite HF, lenN_dropN, N2Z.id; apply N.le_refl).
  destruct e as [z|]; [|symmetry; now apply takeN_all].
  rewrite Z2N.inj_max, N.max_0_r. destruct (Z.le_gt_cases z F) as [Hz|Hz].
  - now rewrite Z.min_l.
  - (* an end beyond the list: both bounds take everything *)
    rewrite Z.min_r by lia. apply takeN_over; [|exact Hd]. lia.
Qed.
Lemma flat_window {X Y} (f : X -> list Y) (l : list X) cells s0 e0 :
  Forall (fun x => lenN (f x) = cells) l -> (0 <= s0 <= e0)%Z ->
  takeN (Z.to_N ((e0 - s0) * Z.of_N cells)) (dropN (Z.to_N (s0 * Z.of_N cells)) (flat_map f l)) =
  flat_map f (takeN (Z.to_N e0 - Z.to_N s0) (dropN (Z.to_N s0) l)).
Proof.
  intros Hu Hse. rewrite !flat_map_concat_map, concat_window by (try apply Forall_map; assumption).
  now rewrite dropN_map, takeN_map.
Qed.

(* the last statement of read_v0_0: the arrays of the kept frames, handed to NumPyPoseBody.__init__ *)
Definition body_of_frames (fps T D : N) (kept : list frame00) : body :=
  let conf := flat_map (fun f => snd (fst f)) kept in
  {| b_fps := fps; b_shape := [lenN kept; 1; T; D]; b_data := flat_map (fun f => fst (fst f)) kept; b_conf := conf;
     b_mask := map (fun mc => orb (fst mc) (is_zero32 (snd mc))) (combine (flat_map (fun f => snd f) kept) conf) |}.
(* built from the kept frames it is the window of the body built from all of them *)
Lemma kept_window fps T D (frames : list (list person00)) s0 e0 :
  Forall (fun f => lenN (frame_data T D f) = T * D) frames -> Forall (fun f => lenN (frame_conf T f) = T) frames ->
  (0 <= s0 <= e0)%Z -> (e0 <= Z.of_N (lenN frames))%Z ->
  body_of_frames fps T D (map (frame_result T D) (takeN (Z.to_N e0 - Z.to_N s0) (dropN (Z.to_N s0) frames))) =
  window_body {| b_fps := fps; b_shape := [lenN frames; 1; T; D]; b_data := flat_map (frame_data T D) frames;
                 b_conf := flat_map (frame_conf T) frames; b_mask := map is_zero32 (flat_map (frame_conf T) frames) |} s0 e0.
Proof.
  intros Hld Hlc Hse He0. unfold body_of_frames. set (W := takeN (Z.to_N e0 - Z.to_N s0) (dropN (Z.to_N s0) frames)).
  rewrite !flat_map_map. cbn [fst snd frame_result]. fold mask_or. rewrite frames_mask_ok.
  unfold window_body. cbn [b_shape b_fps b_data b_conf b_mask]. rewrite N.mul_1_l, <- N2Z.inj_mul.
  rewrite (dropN_map is_zero32), (takeN_map is_zero32), (flat_window _ _ _ s0 e0 Hlc), (flat_window _ _ _ s0 e0 Hld) by exact Hse.
  fold W. f_equal. f_equal. unfold lenN at 1. rewrite map_length. fold (lenN W). unfold W. rewrite lenN_takeN, lenN_dropN. lia.
Qed.

(* the decoder after its two argument checks, and what it does once the bounds are resolved *)
Definition tail00 (h : header) (fps F : N) (s e : option Z) : prog body :=
  if (match s with Some z => (0 <? z)%Z && (Z.of_N F <=? z)%Z | None => false end) then Fail Value else
  let lo := Z.max (match s with Some z => z | None => 0%Z end) 0 in
  let hi := match e with Some z => Some (Z.max z 0) | None => None end in
  dop D <- plift (num_dims h);
  let T := total_points h in
  dop frames <- prep (N.to_nat F) (rd_frame00 (h_comps h) T D);
  if (D <=? 0)%Z then Fail Value else Ret (body_of_frames fps T (Z.to_N D) (slice_list lo hi frames)).
Definition body00 (h : header) (sf st ef et : option Z) : prog body :=
  dop ff <- rd_u16x2;
  let fps := f32_of_u16 (fst ff) in
  dop s <- plift (resolve_start fps sf st);
  dop e <- plift (resolve_end fps ef et);
  tail00 h fps (snd ff) s e.
Lemma read_v0_0_shape h sf st ef et :
  read_v0_0 h sf st ef et = if conflict sf st || conflict ef et then Fail Value else body00 h sf st ef et.
Proof. destruct sf, st, ef, et; reflexivity. Qed.
(* the test of read_v0_0 and of read_v0_1_frames (WindowLemmas.read_frames_eq) for a start beyond the recording *)
Lemma beyond_start0 s F :
  (match s with Some z => (0 <? z)%Z && (F <=? z)%Z | None => false end) = ((0 <? start0 s) && (F <=? start0 s))%Z.
Proof. unfold start0. destruct s as [z|]; [|reflexivity]. destruct (0 <? z)%Z eqn:E; [rewrite E|]; reflexivity. Qed.

Definition frames00 (c : content00) : Z := Z.of_N (lenN (k0_frames c)).
Definition v00_window_view (c : content00) (s0 e0 : Z) : pose :=
  {| p_header := k0_header c; p_body := window_body (p_body (first_person_view c)) s0 e0 |}.

Lemma v00_body_tail c sf st ef et s e x o : wf00 c ->
  conflict sf st = false -> conflict ef et = false ->
  resolve_start (fps_value (k0_fps c)) sf st = Ok s -> resolve_end (fps_value (k0_fps c)) ef et = Ok e ->
  Rq (tail00 (k0_header c) (fps_value (k0_fps c)) (lenN (k0_frames c)) s e) (concat (map spec_frame00 (k0_frames c))) x o ->
  Rq (read_v0_0 (k0_header c) sf st ef et) (spec_body00 c) x o.
Proof.
  intros [_ [_ [Hfps [HF _]]]] Hc1 Hc2 Hrs Hre Ht.
  rewrite read_v0_0_shape, Hc1, Hc2. cbn [orb]. unfold body00, spec_body00. rewrite app_assoc.
  apply Rq_bind with (a := (k0_fps c, lenN (k0_frames c))); [apply RTp_Rq; now apply u16x2_rt|].
  cbn [fst snd]. change (f32_of_u16 (k0_fps c)) with (fps_value (k0_fps c)). rewrite Hrs, Hre. exact Ht.
Qed.

Theorem v00_body_window_rt c sf st ef et s e x : wf00 c ->
  conflict sf st = false -> conflict ef et = false ->
  resolve_start (fps_value (k0_fps c)) sf st = Ok s -> resolve_end (fps_value (k0_fps c)) ef et = Ok e ->
  (start0 s = 0 \/ start0 s < frames00 c)%Z -> (start0 s <= end0 e (frames00 c))%Z ->
  Rq (read_v0_0 (k0_header c) sf st ef et) (spec_body00 c) x
     (Ok (p_body (v00_window_view c (start0 s) (end0 e (frames00 c))))).
Proof.
  intros Hwf Hc1 Hc2 Hrs Hre Hv1 Hv2. apply (v00_body_tail c sf st ef et s e x _ Hwf Hc1 Hc2 Hrs Hre), RTp_Rq.
  destruct (frame_lengths c Hwf) as [Hld Hlc].
  destruct Hwf as [Hh [Hver [Hfps [HF [Hne [HL2 [HL Hfr]]]]]]].
  destruct (num_dims_spec _ Hne HL2) as [Hnd HD1].
  set (h := k0_header c) in *. set (L := spec_floats_per_point h) in *.
  unfold tail00, v00_window_view, first_person_view. cbn [p_body]. fold h (frames00 c).
  rewrite beyond_start0. replace ((0 <? start0 s)%Z && (frames00 c <=? start0 s)%Z) with false by lia.
  rewrite Hnd. cbn [plift pbind].
  rewrite <- (app_nil_r (concat _)).
  apply RTp_bind with (a := map (frame_result (total_points h) (spec_dims h)) (k0_frames c)).
  { rewrite to_nat_lenN, <- (map_length (frame_result (total_points h) (spec_dims h))). apply RTp_prep.
    clear - HL HL2 Hfr. induction Hfr as [|f frames [Hf1 Hf2] _ IH]; cbn [map]; constructor; [|exact IH].
    now apply (frame00_rt h L). }
  destruct (Z.leb_spec (Z.of_N (spec_dims h)) 0) as [|_]; [lia|].
  (* the kept frames are the window's *)
  pose proof (end0_le e (frames00 c)) as He0. pose proof (start0_nonneg s) as Hs0.
  rewrite start0_max, (slice_window _ (frames00 c) s e) by (unfold frames00, lenN; now rewrite map_length).
  rewrite dropN_map, takeN_map, N2Z.id, (kept_window _ _ _ _ (start0 s) (end0 e (frames00 c)) Hld Hlc) by (try exact He0; lia).
  apply RTp_ret.
Qed.

Lemma v00_window_full c : wf00 c -> v00_window_view c 0 (frames00 c) = first_person_view c.
Proof.
  intros Hwf. destruct (frame_lengths c Hwf) as [Hld Hlc].
  unfold v00_window_view, first_person_view, window_body, frames00. cbn [p_body p_header b_shape b_fps b_data b_conf b_mask].
  set (h := k0_header c) in *. change (spec_points h) with (total_points h).
  pose proof (lenN_flat_map_uniform _ _ _ Hld) as E1. pose proof (lenN_flat_map_uniform _ _ _ Hlc) as E2.
  rewrite !Z.mul_0_l, !dropN_0, Z.sub_0_r.
  f_equal. f_equal.
  - f_equal. lia.
  - apply takeN_all. rewrite E1. lia.
  - apply takeN_all. rewrite E2. lia.
  - apply takeN_all.
    replace (lenN (map is_zero32 (flat_map (frame_conf (total_points h)) (k0_frames c))))
      with (lenN (flat_map (frame_conf (total_points h)) (k0_frames c))) by (unfold lenN; now rewrite map_length).
    rewrite E2. lia.
Qed.
Theorem v00_body_rt c : wf00 c ->
  RTp (read_v0_0 (k0_header c) None None None None) (spec_body00 c) (p_body (first_person_view c)).
Proof.
  intros Hwf. rewrite <- (v00_window_full c Hwf). apply Rq_RTp. intros x.
  apply (v00_body_window_rt c None None None None None None x Hwf); try reflexivity; cbn [start0 end0]; unfold frames00; lia.
Qed.

(* a start at or beyond the declared frame count: ValueError, raised before the first frame is decoded *)
Theorem v00_body_beyond c sf st ef et s e x : wf00 c ->
  conflict sf st = false -> conflict ef et = false ->
  resolve_start (fps_value (k0_fps c)) sf st = Ok s -> resolve_end (fps_value (k0_fps c)) ef et = Ok e ->
  (0 < start0 s)%Z -> (frames00 c <= start0 s)%Z ->
  Rq (read_v0_0 (k0_header c) sf st ef et) (spec_body00 c) x (Err Value).
Proof.
  intros Hwf Hc1 Hc2 Hrs Hre H0 HF. apply (v00_body_tail c sf st ef et s e x _ Hwf Hc1 Hc2 Hrs Hre).
  unfold tail00. fold (frames00 c). rewrite beyond_start0.
  replace ((0 <? start0 s)%Z && (frames00 c <=? start0 s)%Z) with true by lia. apply Rq_fail.
Qed.

Lemma v0prog_pmapM {X Y} (f : X -> prog Y) l : (forall x, v0prog (f x)) -> v0prog (pmapM f l).
Proof. intros Hf. induction l as [|x l IH]; cbn [pmapM]; [exact I|].
  apply v0prog_bind; [apply Hf|]. intros y. apply v0prog_bind; [exact IH|]. intros ys. exact I. Qed.
Lemma v0prog_rd_comp00 c : v0prog (rd_comp00 c).
Proof. unfold rd_comp00. cbn [v0prog]. intros b. destruct (_ <? 2); exact I. Qed.
Lemma v0prog_rd_person00 comps first : v0prog (rd_person00 comps first).
Proof. unfold rd_person00. cbn [v0prog]. apply v0prog_bind; [apply v0prog_pmapM, v0prog_rd_comp00|].
  intros cs. destruct first; [destruct (all_eq _)|]; exact I. Qed.
Lemma v0prog_rd_frame00 comps T D : v0prog (rd_frame00 comps T D).
Proof.
  unfold rd_frame00. apply v0prog_bind; [cbn; auto|]. intros np. destruct (N.to_nat np) as [|k].
  - unfold zeros_frame. destruct (D <? 0)%Z; exact I.
  - apply v0prog_bind; [apply v0prog_rd_person00|]. intros p0.
    apply v0prog_bind; [apply v0prog_prep, v0prog_rd_person00|]. intros rest. exact I.
Qed.
(* the argument checks raise before anything is read; the slice is a pure post-processing of the decoded frames *)
Lemma v0prog_read_v0_0 h sf st ef et : v0prog (read_v0_0 h sf st ef et).
Proof.
  rewrite read_v0_0_shape. destruct (conflict sf st || conflict ef et); [exact I|]. unfold body00, tail00.
  apply v0prog_bind; [cbn; auto|]. intros ff.
  apply v0prog_bind; [apply v0prog_plift|]. intros s.
  apply v0prog_bind; [apply v0prog_plift|]. intros e.
  destruct (match s with Some z => _ | None => false end); [exact I|].
  apply v0prog_bind; [apply v0prog_plift|]. intros D.
  apply v0prog_bind; [apply v0prog_prep, v0prog_rd_frame00|]. intros frames.
  destruct (D <=? 0)%Z; exact I.
Qed.

Definition window00 (c : content00) (a : rargs) : result (Z * Z) := window_of (fps_value (k0_fps c)) (frames00 c) a.

(* from the bytes and from a stream, whatever follows the file, the read ends as the body decoder does on the reference body *)
Lemma v00_read c m a x o : wf00 c -> MemoOK m ->
  Rq (read_v0_0 (k0_header c) (a_sf a) (a_st a) (a_ef a) (a_et a)) (spec_body00 c) x o ->
  fst (read_bytes c04_legacy m (spec00 c ++ x) a) = rmap (Build_pose (k0_header c)) o /\
  fst (fst (read_stream4 c04_legacy m (spec00 c ++ x) a)) = rmap (Build_pose (k0_header c)) o.
Proof.
  intros [Hh [Hver _]] Hm Ho.
  assert (Hb : read_body c04_legacy (k0_header c) a = read_v0_0 (k0_header c) (a_sf a) (a_st a) (a_ef a) (a_et a))
    by (unfold read_body, read_body_with; now rewrite Hver).
  unfold spec00. rewrite <- app_assoc.
  apply (read_spec_ends c04_legacy m _ a _ _ o Hm Hh); rewrite Hb; [right; apply v0prog_read_v0_0|exact Ho].
Qed.

Theorem v00_read_window c m a x s0 e0 : wf00 c -> MemoOK m ->
  window00 c a = Ok (s0, e0) -> valid_window (frames00 c) s0 e0 ->
  fst (read_bytes c04_legacy m (spec00 c ++ x) a) = Ok (v00_window_view c s0 e0) /\
  fst (fst (read_stream4 c04_legacy m (spec00 c ++ x) a)) = Ok (v00_window_view c s0 e0).
Proof.
  intros Hwf Hm Hw [Hv1 Hv2].
  destruct (window_of_inv _ _ _ _ _ Hw) as [Hc1 [Hc2 [s [e [Hrs [Hre [-> ->]]]]]]].
  exact (v00_read c m a x _ Hwf Hm (v00_body_window_rt c _ _ _ _ s e x Hwf Hc1 Hc2 Hrs Hre Hv1 Hv2)).
Qed.
Corollary v00_read_full c m a x : wf00 c -> MemoOK m -> any_arg a = false ->
  fst (read_bytes c04_legacy m (spec00 c ++ x) a) = Ok (first_person_view c) /\
  fst (fst (read_stream4 c04_legacy m (spec00 c ++ x) a)) = Ok (first_person_view c).
Proof.
  intros Hwf Hm Ha. rewrite <- (v00_window_full c Hwf).
  exact (v00_read_window c m a x 0 (frames00 c) Hwf Hm (no_args_window _ _ a Ha) (conj (or_introl eq_refl) (N2Z.is_nonneg _))).
Qed.

Theorem v00_read_conflict c m a x : wf00 c -> MemoOK m ->
  conflict (a_sf a) (a_st a) || conflict (a_ef a) (a_et a) = true ->
  fst (read_bytes c04_legacy m (spec00 c ++ x) a) = Err Value /\
  fst (fst (read_stream4 c04_legacy m (spec00 c ++ x) a)) = Err Value.
Proof.
  intros Hwf Hm Hc. apply (v00_read c m a x (Err Value) Hwf Hm). rewrite read_v0_0_shape, Hc. apply Rq_fail.
Qed.
Theorem v00_read_beyond c m a x s0 e0 : wf00 c -> MemoOK m -> window00 c a = Ok (s0, e0) ->
  (0 < s0)%Z -> (frames00 c <= s0)%Z ->
  fst (read_bytes c04_legacy m (spec00 c ++ x) a) = Err Value /\
  fst (fst (read_stream4 c04_legacy m (spec00 c ++ x) a)) = Err Value.
Proof.
  intros Hwf Hm Hw H0 HF.
  destruct (window_of_inv _ _ _ _ _ Hw) as [Hc1 [Hc2 [s [e [Hrs [Hre [-> ->]]]]]]].
  exact (v00_read c m a x _ Hwf Hm (v00_body_beyond c _ _ _ _ s e x Hwf Hc1 Hc2 Hrs Hre H0 HF)).
Qed.
