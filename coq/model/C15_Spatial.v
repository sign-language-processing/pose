(* C15 - spatial transforms and extents of the NumPy pose body.  Definitions only.

   The numeric parts are written once over [Num.ops]; theorems are proved for [R_ops], the extracted runner
   executes [F_ops] (binary64) or [F32_ops] (binary32 arithmetic, below).

   A body is frames -> people -> points; a point is its coordinates, each with its own mask bit (numpy.ma
   masks are per element; every body built from plain arrays or read from a file has the same bit on all
   coordinates of a point), and its confidence.  Data under the mask is carried along as numpy.ma does for
   flip / matmul / focus; for bbox the model writes 0 under the mask (numpy writes its fill value): data
   under the mask is never compared. *)
From Coq Require Import ZArith List Bool.
Require Import Result Num.
Import ListNotations.

Section Spatial.
Variable O : ops.
Notation T := (T O).
(* math.ceil of a Python float: None for nan / inf (ValueError / OverflowError) *)
Variable ceilZ : T -> option Z.

Record point := mkP { pcs : list (T * bool);     (* (coordinate, masked?) per axis *)
                      pc : T }.                  (* confidence *)
Definition person := list point.
Definition frames := list (list person).          (* frames -> people -> points *)

Definition map3 (f : point -> point) (b : frames) : frames := map (map (map f)) b.
Fixpoint zipw {A B C} (f : A -> B -> C) (l1 : list A) (l2 : list B) : list C :=
  match l1, l2 with x :: r1, y :: r2 => f x y :: zipw f r1 r2 | _, _ => [] end.

(* numpy/pose_body.py:44-53  NumPyPoseBody.__init__: a MaskedArray *is* an np.ndarray, so the branch is always
   taken: mask = confidence == 0, stacked over the last axis, OR-ed into the mask the data already has
   (ma.masked_array(..., keep_mask=True)) *)
Definition reinit (p : point) : point :=
  mkP (map (fun c : T * bool => (fst c, snd c || eqb O (pc p) (zero O))) (pcs p)) (pc p).

(* ---------------- flip: numpy/pose_body.py:240-258 ---------------- *)
(* vec = np.ones(D); vec[axis] = -1 *)
Definition sign_vec (D ax : nat) : list T :=
  map (fun k => if Nat.eqb k ax then opp O (one O) else one O) (seq 0 D).
(* Python index normalisation of vec[axis]; IndexError outside [-D, D) *)
Definition norm_axis (D : nat) (axis : Z) : option nat :=
  let d := Z.of_nat D in
  if (0 <=? axis)%Z && (axis <? d)%Z then Some (Z.to_nat axis)
  else if (- d <=? axis)%Z && (axis <? 0)%Z then Some (Z.to_nat (axis + d))
  else None.
(* data = self.data * vec  (masked multiply: mask kept, data under the mask kept) ; then __init__ *)
Definition flip_point (D ax : nat) (p : point) : point :=
  reinit (mkP (zipw (fun (c : T * bool) (v : T) => if snd c then c else (mul O (fst c) v, false)) (pcs p) (sign_vec D ax)) (pc p)).
Definition flip (D : nat) (axis : Z) (b : frames) : result frames :=
  match norm_axis D axis with
  | Some ax => Ok (map3 (flip_point D ax) b)
  | None => Err Index
  end.

(* ---------------- matmul: numpy/pose_body.py:223-238, numpy.ma.dot(strict=False) ---------------- *)
(* d = np.dot(filled(a, 0), b);  m = ~np.dot(~mask_a, ones)  i.e. masked iff every coordinate is masked *)
Definition dotp (x c : list T) : T := sum O (zipw (mul O) x c).
Definition col (j : nat) (M : list (list T)) : list T := map (fun row => nth j row (zero O)) M.
Definition vecmat (K : nat) (x : list T) (M : list (list T)) : list T :=
  map (fun j => dotp x (col j M)) (seq 0 K).
Definition filled (p : point) : list T := map (fun c : T * bool => if snd c then zero O else fst c) (pcs p).
Definition allmasked (p : point) : bool := forallb (@snd T bool) (pcs p).
Definition matmul_point (K : nat) (M : list (list T)) (p : point) : point :=
  reinit (mkP (map (fun v => (v, allmasked p)) (vecmat K (filled p) M)) (pc p)).
(* matrix of shape (R, K) given as R rows; np.dot raises ValueError unless R = D *)
Definition matrix_ok (R K : nat) (M : list (list T)) : bool :=
  Nat.eqb (length M) R && forallb (fun row => Nat.eqb (length row) K) M.
Definition matmul (D R K : nat) (M : list (list T)) (b : frames) : result frames :=
  if Nat.eqb R D && matrix_ok R K M then Ok (map3 (matmul_point K M) b) else Err Value.

(* ---------------- augment2d: pose_body.py:396-447 ---------------- *)
Definition eye (n : nat) : list (list T) :=
  map (fun i => map (fun j => if Nat.eqb i j then one O else zero O) (seq 0 n)) (seq 0 n).
(* np.dot of two n-column matrices *)
Definition mm (n : nat) (A B : list (list T)) : list (list T) := map (fun row => vecmat n row B) A.
Definition pos (x : T) : bool := ltb O (zero O) x.     (* `if std > 0` *)
(* the three normal draws are arguments: g_shear, (cos, sin) of the drawn angle, g_scale *)
Record draws := mkD { g_shear : T; g_cos : T; g_sin : T; g_scale : T }.
Definition shear_matrix (g : T) : list (list T) := [[one O; g]; [zero O; one O]].
Definition rotation_matrix (c s : T) : list (list T) := [[c; opp O s]; [s; c]].
Definition scale_matrix (g : T) : list (list T) := [[one O; zero O]; [zero O; add O (one O) g]].
Definition aug_matrix (rotation_std shear_std scale_std : T) (d : draws) : list (list T) :=
  let m0 := eye 2 in
  let m1 := if pos shear_std then mm 2 m0 (shear_matrix (g_shear d)) else m0 in
  let m2 := if pos rotation_std then mm 2 m1 (rotation_matrix (g_cos d) (g_sin d)) else m1 in
  let m3 := if pos scale_std then mm 2 m2 (scale_matrix (g_scale d)) else m2 in
  m3.
(* dim_matrix = np.eye(D); dim_matrix[0:2, 0:2] = matrix *)
Definition embed (D : nat) (m : list (list T)) : list (list T) :=
  map (fun i => map (fun j => if Nat.ltb i 2 && Nat.ltb j 2 then nth j (nth i m []) (zero O)
                              else if Nat.eqb i j then one O else zero O) (seq 0 D)) (seq 0 D).
(* for D < 2 the slice assignment cannot broadcast (ValueError).  The cast astype(float32) is rounding: not modelled *)
Definition augment2d (D : nat) (rotation_std shear_std scale_std : T) (d : draws) (b : frames) : result frames :=
  if Nat.ltb D 2 then Err Value
  else matmul D D D (embed D (aug_matrix rotation_std shear_std scale_std d)) b.

(* ---------------- masked min / max ---------------- *)
Definition min2 (a b : T) : T := if leb O a b then a else b.
Definition max2 (a b : T) : T := if leb O a b then b else a.
Definition lmin (l : list T) : option T := match l with [] => None | x :: r => Some (fold_left min2 r x) end.
Definition lmax (l : list T) : option T := match l with [] => None | x :: r => Some (fold_left max2 r x) end.
(* observed (unmasked) values on axis d *)
Definition obs_axis (d : nat) (pts : list point) : list T :=
  flat_map (fun p => match nth_error (pcs p) d with Some (x, false) => [x] | _ => [] end) pts.
Definition all_points (b : frames) : list point := concat (concat b).

(* ---------------- focus: pose.py:101-112, pose_header.py:183-186 ---------------- *)
Definition need {A} (o : option A) (e : err) : result A := match o with Some a => Ok a | None => Err e end.
(* self.body.data = ma.subtract(self.body.data, mins) *)
Definition shift_point (mins : list T) (p : point) : point :=
  mkP (zipw (fun (c : T * bool) (m : T) => if snd c then c else (sub O (fst c) m, false)) (pcs p) mins) (pc p).
(* (a - b) of two masked scalars *)
Definition osub (a b : option T) : option T :=
  match a, b with Some x, Some y => Some (sub O x y) | _, _ => None end.
Definition val (o : option T) : T := match o with Some v => v | None => zero O end.
Definition focus (D : nat) (b : frames) : result (frames * (Z * Z * Z)) :=
  let pts := all_points b in
  (* mins = ma.min(data, axis=(0, 1, 2)): one entry per axis, masked (None) when the axis has no observed value *)
  let mins := map (fun d => lmin (obs_axis d pts)) (seq 0 D) in
  let maxs := map (fun d => lmax (obs_axis d pts)) (seq 0 D) in
  (* if np.count_nonzero(mins) > 0 -- a masked entry holds the fill value, which counts as non-zero.
     Subtracting a masked minimum masks that axis, which has no observed value anyway. *)
  let b' := if existsb (fun m => match m with Some v => negb (eqb O v (zero O)) | None => true end) mins
            then map3 (shift_point (map val mins)) b else b in
  let ext := zipw osub maxs mins in
  (* PoseHeaderDimensions applied to the unpacked list: width, height, depth=0, *args ; each of the three through
     math.ceil, which raises TypeError on the None a masked entry becomes (an empty array makes ma.min raise before) *)
  match ext with
  | w :: h :: rest =>
      do wv <- need w Type_; do wz <- need (ceilZ wv) Value;
      do hv <- need h Type_; do hz <- need (ceilZ hv) Value;
      do dz <- match rest with [] => Ok 0%Z | dpt :: _ => do dv <- need dpt Type_; need (ceilZ dv) Value end;
      Ok (b', (wz, hz, dz))
  | _ => Err Type_
  end.

(* ---------------- bbox: numpy/pose_body.py:294-330 with the repairs F11 (mask indexed, any D) and F11b
   (a component without points gets a missing box) ---------------- *)
Fixpoint split_comps (ns : list nat) (pts : list point) : list (list point) :=
  match ns with [] => [] | n :: r => firstn n pts :: split_comps r (skipn n pts) end.
Definition is_none {A} (o : option A) : bool := match o with None => true | Some _ => false end.
(* ma.stack([ma.min(c, axis=0), ma.max(c, axis=0)]); confidence = 0 where axis 0 of the box is masked, else 1;
   then __init__ *)
Definition box (D : nat) (cpts : list point) : list point :=
  let conf := if is_none (lmin (obs_axis 0 cpts)) then zero O else one O in
  [ reinit (mkP (map (fun d => (val (lmin (obs_axis d cpts)), is_none (lmin (obs_axis d cpts)))) (seq 0 D)) conf);
    reinit (mkP (map (fun d => (val (lmax (obs_axis d cpts)), is_none (lmax (obs_axis d cpts)))) (seq 0 D)) conf) ].
Definition bbox_person (D : nat) (ns : list nat) (pts : list point) : list point :=
  flat_map (box D) (split_comps ns pts).
(* N = data.shape[2]; indexing points beyond N raises IndexError; D = 0 has no axis 0 to read the mask from *)
Definition bbox (D N : nat) (ns : list nat) (b : frames) : result frames :=
  if Nat.eqb D 0 || Nat.ltb N (fold_right Nat.add 0 ns) then Err Index
  else Ok (map (map (bbox_person D ns)) b).
End Spatial.

Arguments mkP {O}. Arguments pcs {O}. Arguments pc {O}. Arguments mkD {O}.
Arguments g_shear {O}. Arguments g_cos {O}. Arguments g_sin {O}. Arguments g_scale {O}.

(* ---------------- bbox header: pose_header.py:429-444 (and pose.py:307-318) ---------------- *)
(* names as code points (Coq's [string] must not reach the extracted code: it would shadow OCaml's);
   "TOP_LEFT" and "BOTTOM_RIGHT" - tied to the source text by source_tie_bbox_header in props/C15.v *)
Definition box_points : list (list Z) :=
  [ [84; 79; 80; 95; 76; 69; 70; 84];
    [66; 79; 84; 84; 79; 77; 95; 82; 73; 71; 72; 84] ]%Z.
Definition box_limbs : list (Z * Z) := [(0, 1)]%Z.
Record hcomp := mkH { hc_name : list Z; hc_format : list Z; hc_points : list (list Z);
                      hc_limbs : list (Z * Z); hc_colors : list (Z * Z * Z) }.
(* the limb colour does not matter to the property: a parameter (regenerated from the source on every run) *)
Definition bbox_header (colors : list (Z * Z * Z)) (comps : list hcomp) : list hcomp :=
  map (fun c => mkH (hc_name c) (hc_format c) box_points box_limbs colors) comps.
