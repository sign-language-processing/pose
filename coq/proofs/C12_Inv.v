(* C12 - the invariant [Inv] and its body half [Cons]; each body-level function of the model keeps [Cons]
   ([*_cons]); at the end two facts about the dispatcher.  That [step] keeps [Inv] is C12_Reach.v. *)
From Coq Require Import List Arith Bool ZArith Lia.
Require Import ListFacts Result ResultFacts Tensor C12_Model C12_Tab.
Import ListNotations.

(* values and confidence agree: shapes (F,P,T,D) / (F,P,T); a cell is masked, in every dimension, iff its confidence is 0 *)
Definition Cons (m c : tensor bool) (F P T D : nat) : Prop :=
  shape m = [F; P; T; D] /\ shape c = [F; P; T] /\ wf m /\ wf c /\
  forall f p t d, f < F -> p < P -> t < T -> d < D -> get4 m f p t d = get3 c f p t.
(* header and body agree.  "Every component has format length D+1" strengthens the statement's
   "header dims = D" (= max format length - 1) so that selection preserves it. *)
Definition Inv (st : state) : Prop :=
  exists F P T D, s_hdr st <> [] /\ Forall (fun c => c_fmt c = S D) (s_hdr st) /\ total_points (s_hdr st) = T
                  /\ Cons (s_mask st) (s_cz st) F P T D.

Lemma dims4_of_shapes m c F P T D : shape m = [F; P; T; D] -> shape c = [F; P; T] -> dims4 m c = Ok (F, P, T, D).
Proof. intros Hm Hc. unfold dims4. rewrite Hm, Hc, !Nat.eqb_refl. reflexivity. Qed.
Lemma cons_dims4 m c F P T D : Cons m c F P T D -> dims4 m c = Ok (F, P, T, D).
Proof. intros [Hm [Hc _]]. apply dims4_of_shapes; assumption. Qed.
Lemma dims4_shapes m c F P T D : dims4 m c = Ok (F, P, T, D) -> shape m = [F; P; T; D] /\ shape c = [F; P; T].
Proof.
  unfold dims4. destruct (shape m) as [|a [|b [|c0 [|d [|? ?]]]]]; try discriminate.
  destruct (shape c) as [|a' [|b' [|c' [|? ?]]]]; try discriminate.
  destruct (a =? a') eqn:E1; [|discriminate]. destruct (b =? b') eqn:E2; [|discriminate]. destruct (c0 =? c') eqn:E3; [|discriminate].
  cbn [andb]. intros H. inversion H; subst. apply Nat.eqb_eq in E1, E2, E3. subst. split; reflexivity.
Qed.
Lemma cons_unique m c F P T D F' P' T' D' : Cons m c F P T D -> dims4 m c = Ok (F', P', T', D') -> F' = F /\ P' = P /\ T' = T /\ D' = D.
Proof. intros HC H. rewrite (cons_dims4 _ _ _ _ _ _ HC) in H. inversion H. auto. Qed.

(* every operation builds its mask by tabulation: the cells are all there is to check *)
Lemma cons_tab4 g c F P T D : shape c = [F; P; T] -> wf c ->
  (forall f p t d, f < F -> p < P -> t < T -> d < D -> g f p t d = get3 c f p t) -> Cons (tab4 F P T D g) c F P T D.
Proof.
  intros Hc Hw H. split; [apply tab4_shape|]. split; [exact Hc|]. split; [apply tab4_wf|]. split; [exact Hw|].
  intros f p t d Hf Hp Ht Hd. rewrite get4_tab4 by assumption. apply H; assumption.
Qed.
Lemma cons_tabs g h F P T D :
  (forall f p t d, f < F -> p < P -> t < T -> d < D -> g f p t d = h f p t) -> Cons (tab4 F P T D g) (tab3 F P T h) F P T D.
Proof.
  intros H. apply cons_tab4; [apply tab3_shape|apply tab3_wf|].
  intros f p t d Hf Hp Ht Hd. rewrite get3_tab3 by assumption. apply H; assumption.
Qed.

(* the constructor ORs "confidence is 0" into the mask, so [Cons] of its result needs only the other direction of
   the input: what is masked has confidence 0.  [np_fin_cons], [fresh_cons], [bbox_np_cons] are instances. *)
Lemma np_ctor_cons m c m' F P T D :
  shape m = [F; P; T; D] -> shape c = [F; P; T] -> wf c ->
  (forall f p t d, f < F -> p < P -> t < T -> d < D -> get4 m f p t d = true -> get3 c f p t = true) ->
  np_ctor m c = Ok m' -> Cons m' c F P T D.
Proof.
  intros Hm Hc Hw Hsub H. unfold np_ctor in H. rewrite (dims4_of_shapes _ _ _ _ _ _ Hm Hc) in H. cbn [rbind] in H.
  destruct (D =? 0); [discriminate|]. injection H as <-.
  apply cons_tab4; [exact Hc|exact Hw|]. intros f p t d Hf Hp Ht Hd.
  destruct (get4 m f p t d) eqn:E; cbn [orb]; [symmetry; eapply Hsub; eassumption|reflexivity].
Qed.
Lemma np_fin_inv m1 c1 m2 c2 : np_fin (m1, c1) = Ok (m2, c2) -> np_ctor m1 c1 = Ok m2 /\ c2 = c1.
Proof. unfold np_fin; cbn [fst snd]. intros H. apply rbind_ok in H. destruct H as [x [Hx H]]. inversion H; subst. auto. Qed.
Lemma np_fin_cons m1 c1 m2 c2 F P T D : Cons m1 c1 F P T D -> np_fin (m1, c1) = Ok (m2, c2) -> Cons m2 c2 F P T D.
Proof.
  intros [Hm [Hc [_ [Hw Hcell]]]] H. apply np_fin_inv in H. destruct H as [H ->].
  eapply np_ctor_cons; try eassumption. intros f p t d Hf Hp Ht Hd E. rewrite <- (Hcell f p t d) by assumption. exact E.
Qed.
Lemma fin_cons be r m2 c2 F P T D :
  Cons (fst r) (snd r) F P T D -> match be with Np => np_fin r | _ => Ok r end = Ok (m2, c2) -> Cons m2 c2 F P T D.
Proof. destruct r as [m1 c1]. intros HC H. destruct be; [eapply np_fin_cons; eassumption| |]; injection H as <- <-; exact HC. Qed.
(* a body built from plain arrays (Pose.read, interpolate): nothing masked yet, the constructor derives the mask *)
Lemma fresh_cons F P T D cz m' c' : length cz = F * P * T ->
  np_fin (tab4 F P T D (fun _ _ _ _ => false), mkT [F; P; T] cz) = Ok (m', c') -> Cons m' c' F P T D.
Proof.
  intros HL H. apply np_fin_inv in H. destruct H as [H ->].
  apply (np_ctor_cons _ _ _ F P T D) in H; [exact H|apply tab4_shape|reflexivity| |].
  - unfold wf; cbn [data shape prod fold_right]. rewrite HL. lia.
  - intros f p t d Hf Hp Ht Hd E. rewrite get4_tab4 in E by assumption. discriminate.
Qed.
Lemma conf_mask_cons m c F P T D : Cons m c F P T D -> Cons (conf_mask F P T D c) c F P T D.
Proof. intros [_ [Hc [_ [Hw _]]]]. apply cons_tab4; [exact Hc|exact Hw|reflexivity]. Qed.

Lemma regather_cons m c F P T D F' T' gf gt :
  Cons m c F P T D -> (forall f, f < F' -> gf f < F) -> (forall t, t < T' -> gt t < T) ->
  Cons (fst (regather F' P T' D gf gt m c)) (snd (regather F' P T' D gf gt m c)) F' P T' D.
Proof. intros [_ [_ [_ [_ Hcell]]]] Hf Ht. apply cons_tabs. intros f p t d H1 H2 H3 H4. apply Hcell; auto. Qed.

Lemma nth_lt_of_forallb (l : list nat) n : forallb (fun i => i <? n) l = true -> forall j, j < length l -> nth j l 0 < n.
Proof. intros H j Hj. rewrite forallb_forall in H. apply Nat.ltb_lt. apply H. apply nth_In. exact Hj. Qed.

Lemma get_points_cons be F P T D idxs m c m' c' :
  Cons m c F P T D -> get_points be F P T D idxs m c = Ok (m', c') -> Cons m' c' F P (length idxs) D.
Proof.
  intros HC H. unfold get_points in H. destruct (forallb (fun i => i <? T) idxs) eqn:E; cbn [negb] in H; [|discriminate].
  eapply fin_cons; [|exact H]. eapply regather_cons; [exact HC|auto|apply nth_lt_of_forallb; exact E].
Qed.

Lemma step_count_lt F b : 0 < b -> forall j, j < step_count F b -> j * b < F.
Proof.
  unfold step_count. intros Hb j Hj. destruct F as [|F].
  - rewrite Nat.div_small in Hj by lia. lia.
  - assert (Hm : b * ((S F + b - 1) / b) <= S F + b - 1) by (apply Nat.mul_div_le; lia). nia.
Qed.
Lemma slice_step_cons be F P T D by_ m c m' c' :
  Cons m c F P T D -> slice_step be F P T D by_ m c = Ok (m', c') -> Cons m' c' (step_count F (Z.abs_nat by_)) P T D.
Proof.
  intros HC H. unfold slice_step in H. destruct (by_ =? 0)%Z eqn:E0; [discriminate|].
  assert (Hb : 0 < Z.abs_nat by_) by (apply Z.eqb_neq in E0; lia).
  pose proof (step_count_lt F _ Hb) as Hlt. destruct (0 <? by_)%Z.
  - eapply fin_cons; [|exact H]. eapply regather_cons; [exact HC|exact Hlt|auto].
  - set (r := regather _ _ _ _ _ _ _ _) in H.
    assert (HR : Cons (fst r) (snd r) (step_count F (Z.abs_nat by_)) P T D).
    { eapply regather_cons; [exact HC| |auto]. intros j Hj. specialize (Hlt j Hj). lia. }
    destruct be; [exact (fin_cons Np _ _ _ _ _ _ _ HR H)|discriminate|exact (fin_cons Tf _ _ _ _ _ _ _ HR H)].
Qed.

Lemma gather_frames_cons be F P T D ix m c m' c' :
  Cons m c F P T D -> (forall j, j < length ix -> nth j ix 0 < F) ->
  gather_frames be F P T D ix m c = Ok (m', c') -> Cons m' c' (length ix) P T D.
Proof. intros HC Hix H. eapply fin_cons; [|exact H]. eapply regather_cons; [exact HC|exact Hix|auto]. Qed.
(* without cells any index will do *)
Lemma gather_frames_empty be F P T D ix m c m' c' :
  P * T * D = 0 -> gather_frames be F P T D ix m c = Ok (m', c') -> Cons m' c' (length ix) P T D.
Proof.
  intros E0 H. eapply fin_cons; [|exact H]. apply cons_tabs. intros f p t d _ Hp Ht Hd.
  assert (0 < P * T * D) by (repeat apply Nat.mul_pos_pos; lia). lia.
Qed.
Lemma norm_index_lt neg F i k : norm_index neg F i = Ok k -> k < F.
Proof.
  unfold norm_index. destruct ((0 <=? i) && (i <? Z.of_nat F))%Z eqn:E1.
  - intros H; inversion H; subst. apply andb_prop in E1. destruct E1 as [A B]. apply Z.leb_le in A. apply Z.ltb_lt in B. lia.
  - destruct (neg && (- Z.of_nat F <=? i) && (i <? 0))%Z eqn:E2; [|discriminate].
    intros H; inversion H; subst. apply andb_prop in E2. destruct E2 as [E2 B]. apply andb_prop in E2. destruct E2 as [_ A].
    apply Z.leb_le in A. apply Z.ltb_lt in B. lia.
Qed.
Lemma rmapM_norm_lt neg F ix ixn : rmapM (norm_index neg F) ix = Ok ixn -> forall j, j < length ixn -> nth j ixn 0 < F.
Proof.
  intros H. apply rmapM_Forall2 in H. induction H as [|i k ix ixn Hk _ IH]; intros j Hj; cbn [length] in Hj; [lia|].
  destruct j; cbn [nth]; [eapply norm_index_lt; exact Hk|apply IH; lia].
Qed.
Lemma select_frames_cons be F P T D ix m c m' c' :
  Cons m c F P T D -> select_frames be F P T D ix m c = Ok (m', c') -> exists F', Cons m' c' F' P T D.
Proof.
  intros HC H. unfold select_frames in H.
  assert (Hgen : forall neg, (do ixn <- rmapM (norm_index neg F) ix; gather_frames be F P T D ixn m c) = Ok (m', c') ->
                             exists F', Cons m' c' F' P T D).
  { intros neg H'. apply rbind_ok in H'. destruct H' as [ixn [Hn H']]. exists (length ixn).
    eapply gather_frames_cons; try eassumption. eapply rmapM_norm_lt; eassumption. }
  destruct be.
  - destruct ix; eapply Hgen; exact H.
  - destruct (P * T * D =? 0) eqn:E0.
    + apply Nat.eqb_eq in E0. destruct F; destruct ix; try discriminate; eexists; eapply gather_frames_empty; eassumption.
    + destruct ix; eapply Hgen; exact H.
  - destruct ix as [|i0 ix']; [discriminate|]. destruct (P * T * D =? 0) eqn:E0.
    + apply Nat.eqb_eq in E0. destruct F; eexists; eapply gather_frames_empty; eassumption.
    + eapply Hgen; exact H.
Qed.
Lemma dropout_cons be F P T D sel m c m' c' :
  Cons m c F P T D -> dropout be F P T D sel m c = Ok (m', c') -> Cons m' c' (length sel) P T D.
Proof.
  intros HC H. unfold dropout in H.
  destruct (forallb (fun i => i <? F) sel) eqn:E; cbn [negb] in H; [|discriminate].
  eapply gather_frames_cons; try eassumption. apply nth_lt_of_forallb; exact E.
Qed.

Lemma comp_ranges_length h idx : length (comp_ranges h idx) = length h.
Proof. revert idx; induction h as [|c r IH]; intros idx; cbn; [reflexivity|now rewrite IH]. Qed.
Lemma total_points_cons c r : total_points (c :: r) = length (c_points c) + total_points r.
Proof. reflexivity. Qed.
Lemma comp_ranges_bound h idx r : In r (comp_ranges h idx) -> fst r + snd r <= idx + total_points h.
Proof.
  revert idx; induction h as [|c h IH]; intros idx Hin; cbn [comp_ranges] in Hin; [contradiction|].
  rewrite total_points_cons. destruct Hin as [<-|Hin]; cbn [fst snd]; [lia|]. apply IH in Hin. lia.
Qed.
Lemma total_points_bbox h : total_points (bbox_hdr h) = bbox_rows * length h.
Proof.
  induction h as [|c r IH]; [reflexivity|]. change (bbox_hdr (c :: r)) with ({| c_name := c_name c; c_points := box_points; c_fmt := c_fmt c |} :: bbox_hdr r).
  rewrite total_points_cons, IH. unfold bbox_rows. change (length (c_points {| c_name := c_name c; c_points := box_points; c_fmt := c_fmt c |})) with 2. cbn [length]. lia.
Qed.
Lemma bbox_np_cons h F P T D m c m' c' :
  Cons m c F P T D -> bbox_np h F P T D m c = Ok (m', c') -> Cons m' c' F P (bbox_rows * length h) D.
Proof.
  intros HC H. pose proof HC as [_ [_ [_ [_ Hcell]]]]. unfold bbox_np in H.
  destruct (comp_ranges h 0) as [|r0 rs'] eqn:Ers; [discriminate|]. rewrite <- Ers in H.
  destruct (T <? total_points h) eqn:ET; [discriminate|]. apply Nat.ltb_ge in ET.
  destruct (D =? 0) eqn:ED; [discriminate|]. apply Nat.eqb_neq in ED.
  rewrite comp_ranges_length in H. eapply np_fin_cons; [|exact H]. apply cons_tabs.
  (* a box cell and the box's confidence (its dimension 0) are conjunctions over the same cells of the component *)
  intros f p j d Hf Hp Hj Hd. rewrite get4_tab4 by (assumption || lia). cbn zeta.
  assert (Hk : j / bbox_rows < length (comp_ranges h 0))
    by (rewrite comp_ranges_length; apply Nat.div_lt_upper_bound; [unfold bbox_rows; lia|exact Hj]).
  pose proof (comp_ranges_bound h 0 _ (nth_In _ (0, 0) Hk)) as Hb.
  apply forallb_seq_ext. intros t Ht. rewrite !Hcell by (assumption || lia). reflexivity.
Qed.

Lemma interpolate_np_cons F P T D newF cz' m c m' c' :
  interpolate_np F P T D newF cz' m c = Ok (m', c') -> Cons m' c' (Z.to_nat newF) P T D.
Proof.
  unfold interpolate_np. intros H.
  destruct (F =? 1); [discriminate|]. destruct (newF <? 0)%Z; [discriminate|].
  destruct ((P =? 0) || (T =? 0)); [discriminate|]. destruct (compress_ok F P T D m c); cbn [negb] in H; [|discriminate].
  destruct (length cz' =? Z.to_nat newF * P * T) eqn:EL; cbn [negb] in H; [|discriminate]. apply Nat.eqb_eq in EL.
  eapply fresh_cons; eassumption.
Qed.

Lemma flip_np_cons F P T D axis m c m' c' : Cons m c F P T D -> flip_np D axis m c = Ok (m', c') -> Cons m' c' F P T D.
Proof.
  intros HC H. unfold flip_np in H. destruct ((- Z.of_nat D <=? axis) && (axis <? Z.of_nat D))%Z; [|discriminate].
  eapply np_fin_cons; eassumption.
Qed.
Lemma focus_np_cons F P T D m c m' c' : Cons m c F P T D -> focus_np F P T D m c = Ok (m', c') -> Cons m' c' F P T D.
Proof.
  intros HC H. unfold focus_np in H. destruct (F * P * T =? 0); [discriminate|]. destruct (D <? 2); [discriminate|].
  destruct (ex_lt (Nat.min D 3) _); [discriminate|]. injection H as <- <-. exact HC.
Qed.
Lemma augment2d_cons be F P T D ok m c m' c' :
  Cons m c F P T D -> augment2d be F P T D ok m c = Ok (m', c') -> Cons m' c' F P T D.
Proof.
  intros HC H. pose proof HC as [_ [Hc [_ [Wc Hcell]]]]. unfold augment2d in H.
  destruct (D <? 2) eqn:ED; [discriminate|]. apply Nat.ltb_ge in ED.
  assert (HR : Cons (tab4 F P T D (fun f p t _ => all_lt D (fun k => get4 m f p t k))) c F P T D).
  { apply cons_tab4; [exact Hc|exact Wc|]. intros f p t d Hf Hp Ht Hd.
    apply all_lt_const; [lia|]. intros k Hk. apply Hcell; assumption. }
  destruct be.
  - eapply np_fin_cons; [exact HR|exact H].
  - destruct ok; [injection H as <- <-; exact HR|discriminate].
  - injection H as <- <-; exact HR.
Qed.

Lemma normalize_cons be F P T D i1 i2 m c m' c' :
  Cons m c F P T D ->
  (exists f0 p0, f0 < F /\ p0 < P /\ get3 c f0 p0 i1 = false /\ get3 c f0 p0 i2 = false) ->
  normalize be F P T D i1 i2 m c = Ok (m', c') -> Cons m' c' F P T D.
Proof.
  intros HC [f0 [p0 [Hf0 [Hp0 [Z1 Z2]]]]] H. pose proof HC as [_ [Hc [_ [Wc Hcell]]]]. unfold normalize in H.
  destruct ((i1 <? T) && (i2 <? T)) eqn:EI; cbn [negb] in H; [|discriminate].
  apply andb_prop in EI. destruct EI as [I1 I2]. apply Nat.ltb_lt in I1, I2.
  set (both := fun f p d => get4 m f p i1 d || get4 m f p i2 d) in *.
  assert (Hboth : forall d, d < D -> both f0 p0 d = false).
  { intros d Hd. unfold both. rewrite !Hcell by assumption. rewrite Z1, Z2. reflexivity. }
  set (cm := fun d => all_lt F (fun f => all_lt P (fun p => both f p d))) in *.
  assert (Hcm : forall d, d < D -> cm d = false).
  { intros d Hd. unfold cm. apply (all_lt_false F _ f0 Hf0). apply (all_lt_false P _ p0 Hp0). apply Hboth. exact Hd. }
  assert (Hfin : forall md, (forall d, d < D -> md = false) ->
                 Cons (tab4 F P T D (fun f p t d => get4 m f p t d || cm d || md)) c F P T D).
  { intros md Hmd. apply cons_tab4; [exact Hc|exact Wc|]. intros f p t d Hf Hp Ht Hd.
    rewrite (Hcm d Hd), (Hmd d Hd), !orb_false_r. apply Hcell; assumption. }
  destruct be.
  - injection H as <- <-. apply Hfin. intros d Hd.
    apply (all_lt_false F _ f0 Hf0). apply (all_lt_false P _ p0 Hp0). apply (all_lt_false D _ d Hd).
    change (both f0 p0 d || cm d = false). rewrite (Hboth d Hd), (Hcm d Hd). reflexivity.
  - discriminate.
  - injection H as <- <-. apply Hfin. intros d Hd.
    apply (all_lt_false F _ f0 Hf0). apply (all_lt_false P _ p0 Hp0). apply ex_lt_none. intros k Hk. apply Hboth. exact Hk.
Qed.
Lemma nth_negb_false (zs : list bool) k : forallb negb zs = true -> nth k zs false = false.
Proof.
  intros H. destruct (Nat.lt_ge_cases k (length zs)) as [Hk|Hk].
  - rewrite forallb_forall in H. specialize (H _ (nth_In zs false Hk)). destruct (nth k zs false); [discriminate|reflexivity].
  - apply nth_overflow. exact Hk.
Qed.
Lemma normalize_distribution_cons be F P T D pp zs m c m' c' :
  Cons m c F P T D -> forallb negb zs = true ->
  normalize_distribution be F P T D pp zs m c = Ok (m', c') -> Cons m' c' F P T D.
Proof.
  intros HC Hz H. pose proof HC as [_ [Hc [_ [Wc Hcell]]]]. unfold normalize_distribution in H.
  destruct (length zs =? (if pp then T * D else D)); cbn [negb] in H; [|discriminate].
  destruct be; [|discriminate|injection H as <- <-; exact HC].
  injection H as <- <-. apply cons_tab4; [exact Hc|exact Wc|]. intros f p t d Hf Hp Ht Hd.
  rewrite nth_negb_false by exact Hz. rewrite orb_false_r. apply Hcell; assumption.
Qed.

Definition entry_ok (D : nat) (e : comp * list nat) : Prop := length (snd e) = length (c_points (fst e)) /\ c_fmt (fst e) = S D.
Lemma gc_entry_ok c idx pts e D : c_fmt c = S D -> gc_entry c idx pts = Ok e -> entry_ok D e.
Proof.
  intros Hfmt H. unfold gc_entry in H.
  destruct (match pts with Some d => assoc_first (c_name c) d | None => None end) as [np|].
  - apply rbind_ok in H. destruct H as [ixs [Hix H]]. inversion H; subst. split; cbn [fst snd c_points c_fmt]; [|exact Hfmt].
    apply rmapM_Forall2 in Hix. symmetry. eapply Forall2_length. exact Hix.
  - inversion H; subst. split; cbn [fst snd]; [apply seq_length|exact Hfmt].
Qed.
Lemma gc_scan_ok h D : Forall (fun c => c_fmt c = S D) h ->
  forall idx cs pts es, gc_scan h idx cs pts = Ok es -> Forall (fun ne => entry_ok D (snd ne)) es.
Proof.
  induction 1 as [|c h Hc Hh IH]; intros idx cs pts es H; cbn [gc_scan] in H.
  - inversion H. constructor.
  - destruct (mem (c_name c) cs).
    + apply rbind_ok in H. destruct H as [e [He H]]. apply rbind_ok in H. destruct H as [rest [Hr H]]. inversion H; subst.
      constructor; [cbn [snd]; eapply gc_entry_ok; eassumption|eapply IH; eassumption].
    + eapply IH; eassumption.
Qed.
Lemma assoc_last_in {V} x (l : list (name * V)) v : assoc_last x l = Some v -> exists k, In (k, v) l.
Proof.
  induction l as [|[k w] r IH]; cbn [assoc_last]; [discriminate|].
  destruct (assoc_last x r) as [w'|] eqn:E.
  - intros H; inversion H; subst. destruct (IH eq_refl) as [k' Hk']. exists k'. right. exact Hk'.
  - destruct (name_eqb k x); [|discriminate]. intros H; inversion H; subst. exists k. left. reflexivity.
Qed.
Lemma total_points_sel (sel : list (comp * list nat)) D :
  Forall (entry_ok D) sel -> total_points (map fst sel) = length (flat_map snd sel) /\ Forall (fun c => c_fmt c = S D) (map fst sel).
Proof.
  induction 1 as [|e sel [He1 He2] Hs [IH1 IH2]]; cbn [map flat_map]; [split; [reflexivity|constructor]|].
  rewrite total_points_cons, app_length, IH1, He1. split; [reflexivity|constructor; assumption].
Qed.
Lemma get_components_hdr_ok h cs pts h' idxs D :
  Forall (fun c => c_fmt c = S D) h -> get_components_hdr h cs pts = Ok (h', idxs) ->
  Forall (fun c => c_fmt c = S D) h' /\ total_points h' = length idxs /\ length h' = length cs.
Proof.
  intros Hh H. unfold get_components_hdr in H. apply rbind_ok in H. destruct H as [es [Hes H]].
  apply rbind_ok in H. destruct H as [sel [Hsel H]]. inversion H; subst. clear H.
  pose proof (gc_scan_ok h D Hh _ _ _ _ Hes) as Hok. apply rmapM_Forall2 in Hsel.
  assert (Hall : Forall (entry_ok D) sel).
  { clear Hes. induction Hsel as [|x e cs' sel' Hx Hr IH]; [constructor|]. constructor; [|exact IH].
    destruct (assoc_last x es) as [e'|] eqn:E; [|discriminate]. inversion Hx; subst.
    destruct (assoc_last_in _ _ _ E) as [k Hk]. rewrite Forall_forall in Hok. apply (Hok _ Hk). }
  destruct (total_points_sel sel D Hall) as [A B]. split; [exact B|]. split; [exact A|].
  rewrite map_length. symmetry. eapply Forall2_length. exact Hsel.
Qed.
Lemma rc_args_keep h cs pts : existsb (fun c => negb (mem (c_name c) cs)) h = true -> fst (rc_args h cs pts) <> [].
Proof.
  induction h as [|c r IH]; cbn [existsb rc_args]; [discriminate|].
  destruct (rc_args r cs pts) as [keep d] eqn:E. cbn [fst] in IH.
  destruct (mem (c_name c) cs); cbn [negb orb fst]; [exact IH|]. intros _. discriminate.
Qed.

(* Pose.__getattr__: every modelled method is on the white-list and none is a header attribute *)
Lemma pass_through_id {A} me (r : result A) : pass_through me r = r.
Proof. destruct me, r; reflexivity. Qed.
Lemma only_np_ok {A} be e (r : result A) x : only_np be e r = Ok x -> r = Ok x.
Proof. destruct be; cbn; [auto|discriminate|discriminate]. Qed.
