(* v0.1: a reference-encoded file decodes to the values stored in it - every frame (the count comes from the
   payload size, the 16-bit field is ignored) or the requested window, given by frame bounds, time bounds or one of
   each - from bytes and from a stream; a start at or beyond the last frame and a frame and a time bound for the same
   end are refused.
   What the two decoders share stands here too and C04_V00 imports it: w32ok, the lemmas on concatenations of frames of
   one size, num_dims_spec, the requested window (window_of, valid_window) and its lemmas, flat_map_enc. *)
From Coq Require Import ZArith NArith List Lia ZifyBool ZifyN ZifyNat Bool.
Require Import ListN Result Bytes Utf8 Utf8S F32 Prog Codec ProgLemmas CodecRT PoseRead PoseReadLemmas StreamLemmas
  WindowLemmas StreamRead C04_Legacy C04_Spec C04_Div C04_Stream C04_Handoff C04_SpecRT.
Import ListNotations.
Open Scope N_scope.

Definition w32ok (w : N) : Prop := w < 4294967296.
Definition wf01 (c : content01) : Prop :=
  let h := k1_header c in
  wf_header h /\ version_class (h_version h) = V01 /\
  u16 (k1_fps c) /\ u16 (k1_frames_field c) /\ u16 (k1_people c) /\
  1 <= k1_people c /\ 1 <= spec_points h /\ 2 <= spec_floats_per_point h /\
  length (k1_conf c) = length (k1_data c) /\
  (Z.of_N (lenN (k1_data c)) < 2 ^ 53)%Z /\
  Forall (fun fr => lenN fr = k1_people c * spec_points h * spec_dims h /\ Forall w32ok fr) (k1_data c) /\
  Forall (fun fr => lenN fr = k1_people c * spec_points h /\ Forall w32ok fr) (k1_conf c).

Lemma lenN_concat_uniform {X} (l : list (list X)) c : Forall (fun fr => lenN fr = c) l -> lenN (concat l) = lenN l * c.
Proof. induction 1 as [|fr l Hf _ IH]; [reflexivity|]. cbn [concat]. rewrite lenN_app, IH, Hf. unfold lenN. cbn [length]. lia. Qed.
Lemma dropN_concat_uniform {X} (l : list (list X)) c : Forall (fun fr => lenN fr = c) l ->
  forall n, dropN (n * c) (concat l) = concat (dropN n l).
Proof.
  induction 1 as [|fr l Hf _ IH]; intros n; [destruct (n * c); reflexivity|].
  destruct (N.eq_dec n 0) as [->|Hn]; [now rewrite N.mul_0_l, !dropN_0|].
  cbn [concat]. replace (n * c) with ((n - 1) * c + c) by (rewrite <- (N.mul_1_l c) at 2; rewrite <- N.mul_add_distr_r; f_equal; lia).
  rewrite <- dropN_dropN.
  rewrite dropN_app_le by lia. rewrite (dropN_all c fr) by lia. cbn [app]. rewrite IH.
  f_equal. cbn [dropN]. destruct (N.eqb_spec n 0); [lia|reflexivity].
Qed.
Lemma takeN_concat_uniform {X} (l : list (list X)) c : Forall (fun fr => lenN fr = c) l ->
  forall n, takeN (n * c) (concat l) = concat (takeN n l).
Proof.
  induction 1 as [|fr l Hf _ IH]; intros n; [destruct (n * c); reflexivity|].
  destruct (N.eq_dec n 0) as [->|Hn]; [now rewrite N.mul_0_l, !takeN_0|].
  cbn [concat]. replace (n * c) with (c + (n - 1) * c) by (rewrite <- (N.mul_1_l c) at 1; rewrite <- N.mul_add_distr_r; f_equal; lia).
  rewrite <- takeN_app_takeN.
  rewrite takeN_app_le by lia. rewrite (takeN_all c fr) by lia.
  rewrite dropN_app_le by lia. rewrite (dropN_all c fr) by lia. cbn [app]. rewrite IH.
  cbn [takeN]. destruct (N.eqb_spec n 0); [lia|reflexivity].
Qed.

Lemma fold_max_ZN (l : list N) :
  fold_right Z.max 0%Z (map Z.of_N l) = Z.of_N (fold_right N.max 0 l).
Proof. induction l as [|x l IH]; [reflexivity|]. cbn [map fold_right]. rewrite IH. lia. Qed.
Lemma num_dims_spec h : h_comps h <> [] -> 2 <= spec_floats_per_point h ->
  num_dims h = Ok (Z.of_N (spec_dims h)) /\ 1 <= spec_dims h.
Proof.
  intros Hne. unfold spec_dims, num_dims, spec_floats_per_point.
  assert (E : fold_right Z.max 0%Z (map (fun f => Z.of_N (lenN f)) (map c_format (h_comps h))) =
              Z.of_N (fold_right N.max 0 (map (fun c => lenN (c_format c)) (h_comps h))))
    by (rewrite <- fold_max_ZN, !map_map; reflexivity).
  destruct (h_comps h) as [|c l]; [contradiction|].
  unfold num_dims_of. cbn [map] in *. rewrite E. intros HL. split; [f_equal|]; lia.
Qed.

Lemma read_frames_beyond F cells s e : (0 < start0 s)%Z -> (F <= start0 s)%Z -> read_frames F cells s e = Fail Value.
Proof. intros H0 HF. rewrite read_frames_eq. destruct (_ && _) eqn:E; [reflexivity|lia]. Qed.

(* for a recording of F frames at frame rate fps (a float32 word): frame bounds as given, a time bound of t ms as
   floor (start) / ceil (end) of t / 1000 * fps (WindowLemmas.resolve_start / resolve_end: the rule of the v0.2 reader);
   a start below 0 is 0, an end beyond the recording is its end; a frame and a time bound for the same end: no window *)
Definition window_of (fps : N) (F : Z) (a : rargs) : result (Z * Z) :=
  if conflict (a_sf a) (a_st a) || conflict (a_ef a) (a_et a) then Err Value else
  do s <- resolve_start fps (a_sf a) (a_st a);
  do e <- resolve_end fps (a_ef a) (a_et a);
  Ok (start0 s, end0 e F).
Lemma window_of_inv fps F a s0 e0 : window_of fps F a = Ok (s0, e0) ->
  conflict (a_sf a) (a_st a) = false /\ conflict (a_ef a) (a_et a) = false /\
  exists s e, resolve_start fps (a_sf a) (a_st a) = Ok s /\ resolve_end fps (a_ef a) (a_et a) = Ok e /\
              s0 = start0 s /\ e0 = end0 e F.
Proof.
  unfold window_of. destruct (conflict (a_sf a) (a_st a)); [discriminate|]. destruct (conflict (a_ef a) (a_et a)); [discriminate|].
  cbn [orb]. destruct (resolve_start fps (a_sf a) (a_st a)) as [s|]; [|discriminate].
  destruct (resolve_end fps (a_ef a) (a_et a)) as [e|]; [|discriminate]. cbn [rbind]. intros H. injection H as <- <-.
  split; [reflexivity|]. split; [reflexivity|]. exists s, e. repeat split.
Qed.
Lemma window_of_frames fps F a : a_st a = None -> a_et a = None -> window_of fps F a = Ok (start0 (a_sf a), end0 (a_ef a) F).
Proof. intros Hs He. unfold window_of, conflict, resolve_start, resolve_end. rewrite Hs, He. destruct (a_sf a), (a_ef a); reflexivity. Qed.
Lemma no_args_window fps F a : any_arg a = false -> window_of fps F a = Ok (0%Z, F).
Proof.
  unfold any_arg. intros Ha. destruct (a_sf a) eqn:E1, (a_st a) eqn:E2, (a_ef a) eqn:E3, (a_et a) eqn:E4; try discriminate.
  unfold window_of. rewrite E1, E2, E3, E4. reflexivity.
Qed.
Lemma start0_nonneg s : (0 <= start0 s)%Z.
Proof. unfold start0. destruct s as [z|]; [destruct (Z.ltb_spec 0 z)|]; lia. Qed.
Lemma end0_le e F : (end0 e F <= F)%Z.
Proof. unfold end0. destruct e; lia. Qed.

(* frames [s0, e0) of uniform frames, counted in cells and in frames *)
Lemma concat_window {X} (l : list (list X)) cells s0 e0 : Forall (fun fr => lenN fr = cells) l -> (0 <= s0 <= e0)%Z ->
  takeN (Z.to_N ((e0 - s0) * Z.of_N cells)) (dropN (Z.to_N (s0 * Z.of_N cells)) (concat l)) =
  concat (takeN (Z.to_N e0 - Z.to_N s0) (dropN (Z.to_N s0) l)).
Proof.
  intros Hu Hse. rewrite !Z2N.inj_mul, Z2N.inj_sub, !N2Z.id by lia.
  rewrite dropN_concat_uniform by exact Hu. apply takeN_concat_uniform, Forall_dropN, Hu.
Qed.

Definition tail01 (fpsw P T : N) (D F : Z) (s e : option Z) : prog body :=
  dop dat <- read_frames F (Z.of_N (P * T) * D) s e;
  dop cnf <- read_frames F (Z.of_N (P * T)) s e;
  plift (mk_body fpsw (Z.to_N (fst dat)) P T D (snd dat) (snd cnf)).
Lemma tail01_rt fpsw P T D (data conf : list (list N)) s e :
  let F := Z.of_N (lenN data) in
  Forall (fun fr => lenN fr = P * T * D /\ Forall w32ok fr) data ->
  Forall (fun fr => lenN fr = P * T /\ Forall w32ok fr) conf -> lenN conf = lenN data -> 1 <= D ->
  (start0 s = 0 \/ start0 s < F)%Z -> (start0 s <= end0 e F)%Z ->
  RTp (tail01 fpsw P T (Z.of_N D) F s e) (flat_map enc_u32 (concat data) ++ flat_map enc_u32 (concat conf))
    (let n := Z.to_N (end0 e F) - Z.to_N (start0 s) in
     let kept := concat (takeN n (dropN (Z.to_N (start0 s)) conf)) in
     {| b_fps := fpsw; b_shape := [n; P; T; D]; b_data := concat (takeN n (dropN (Z.to_N (start0 s)) data));
        b_conf := kept; b_mask := map is_zero32 kept |}).
Proof.
  intros F Hdat Hcnf Hlen HD Hv1 Hv2. unfold tail01.
  destruct (Forall_and_inv _ _ Hdat) as [Hdl Hdw]. destruct (Forall_and_inv _ _ Hcnf) as [Hcl Hcw].
  pose proof (start0_nonneg s) as Hs0. pose proof (end0_le e F) as He0.
  set (s0 := start0 s) in *. set (e0 := end0 e F) in *.
  apply RTp_bind with (a := ((e0 - s0)%Z, concat (takeN (Z.to_N e0 - Z.to_N s0) (dropN (Z.to_N s0) data)))).
  { rewrite <- (concat_window data (P * T * D) s0 e0 Hdl) by lia. rewrite (N2Z.inj_mul (P * T) D).
    apply frames_window_rt; [apply Forall_concat, Hdw|lia|lia| |exact Hv1|exact Hv2].
    rewrite (lenN_concat_uniform _ _ Hdl). unfold F. lia. }
  rewrite <- (app_nil_r (flat_map enc_u32 (concat conf))).
  apply RTp_bind with (a := ((e0 - s0)%Z, concat (takeN (Z.to_N e0 - Z.to_N s0) (dropN (Z.to_N s0) conf)))).
  { rewrite <- (concat_window conf (P * T) s0 e0 Hcl) by lia.
    apply frames_window_rt; [apply Forall_concat, Hcw|lia|lia| |exact Hv1|exact Hv2].
    rewrite (lenN_concat_uniform _ _ Hcl), Hlen. unfold F. lia. }
  cbn [fst snd]. unfold mk_body. destruct (Z.leb_spec (Z.of_N D) 0) as [|_]; [lia|]. cbn [plift].
  rewrite Z2N.inj_sub, N2Z.id by lia. apply RTp_ret.
Qed.

Lemma fps_value_eq n : fps_value n = f32_of_u16 n.
Proof. reflexivity. Qed.
Lemma flat_map_enc (ws : list N) : concat (map enc_u32 ws) = flat_map enc_u32 ws.
Proof. symmetry. apply flat_map_concat_map. Qed.

(* the decoder after its two argument checks; [tail01] is what it does once the frame count and the bounds are known *)
Definition body01 (h : header) (sf st ef et : option Z) : prog body :=
  dop ff <- rd_u16x2;
  dop P <- rd_u16;
  let T := total_points h in
  dop D <- plift (num_dims h);
  BytesLeft (fun left =>
  dop F <- plift (py_int_truediv left (Z.of_N P * Z.of_N T * (D + 1) * 4));
  let fps := f32_of_u16 (fst ff) in
  dop s <- plift (resolve_start fps sf st);
  dop e <- plift (resolve_end fps ef et);
  tail01 fps P T D F s e).
Lemma read_v0_1_shape h sf st ef et :
  read_v0_1 h sf st ef et = if conflict sf st || conflict ef et then Fail Value else body01 h sf st ef et.
Proof. destruct sf, st, ef, et; reflexivity. Qed.

Definition frames01 (c : content01) : Z := Z.of_N (lenN (k1_data c)).

Lemma v01_counts c : wf01 c ->
  h_comps (k1_header c) <> [] /\
  num_dims (k1_header c) = Ok (Z.of_N (spec_dims (k1_header c))) /\ 1 <= spec_dims (k1_header c).
Proof.
  intros [_ [_ [_ [_ [_ [_ [HT [HL _]]]]]]]].
  assert (Hne : h_comps (k1_header c) <> []).
  { intros E. unfold spec_points in HT. rewrite E in HT. cbn in HT. lia. }
  split; [exact Hne|]. exact (num_dims_spec _ Hne HL).
Qed.

(* up to the two tensor reads: the frame count is the payload size over the frame size *)
Lemma v01_body_tail c sf st ef et s e o : wf01 c ->
  conflict sf st = false -> conflict ef et = false ->
  resolve_start (fps_value (k1_fps c)) sf st = Ok s -> resolve_end (fps_value (k1_fps c)) ef et = Ok e ->
  Rq (tail01 (fps_value (k1_fps c)) (k1_people c) (spec_points (k1_header c)) (Z.of_N (spec_dims (k1_header c)))
             (frames01 c) s e)
     (flat_map enc_u32 (concat (k1_data c)) ++ flat_map enc_u32 (concat (k1_conf c))) [] o ->
  Rq (read_v0_1 (k1_header c) sf st ef et) (spec_body01 c) [] o.
Proof.
  intros Hwf Hc1 Hc2 Hrs Hre Ht. destruct (v01_counts c Hwf) as [Hne [Hnd HD1]].
  destruct Hwf as [Hh [Hver [Hfps [Hff [HP [HP1 [HT1 [HL [Hlen [HF53 [Hdat Hcnf]]]]]]]]]]].
  set (h := k1_header c) in *. set (P := k1_people c) in *. set (T := spec_points h) in *. set (D := spec_dims h) in *.
  rewrite read_v0_1_shape, Hc1, Hc2. cbn [orb]. unfold spec_body01, body01. fold h P T. rewrite !flat_map_enc.
  set (payload := flat_map enc_u32 (concat (k1_data c)) ++ flat_map enc_u32 (concat (k1_conf c))) in *.
  rewrite app_assoc.
  apply Rq_bind with (a := (k1_fps c, k1_frames_field c)); [apply RTp_Rq; now apply u16x2_rt|].
  apply Rq_bind with (a := P); [apply RTp_Rq; now apply rd_u16_rt|].
  change (total_points h) with T. rewrite Hnd. cbn [plift pbind].
  apply Rq_bytesleft.
  replace (Z.of_N (lenN payload + lenN (@nil N))) with (frames01 c * (Z.of_N P * Z.of_N T * (Z.of_N D + 1) * 4))%Z.
  2:{ unfold payload, frames01. rewrite lenN_app, !lenN_flat_enc_u32.
      rewrite (lenN_concat_uniform _ _ (proj1 (Forall_and_inv _ _ Hdat))), (lenN_concat_uniform _ _ (proj1 (Forall_and_inv _ _ Hcnf))).
      unfold lenN at 3 4. rewrite Hlen. fold (lenN (k1_data c)). clear. cbn [length]. lia. }
  rewrite py_int_truediv_exact; [|unfold frames01; lia|repeat apply Z.mul_pos_pos; lia]. cbn [plift pbind fst].
  change (f32_of_u16 (k1_fps c)) with (fps_value (k1_fps c)). rewrite Hrs, Hre. exact Ht.
Qed.

Definition v01_window_body (c : content01) (s0 e0 : Z) : body := p_body (v01_view c (Z.to_N s0) (Z.to_N e0)).
Theorem v01_body_rt c sf st ef et s e : wf01 c ->
  conflict sf st = false -> conflict ef et = false ->
  resolve_start (fps_value (k1_fps c)) sf st = Ok s -> resolve_end (fps_value (k1_fps c)) ef et = Ok e ->
  (start0 s = 0 \/ start0 s < frames01 c)%Z -> (start0 s <= end0 e (frames01 c))%Z ->
  Rq (read_v0_1 (k1_header c) sf st ef et) (spec_body01 c) [] (Ok (v01_window_body c (start0 s) (end0 e (frames01 c)))).
Proof.
  intros Hwf Hc1 Hc2 Hrs Hre Hv1 Hv2. apply (v01_body_tail c sf st ef et s e _ Hwf Hc1 Hc2 Hrs Hre), RTp_Rq.
  destruct (v01_counts c Hwf) as [_ [_ HD1]].
  destruct Hwf as [_ [_ [_ [_ [_ [_ [_ [_ [Hlen [_ [Hdat Hcnf]]]]]]]]]]].
  apply (tail01_rt _ _ _ _ (k1_data c) (k1_conf c) s e Hdat Hcnf); [unfold lenN; now rewrite Hlen|exact HD1|exact Hv1|exact Hv2].
Qed.

(* a start at or beyond the last frame: ValueError (raised by read_v0_1_frames before the first tensor is read) *)
Theorem v01_body_beyond c sf st ef et s e : wf01 c ->
  conflict sf st = false -> conflict ef et = false ->
  resolve_start (fps_value (k1_fps c)) sf st = Ok s -> resolve_end (fps_value (k1_fps c)) ef et = Ok e ->
  (0 < start0 s)%Z -> (frames01 c <= start0 s)%Z ->
  Rq (read_v0_1 (k1_header c) sf st ef et) (spec_body01 c) [] (Err Value).
Proof.
  intros Hwf Hc1 Hc2 Hrs Hre Hv1 Hv2. apply (v01_body_tail c sf st ef et s e _ Hwf Hc1 Hc2 Hrs Hre).
  unfold tail01. rewrite read_frames_beyond by assumption. apply Rq_fail.
Qed.

Lemma noAdv_read_v0_1 h sf st ef et : noAdv (read_v0_1 h sf st ef et).
Proof.
  rewrite read_v0_1_shape. destruct (conflict sf st || conflict ef et); [exact I|]. unfold body01.
  apply noAdv_bind; [cbn; auto|]. intros ff.
  apply noAdv_bind; [cbn; auto|]. intros P.
  apply noAdv_bind; [apply noAdv_plift|]. intros D.
  cbn [noAdv]. intros z.
  apply noAdv_bind; [apply noAdv_plift|]. intros F.
  apply noAdv_bind; [apply noAdv_plift|]. intros s.
  apply noAdv_bind; [apply noAdv_plift|]. intros e. unfold tail01.
  apply noAdv_bind; [apply v2prog_noAdv, v2prog_read_frames|]. intros dat.
  apply noAdv_bind; [apply v2prog_noAdv, v2prog_read_frames|]. intros cnf.
  apply noAdv_plift.
Qed.

(* the window the arguments denote for this recording, and what makes it one the decoder accepts: the start is the first
   frame or lies inside the recording, and the (clipped) end is not before it *)
Definition window01 (c : content01) (a : rargs) : result (Z * Z) := window_of (fps_value (k1_fps c)) (frames01 c) a.
Definition valid_window (F : Z) (s0 e0 : Z) : Prop := (s0 = 0 \/ s0 < F)%Z /\ (s0 <= e0)%Z.

(* from the bytes and from a stream, the read ends as the body decoder does on the reference body *)
Lemma v01_read c m a o : wf01 c -> MemoOK m ->
  Rq (read_v0_1 (k1_header c) (a_sf a) (a_st a) (a_ef a) (a_et a)) (spec_body01 c) [] o ->
  fst (read_bytes c04_legacy m (spec01 c) a) = rmap (Build_pose (k1_header c)) o /\
  fst (fst (read_stream4 c04_legacy m (spec01 c) a)) = rmap (Build_pose (k1_header c)) o.
Proof.
  intros [Hh [Hver _]] Hm Ho.
  assert (Hb : read_body c04_legacy (k1_header c) a = read_v0_1 (k1_header c) (a_sf a) (a_st a) (a_ef a) (a_et a))
    by (unfold read_body, read_body_with; now rewrite Hver).
  rewrite <- (app_nil_r (spec01 c)). unfold spec01. rewrite <- app_assoc.
  apply (read_spec_ends c04_legacy m _ a _ _ o Hm Hh); rewrite Hb; [left; apply noAdv_read_v0_1|exact Ho].
Qed.

Theorem v01_read_window c m a s0 e0 : wf01 c -> MemoOK m -> window01 c a = Ok (s0, e0) -> valid_window (frames01 c) s0 e0 ->
  fst (read_bytes c04_legacy m (spec01 c) a) = Ok (v01_view c (Z.to_N s0) (Z.to_N e0)) /\
  fst (fst (read_stream4 c04_legacy m (spec01 c) a)) = Ok (v01_view c (Z.to_N s0) (Z.to_N e0)).
Proof.
  intros Hwf Hm Hw [Hv1 Hv2].
  destruct (window_of_inv _ _ _ _ _ Hw) as [Hc1 [Hc2 [s [e [Hrs [Hre [-> ->]]]]]]].
  exact (v01_read c m a _ Hwf Hm (v01_body_rt c _ _ _ _ s e Hwf Hc1 Hc2 Hrs Hre Hv1 Hv2)).
Qed.

Definition v01_expected (c : content01) (a : rargs) : pose :=
  v01_view c (Z.to_N (start0 (a_sf a))) (Z.to_N (end0 (a_ef a) (frames01 c))).
Lemma takeN_all_frames {X} (l : list X) : takeN (lenN l - 0) (dropN 0 l) = l.
Proof. rewrite dropN_0. apply takeN_all. lia. Qed.
Definition v01_full (c : content01) : pose := v01_view c 0 (lenN (k1_data c)).

Theorem v01_read_conflict c m a : wf01 c -> MemoOK m ->
  conflict (a_sf a) (a_st a) || conflict (a_ef a) (a_et a) = true ->
  fst (read_bytes c04_legacy m (spec01 c) a) = Err Value /\ fst (fst (read_stream4 c04_legacy m (spec01 c) a)) = Err Value.
Proof.
  intros Hwf Hm Hc. apply (v01_read c m a (Err Value) Hwf Hm). rewrite read_v0_1_shape, Hc. apply Rq_fail.
Qed.
Theorem v01_read_beyond c m a s0 e0 : wf01 c -> MemoOK m -> window01 c a = Ok (s0, e0) -> (0 < s0)%Z -> (frames01 c <= s0)%Z ->
  fst (read_bytes c04_legacy m (spec01 c) a) = Err Value /\ fst (fst (read_stream4 c04_legacy m (spec01 c) a)) = Err Value.
Proof.
  intros Hwf Hm Hw H0 HF.
  destruct (window_of_inv _ _ _ _ _ Hw) as [Hc1 [Hc2 [s [e [Hrs [Hre [-> ->]]]]]]].
  exact (v01_read c m a _ Hwf Hm (v01_body_beyond c _ _ _ _ s e Hwf Hc1 Hc2 Hrs Hre H0 HF)).
Qed.
