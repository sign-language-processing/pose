(* C13 - reference lookup by format: the indices returned are the positions, in body order, of the named
   points of the first component with the named component. *)
From Coq Require Import List NArith Bool Arith Lia.
Require Import Result C13_Lookup.
Import ListNotations.

Lemma name_eqb_eq a : forall b, name_eqb a b = true <-> a = b.
Proof. induction a as [|x a IH]; intros [|y b]; cbn [name_eqb]; split; intros H; try discriminate; try reflexivity.
  - apply andb_true_iff in H. destruct H as [H1 H2]. apply N.eqb_eq in H1. apply IH in H2. subst. reflexivity.
  - injection H as -> ->. apply andb_true_iff. split; [apply N.eqb_refl|apply IH; reflexivity]. Qed.
Lemma index_of_sound p l : forall j, index_of p l = Some j -> nth_error l j = Some p.
Proof. induction l as [|x l IH]; intros j H; [discriminate|]. cbn [index_of] in H.
  destruct (name_eqb x p) eqn:E.
  - injection H as <-. apply name_eqb_eq in E. subst. reflexivity.
  - destruct (index_of p l) as [k|]; [|discriminate]. injection H as <-. cbn [nth_error]. apply IH. reflexivity. Qed.
(* list.index returns the first occurrence *)
Lemma index_of_first p l : forall j, index_of p l = Some j -> forall i, i < j -> nth_error l i <> Some p.
Proof. induction l as [|x l IH]; intros j H i Hi; [discriminate|]. cbn [index_of] in H.
  destruct (name_eqb x p) eqn:E.
  - injection H as <-. lia.
  - destruct (index_of p l) as [k|] eqn:Ek; [|discriminate]. injection H as <-. destruct i as [|i]; cbn [nth_error].
    + intros E'. injection E' as ->. rewrite (proj2 (name_eqb_eq p p) eq_refl) in E. discriminate.
    + apply (IH k eq_refl). lia. Qed.

Lemma flat_points_cons x r : flat_points (x :: r) = map (fun p => (hc_name x, p)) (hc_points x) ++ flat_points r.
Proof. reflexivity. Qed.

Lemma get_point_index_first h c p : forall idx k, get_point_index h c p idx = Ok k ->
  exists pre x post, h = pre ++ x :: post /\ hc_name x = c /\ (forall y, In y pre -> hc_name y <> c) /\
    exists j, index_of p (hc_points x) = Some j /\ k = idx + length (flat_points pre) + j.
Proof. induction h as [|x r IH]; intros idx k H; [discriminate|]. cbn [get_point_index] in H.
  destruct (name_eqb (hc_name x) c) eqn:E.
  - destruct (index_of p (hc_points x)) as [j|] eqn:Ej; [|discriminate]. injection H as <-.
    exists [], x, r. split; [reflexivity|]. split; [apply name_eqb_eq; exact E|]. split; [intros y []|].
    exists j. split; [exact Ej|]. cbn [flat_points flat_map length]. lia.
  - apply IH in H. destruct H as (pre & x' & post & -> & Hn & Hpre & j & Hj & ->).
    exists (x :: pre), x', post. split; [reflexivity|]. split; [exact Hn|]. split.
    + intros y [<-|Hy]; [|apply Hpre; exact Hy]. intros E'. apply name_eqb_eq in E'. congruence.
    + exists j. split; [exact Hj|]. rewrite flat_points_cons, app_length, map_length. lia. Qed.
(* so, counted from 0, it is the position of (c, p) in body order *)
Lemma gpi_sound h cp k : gpi h cp = Ok k -> nth_error (flat_points h) k = Some cp.
Proof. unfold gpi. intros H. destruct (get_point_index_first _ _ _ _ _ H) as (pre & x & post & -> & Hc & _ & j & Hj & ->).
  unfold flat_points. rewrite flat_map_app. cbn [flat_map Nat.add]. apply index_of_sound in Hj.
  rewrite nth_error_app2 by apply Nat.le_add_r. rewrite Nat.add_comm, Nat.add_sub.
  rewrite nth_error_app1 by (rewrite map_length; apply nth_error_Some; congruence).
  rewrite nth_error_map, Hj, Hc. cbn [option_map]. rewrite <- surjective_pairing. reflexivity. Qed.

Theorem pose_normalization_info_sound h i j : pose_normalization_info h = Ok (i, j) ->
  exists f, detect (map hc_name h) = Ok f /\
    nth_error (flat_points h) i = Some (fst (shoulders f)) /\
    nth_error (flat_points h) j = Some (snd (shoulders f)).
Proof. unfold pose_normalization_info, rbind. intros H.
  destruct (detect (map hc_name h)) as [f|] eqn:Ed; [|discriminate]. exists f. split; [reflexivity|].
  destruct (gpi h (fst (shoulders f))) as [a|] eqn:Ea; [|discriminate].
  destruct (gpi h (snd (shoulders f))) as [b|] eqn:Eb; [|discriminate].
  injection H as <- <-. split; apply gpi_sound; assumption. Qed.

(* the hand references: indices inside the component of that name (header of pose.get_components([name])) *)
Theorem component_3d_info_sound h cname plane line a b c d e :
  component_3d_info h cname plane line = Ok ((a, b, c), (d, e)) ->
  let sub := flat_points (filter (fun x => name_eqb (hc_name x) cname) h) in
  nth_error sub a = Some (cname, fst (fst plane)) /\ nth_error sub b = Some (cname, snd (fst plane)) /\
  nth_error sub c = Some (cname, snd plane) /\ nth_error sub d = Some (cname, fst line) /\ nth_error sub e = Some (cname, snd line).
Proof. unfold component_3d_info, rbind. intros H. cbv zeta.
  set (s := filter (fun x => name_eqb (hc_name x) cname) h) in *.
  destruct (gpi s (cname, fst (fst plane))) as [a'|] eqn:Ea; [|discriminate].
  destruct (gpi s (cname, snd (fst plane))) as [b'|] eqn:Eb; [|discriminate].
  destruct (gpi s (cname, snd plane)) as [c'|] eqn:Ec; [|discriminate].
  destruct (gpi s (cname, fst line)) as [d'|] eqn:Ed; [|discriminate].
  destruct (gpi s (cname, snd line)) as [e'|] eqn:Ee; [|discriminate].
  injection H as <- <- <- <- <-. repeat split; apply gpi_sound; assumption. Qed.

(* non-vacuity: a holistic-shaped header *)
From Coq Require Import String.
Open Scope string_scope.
Definition ex_header : list hcomp :=
  [ {| hc_name := of_string "FACE_LANDMARKS"; hc_points := [of_string "0"; of_string "1"] |};
    {| hc_name := of_string "POSE_LANDMARKS"; hc_points := [of_string "NOSE"; of_string "LEFT_SHOULDER"; of_string "RIGHT_SHOULDER"] |};
    {| hc_name := of_string "RIGHT_HAND_LANDMARKS";
       hc_points := [of_string "WRIST"; of_string "INDEX_FINGER_MCP"; of_string "MIDDLE_FINGER_MCP"; of_string "PINKY_MCP"] |} ].
Example pose_normalization_info_ex : pose_normalization_info ex_header = Ok (4, 3).
Proof. reflexivity. Qed.
Example component_3d_info_ex :
  component_3d_info ex_header (of_string "RIGHT_HAND_LANDMARKS")
    (of_string "WRIST", of_string "PINKY_MCP", of_string "INDEX_FINGER_MCP") (of_string "WRIST", of_string "MIDDLE_FINGER_MCP")
  = Ok ((0, 3, 1), (0, 2)).
Proof. reflexivity. Qed.
