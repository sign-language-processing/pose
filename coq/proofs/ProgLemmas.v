(* General facts about decoder programs and the plain reader: sequencing, reading back an encoding
   ([RTp]), extension of the buffer (prefix determinism), truncation. *)
From Coq Require Import ZArith NArith List Lia ZifyBool ZifyN ZifyNat Bool.
Require Import ListN Result Bytes Prog.
Import ListNotations.
Open Scope N_scope.

Lemma run_plain_bind {A B} (p : prog A) (f : A -> prog B) : forall r,
  run_plain (pbind p f) r =
  match run_plain p r with Ok (a, r') => run_plain (f a) r' | Err e => Err e end.
Proof.
  induction p as [a|n k IH|n k IH|n k IH|k IH|e]; intros r; cbn [pbind run_plain]; try reflexivity.
  - destruct (poff r + n <=? lenN (pbuf r)); [apply IH|reflexivity].
  - apply IH.
  - apply IH.
  - apply IH.
Qed.

Lemma run_plain_buf {A} (p : prog A) : forall r a r', run_plain p r = Ok (a, r') -> pbuf r' = pbuf r.
Proof.
  induction p as [a|n k IH|n k IH|n k IH|k IH|e]; intros r a' r' H; cbn [run_plain] in H.
  - now injection H as _ <-.
  - destruct (poff r + n <=? lenN (pbuf r)); [|discriminate]. now apply IH in H.
  - now apply IH in H.
  - now apply IH in H.
  - now apply IH in H.
  - discriminate.
Qed.

(* [RTp p e a]: wherever the bytes [e] sit in a buffer, running [p] at their start returns [a] and stops
   right after them *)
Definition RTp {A} (p : prog A) (e : bytes) (a : A) : Prop :=
  forall pre post,
    run_plain p {| pbuf := pre ++ e ++ post; poff := lenN pre |} =
    Ok (a, {| pbuf := pre ++ e ++ post; poff := lenN pre + lenN e |}).

Lemma RTp_ret {A} (a : A) : RTp (Ret a) [] a.
Proof. intros pre post. cbn [run_plain app]. unfold lenN at 3. cbn [length]. now rewrite N.add_0_r. Qed.

Lemma RTp_bind {A B} (p : prog A) (f : A -> prog B) e1 e2 a b :
  RTp p e1 a -> RTp (f a) e2 b -> RTp (pbind p f) (e1 ++ e2) b.
Proof.
  intros H1 H2 pre post. rewrite run_plain_bind.
  rewrite <- app_assoc. rewrite (H1 pre (e2 ++ post)).
  specialize (H2 (pre ++ e1) post). rewrite <- !app_assoc in H2. rewrite lenN_app in H2.
  rewrite H2. rewrite lenN_app. f_equal. f_equal. f_equal. lia.
Qed.

Lemma RTp_block {A} n (k : bytes -> prog A) e1 e2 a :
  lenN e1 = n -> RTp (k e1) e2 a -> RTp (Block n k) (e1 ++ e2) a.
Proof.
  intros Hn H pre post. cbn [run_plain pbuf poff].
  destruct (N.leb_spec (lenN pre + n) (lenN (pre ++ (e1 ++ e2) ++ post))) as [_|Hlt];
    [|rewrite !lenN_app in Hlt; lia].
  rewrite <- Hn. rewrite <- app_assoc. rewrite take_mid.
  specialize (H (pre ++ e1) post). rewrite <- !app_assoc in H. rewrite lenN_app in H.
  rewrite H. rewrite lenN_app. f_equal. f_equal. f_equal. lia.
Qed.

Lemma RTp_skip {A} n (k : prog A) e1 e2 a : lenN e1 = n -> RTp k e2 a -> RTp (Skip n k) (e1 ++ e2) a.
Proof.
  intros Hn H pre post. cbn [run_plain pbuf poff].
  specialize (H (pre ++ e1) post). rewrite <- !app_assoc in H. rewrite lenN_app in H.
  rewrite <- app_assoc. rewrite <- Hn. rewrite H. rewrite lenN_app. f_equal. f_equal. f_equal. lia.
Qed.
(* the plain reader runs [Adv] as it runs [Skip] *)
Lemma RTp_adv {A} n (k : prog A) e1 e2 a : lenN e1 = n -> RTp k e2 a -> RTp (Adv n k) (e1 ++ e2) a.
Proof. exact (RTp_skip n k e1 e2 a). Qed.

Lemma RTp_block_val {A} n (g : bytes -> A) e a : lenN e = n -> g e = a -> RTp (Block n (fun b => Ret (g b))) e a.
Proof. intros Hn <-. rewrite <- (app_nil_r e) at 1. apply RTp_block; [exact Hn|apply RTp_ret]. Qed.

Lemma RTp_prep {A} (p : prog A) (es : list bytes) (xs : list A) :
  Forall2 (fun e x => RTp p e x) es xs -> RTp (prep (length xs) p) (concat es) xs.
Proof.
  induction 1 as [|e x es xs Hex _ IH]; cbn [prep length concat]; [apply RTp_ret|].
  apply RTp_bind with (a := x); [exact Hex|].
  rewrite <- (app_nil_r (concat es)). apply RTp_bind with (a := xs); [exact IH|apply RTp_ret].
Qed.

Lemma RTp_prep_map {X A} (w : X -> result bytes) (p : prog A) (g : X -> A) xs es :
  (forall x e, w x = Ok e -> RTp p e (g x)) -> Forall2 (fun x e => w x = Ok e) xs es ->
  RTp (prep (length xs) p) (concat es) (map g xs).
Proof.
  intros Hw HF. rewrite <- (map_length g). apply RTp_prep.
  induction HF as [|x e xs es Hx _ IH]; cbn [map]; constructor; [now apply Hw|exact IH].
Qed.

Lemma RTp_start {A} (p : prog A) e a post : RTp p e a ->
  run_plain p {| pbuf := e ++ post; poff := 0 |} = Ok (a, {| pbuf := e ++ post; poff := lenN e |}).
Proof. intros H. exact (H [] post). Qed.
Lemma RTp_run {A} (p : prog A) e a : RTp p e a ->
  run_plain p {| pbuf := e; poff := 0 |} = Ok (a, {| pbuf := e; poff := lenN e |}).
Proof. intros H. apply (RTp_start p e a []) in H. now rewrite app_nil_r in H. Qed.

(* extension of the buffer (prefix determinism): programs that never ask bytes_left() *)
Fixpoint noBL {A} (p : prog A) : Prop :=
  match p with
  | Block _ k => forall b, noBL (k b)
  | Skip _ k | Adv _ k => noBL k
  | BytesLeft _ => False
  | _ => True
  end.

Lemma run_plain_ext {A} (p : prog A) : noBL p -> forall b x o a o',
  run_plain p {| pbuf := b; poff := o |} = Ok (a, {| pbuf := b; poff := o' |}) ->
  run_plain p {| pbuf := b ++ x; poff := o |} = Ok (a, {| pbuf := b ++ x; poff := o' |}).
Proof.
  induction p as [a|n k IH|n k IH|n k IH|k IH|e]; intros Hn b x o a' o' H; cbn [run_plain pbuf poff noBL] in *.
  - injection H as <- <-. reflexivity.
  - destruct (N.leb_spec (o + n) (lenN b)) as [Hfit|]; [|discriminate].
    destruct (N.leb_spec (o + n) (lenN (b ++ x))) as [_|Hlt]; [|rewrite lenN_app in Hlt; lia].
    assert (E : takeN n (dropN o (b ++ x)) = takeN n (dropN o b)).
    { rewrite dropN_app_le by lia. apply takeN_app_le. rewrite lenN_dropN. lia. }
    rewrite E. apply IH; [apply Hn|exact H].
  - apply IH; assumption.
  - apply IH; assumption.
  - contradiction.
  - discriminate.
Qed.

(* programs made of Ret / Block / Fail alone: no seek, no advance(), no bytes_left() (the header decoder, a full
   body read); such a run only moves forward and looks at nothing beyond where it stops *)
Fixpoint noSkip {A} (p : prog A) : Prop :=
  match p with
  | Block _ k => forall b, noSkip (k b)
  | Skip _ _ | Adv _ _ | BytesLeft _ => False
  | _ => True
  end.
Lemma noSkip_bind {A B} (p : prog A) (f : A -> prog B) : noSkip p -> (forall a, noSkip (f a)) -> noSkip (pbind p f).
Proof. induction p as [a|n k IH|n k IH|n k IH|k IH|e]; cbn [pbind noSkip]; intros Hp Hf; auto; try contradiction. Qed.
Lemma noSkip_prep {A} n (p : prog A) : noSkip p -> noSkip (prep n p).
Proof. intros Hp. induction n as [|n IH]; cbn [prep]; [exact I|].
  apply noSkip_bind; [exact Hp|]. intros a. apply noSkip_bind; [exact IH|]. intros l. exact I. Qed.

Lemma noSkip_noBL {A} (p : prog A) : noSkip p -> noBL p.
Proof. induction p as [a|n k IH|n k IH|n k IH|k IH|e]; cbn [noSkip noBL]; intros H; auto; contradiction. Qed.

Lemma run_plain_mono {A} (p : prog A) : noSkip p -> forall b o a o',
  run_plain p {| pbuf := b; poff := o |} = Ok (a, {| pbuf := b; poff := o' |}) -> o <= o'.
Proof.
  induction p as [a|n k IH|n k IH|n k IH|k IH|e]; intros Hn b o a' o' H; cbn [run_plain pbuf poff noSkip] in *;
    try contradiction.
  - injection H as _ <-. lia.
  - destruct (N.leb_spec (o + n) (lenN b)); [|discriminate]. apply IH in H; [lia|apply Hn].
  - discriminate.
Qed.
Lemma run_plain_bound {A} (p : prog A) : noSkip p -> forall b o a o',
  run_plain p {| pbuf := b; poff := o |} = Ok (a, {| pbuf := b; poff := o' |}) -> o <= lenN b -> o' <= lenN b.
Proof.
  induction p as [a|n k IH|n k IH|n k IH|k IH|e]; intros Hn b o a' o' H Ho; cbn [run_plain pbuf poff noSkip] in *;
    try contradiction.
  - injection H as _ <-. lia.
  - destruct (N.leb_spec (o + n) (lenN b)); [|discriminate]. apply IH in H; [lia|apply Hn|lia].
  - discriminate.
Qed.
Lemma run_plain_restrict {A} (p : prog A) : noSkip p -> forall b o a o',
  run_plain p {| pbuf := b; poff := o |} = Ok (a, {| pbuf := b; poff := o' |}) ->
  run_plain p {| pbuf := takeN o' b; poff := o |} = Ok (a, {| pbuf := takeN o' b; poff := o' |}).
Proof.
  induction p as [a|n k IH|n k IH|n k IH|k IH|e]; intros Hn b o a' o' H; cbn [run_plain pbuf poff noSkip] in *;
    try contradiction.
  - injection H as <- <-. reflexivity.
  - destruct (N.leb_spec (o + n) (lenN b)) as [Hfit|]; [|discriminate].
    pose proof (run_plain_mono _ (Hn _) _ _ _ _ H) as Hmono.
    destruct (N.leb_spec (o + n) (lenN (takeN o' b))) as [_|Hlt]; [|rewrite lenN_takeN in Hlt; lia].
    assert (E : takeN n (dropN o (takeN o' b)) = takeN n (dropN o b)).
    { rewrite dropN_takeN. apply takeN_takeN_le. lia. }
    rewrite E. apply IH; [apply Hn|exact H].
  - discriminate.
Qed.

(* truncation: a run that ended beyond the prefix [q] cannot succeed on [q] alone - it would stop inside [q],
   and by extension stop at the same place on [q ++ s] *)
Lemma run_plain_trunc {A} (p : prog A) : noSkip p -> forall q s o a o',
  run_plain p {| pbuf := q ++ s; poff := o |} = Ok (a, {| pbuf := q ++ s; poff := o' |}) ->
  o <= lenN q -> lenN q < o' ->
  exists e, run_plain p {| pbuf := q; poff := o |} = Err e.
Proof.
  intros Hn q s o a o' H Ho Ho'.
  destruct (run_plain p {| pbuf := q; poff := o |}) as [[a1 [b1 o1]]|e] eqn:E; [exfalso|now exists e].
  pose proof (run_plain_buf _ _ _ _ E) as Hb. cbn [pbuf] in Hb. subst b1.
  pose proof (run_plain_bound _ Hn _ _ _ _ E Ho) as Hle.
  apply (run_plain_ext _ (noSkip_noBL _ Hn) q s) in E. rewrite E in H. injection H as _ <-. lia.
Qed.
