(* Round trip of the v0.2 codec: what write_pose emits, the plain reader decodes to [canon]. *)
From Coq Require Import ZArith NArith List Lia ZifyBool ZifyN ZifyNat Bool.
Require Import ListN Result Bytes Utf8S F32 Prog Codec ProgLemmas.
Require Export ResultFacts.
Import ListNotations.
Open Scope N_scope.

Definition canon_comp (c : wcomponent) : component :=
  {| c_name := wc_name c; c_format := wc_format c; c_points := wc_points c;
     c_limbs := map (fun l => (Z.to_N (fst l), Z.to_N (snd l))) (wc_limbs c);
     c_colors := map (fun k => (Z.to_N (fst (fst k)), Z.to_N (snd (fst k)), Z.to_N (snd k))) (wc_colors c) |}.
Definition canon_header (p : wpose) : header :=
  let '(w, h, d) := w_dims p in
  {| h_version := version_word; h_dims := (Z.to_N w, Z.to_N h, Z.to_N d); h_comps := map canon_comp (w_comps p) |}.
(* [b_fps]: the [None] arm is not reached once write_pose has succeeded (write_body_inv); 0 makes [canon] total *)
Definition canon_body (p : wpose) : body :=
  {| b_fps := match pack_f32 (w_fps p) with Some v => v | None => 0 end;
     b_shape := w_shape p;
     b_data := map f64_to_f32 (w_data p);
     b_conf := map f64_to_f32 (w_conf p);
     b_mask := map is_zero32 (map f64_to_f32 (w_conf p)) |}.
Definition canon (p : wpose) : pose := {| p_header := canon_header p; p_body := canon_body p |}.

Lemma concat_r_cons r rest e : concat_r (r :: rest) = Ok e ->
  exists a b, r = Ok a /\ concat_r rest = Ok b /\ e = a ++ b.
Proof. cbn [concat_r]. intros H. apply rbind_ok in H. destruct H as [a [Ha H]].
  apply rbind_ok in H. destruct H as [b [Hb H]]. injection H as <-. eauto. Qed.
Lemma concat_r_app_eq l1 l2 : concat_r (l1 ++ l2) = do a <- concat_r l1; do b <- concat_r l2; Ok (a ++ b).
Proof.
  induction l1 as [|r l1 IH]; cbn [app concat_r rbind].
  - now destruct (concat_r l2).
  - destruct r as [x|]; [|reflexivity]. cbn [rbind]. rewrite IH. destruct (concat_r l1) as [a|]; [|reflexivity].
    cbn [rbind]. destruct (concat_r l2) as [b|]; [|reflexivity]. cbn [rbind]. now rewrite app_assoc.
Qed.
Lemma concat_r_app l1 : forall l2 e, concat_r (l1 ++ l2) = Ok e ->
  exists a b, concat_r l1 = Ok a /\ concat_r l2 = Ok b /\ e = a ++ b.
Proof.
  intros l2 e H. rewrite concat_r_app_eq in H. apply rbind_ok in H. destruct H as [a [Ha H]].
  apply rbind_ok in H. destruct H as [b [Hb H]]. injection H as <-. eauto.
Qed.
Lemma concat_r_map {X} (f : X -> result bytes) xs : forall e, concat_r (map f xs) = Ok e ->
  exists es, Forall2 (fun x e' => f x = Ok e') xs es /\ e = concat es.
Proof.
  induction xs as [|x xs IH]; intros e H; cbn [map] in H.
  - cbn in H. injection H as <-. exists []. split; [constructor|reflexivity].
  - apply concat_r_cons in H. destruct H as [a [b [Ha [Hb ->]]]].
    destruct (IH _ Hb) as [es [HF ->]]. exists (a :: es). split; [constructor; assumption|reflexivity].
Qed.

Lemma rd_u16_rt n : n < 65536 -> RTp rd_u16 (enc_u16 n) n.
Proof. intros Hn. apply RTp_block_val; [reflexivity|]. rewrite <- (app_nil_r (enc_u16 n)). now apply u16_rt. Qed.
Lemma rd_u32_rt n : n < 4294967296 -> RTp rd_u32 (enc_u32 n) n.
Proof. intros Hn. apply RTp_block_val; [reflexivity|]. rewrite <- (app_nil_r (enc_u32 n)). now apply u32_rt. Qed.

Lemma write_str_ok s e : write_str s = Ok e ->
  exists b, enc_utf8 s = Some b /\ lenN b < 65536 /\ e = enc_u16 (lenN b) ++ b.
Proof. unfold write_str. destruct (enc_utf8 s) as [b|]; [|discriminate].
  destruct (N.ltb_spec (lenN b) 65536); [|discriminate]. intros [= <-]. eauto. Qed.
Lemma rd_str_rt s e : write_str s = Ok e -> RTp rd_str e s.
Proof.
  intros H. apply write_str_ok in H. destruct H as [b [Hb [Hl ->]]]. unfold rd_str.
  apply RTp_bind with (a := lenN b); [now apply rd_u16_rt|].
  rewrite <- (app_nil_r b) at 2. apply RTp_block; [reflexivity|].
  rewrite (dec_enc_utf8 _ _ Hb). apply RTp_ret.
Qed.

Lemma pack_u16s_ok l e : pack_u16s l = Ok e ->
  Forall (fun z => Z.to_N z < 65536) l /\ e = flat_map (fun z => enc_u16 (Z.to_N z)) l.
Proof. unfold pack_u16s. destruct (forallb u16_ok l) eqn:H; [|discriminate]. intros [= <-]. split; [|reflexivity].
  apply Forall_forall. intros z Hz. rewrite forallb_forall in H. apply H in Hz. unfold u16_ok in Hz. lia. Qed.

Lemma dec_u16_app a b r : a < 256 -> b < 256 -> dec_u16 (a :: b :: r) = a + 256 * b.
Proof. reflexivity. Qed.
Lemma drop2_enc_u16 n r : dropN 2 (enc_u16 n ++ r) = r.
Proof. destruct r; reflexivity. Qed.
Lemma drop4_enc_u32 n r : dropN 4 (enc_u32 n ++ r) = r.
Proof. destruct r; reflexivity. Qed.

Lemma rd_u16x3_rt a b c e : pack_u16s [a; b; c] = Ok e -> RTp rd_u16x3 e (Z.to_N a, Z.to_N b, Z.to_N c).
Proof.
  intros H. apply pack_u16s_ok in H. destruct H as [HF ->].
  inversion HF as [|? ? Ha HF1]; subst. inversion HF1 as [|? ? Hb HF2]; subst. inversion HF2 as [|? ? Hc _]; subst.
  cbn [flat_map]. apply RTp_block_val; [reflexivity|].
  change (dropN 4 (enc_u16 (Z.to_N a) ++ ?r)) with (dropN 2 r).
  now rewrite !drop2_enc_u16, !u16_rt.
Qed.
Lemma rd_u16x2_rt a b e : pack_u16s [a; b] = Ok e -> RTp rd_u16x2 e (Z.to_N a, Z.to_N b).
Proof.
  intros H. apply pack_u16s_ok in H. destruct H as [HF ->].
  inversion HF as [|? ? Ha HF1]; subst. inversion HF1 as [|? ? Hb _]; subst.
  cbn [flat_map]. apply RTp_block_val; [reflexivity|]. now rewrite drop2_enc_u16, !u16_rt.
Qed.

Lemma words16_enc l : forall r, Forall (fun n => n < 65536) l ->
  words16 (length l) (flat_map enc_u16 l ++ r) = l.
Proof. induction l as [|n l IH]; intros r H; cbn [length words16 flat_map]; [reflexivity|].
  inversion H; subst. rewrite <- app_assoc. rewrite u16_rt by assumption. rewrite drop2_enc_u16.
  f_equal. now apply IH. Qed.
Lemma words32_enc l : forall r, Forall (fun n => n < 4294967296) l ->
  words32 (length l) (flat_map enc_u32 l ++ r) = l.
Proof. induction l as [|n l IH]; intros r H; cbn [length words32 flat_map]; [reflexivity|].
  inversion H; subst. rewrite <- app_assoc. rewrite u32_rt by assumption. rewrite drop4_enc_u32.
  f_equal. now apply IH. Qed.
Lemma lenN_flat_enc_u32 l : lenN (flat_map enc_u32 l) = 4 * lenN l.
Proof. induction l as [|n l IH]; [reflexivity|]. cbn [flat_map]. rewrite lenN_app, IH, enc_u32_len. unfold lenN. cbn [length]. lia. Qed.
Lemma lenN_flat_enc_u16 l : lenN (flat_map enc_u16 l) = 2 * lenN l.
Proof. induction l as [|n l IH]; [reflexivity|]. cbn [flat_map]. rewrite lenN_app, IH, enc_u16_len. unfold lenN. cbn [length]. lia. Qed.

Definition flat3 (ks : list (N * N * N)) : list N := flat_map (fun k => [fst (fst k); snd (fst k); snd k]) ks.
Lemma triples_flat3 ks : triples (flat3 ks) = ks.
Proof. induction ks as [|[[a b] c] ks IH]; [reflexivity|]. cbn [flat3 flat_map app fst snd triples]. f_equal. exact IH. Qed.
Lemma length_flat3 ks : length (flat3 ks) = (3 * length ks)%nat.
Proof. induction ks as [|k ks IH]; [reflexivity|]. unfold flat3 in *. cbn [flat_map]. rewrite app_length, IH. cbn [length]. lia. Qed.

(* the two conversions inside [canon_comp], named so that [map limbN] can be given as the value read; convertible
   with the lambdas written there *)
Definition colorN (k : Z * Z * Z) : N * N * N := (Z.to_N (fst (fst k)), Z.to_N (snd (fst k)), Z.to_N (snd k)).
Definition limbN (l : Z * Z) : N * N := (Z.to_N (fst l), Z.to_N (snd l)).

Lemma colors_enc (cols : list (Z * Z * Z)) es :
  Forall2 (fun k e' => pack_u16s [fst (fst k); snd (fst k); snd k] = Ok e') cols es ->
  concat es = flat_map enc_u16 (flat3 (map colorN cols)) /\ Forall (fun n => n < 65536) (flat3 (map colorN cols)).
Proof.
  induction 1 as [|k e' cols es Hk _ [IH1 IH2]]; [split; [reflexivity|constructor]|].
  apply pack_u16s_ok in Hk. destruct Hk as [HF ->].
  inversion HF as [|? ? Ha HF1]; subst. inversion HF1 as [|? ? Hb HF2]; subst. inversion HF2 as [|? ? Hc _]; subst.
  cbn [concat map flat3 flat_map colorN fst snd app]. fold (flat3 (map colorN cols)).
  split.
  - rewrite IH1. cbn [flat_map app]. rewrite app_nil_r. rewrite <- !app_assoc. reflexivity.
  - repeat (constructor; [assumption|]). exact IH2.
Qed.

Lemma write_component_inv c e : write_component c = Ok e ->
  exists e1 e2 e3 es4 es5 es6,
    write_str (wc_name c) = Ok e1 /\ write_str (wc_format c) = Ok e2 /\
    pack_u16s [Z.of_N (lenN (wc_points c)); Z.of_N (lenN (wc_limbs c)); Z.of_N (lenN (wc_colors c))] = Ok e3 /\
    Forall2 (fun s e' => write_str s = Ok e') (wc_points c) es4 /\
    Forall2 (fun l e' => pack_u16s [fst l; snd l] = Ok e') (wc_limbs c) es5 /\
    Forall2 (fun k e' => pack_u16s [fst (fst k); snd (fst k); snd k] = Ok e') (wc_colors c) es6 /\
    e = e1 ++ e2 ++ e3 ++ concat es4 ++ concat es5 ++ concat es6.
Proof.
  unfold write_component. cbn [app]. intros H.
  apply concat_r_cons in H. destruct H as [e1 [r1 [H1 [H ->]]]].
  apply concat_r_cons in H. destruct H as [e2 [r2 [H2 [H ->]]]].
  apply concat_r_cons in H. destruct H as [e3 [r3 [H3 [H ->]]]].
  apply concat_r_app in H. destruct H as [e4 [r4 [H4 [H ->]]]].
  apply concat_r_app in H. destruct H as [e5 [e6 [H5 [H6 ->]]]].
  apply concat_r_map in H4. destruct H4 as [es4 [HF4 ->]].
  apply concat_r_map in H5. destruct H5 as [es5 [HF5 ->]].
  apply concat_r_map in H6. destruct H6 as [es6 [HF6 ->]].
  exists e1, e2, e3, es4, es5, es6. repeat (split; [assumption|]). reflexivity.
Qed.

Lemma rd_component_rt c e : write_component c = Ok e -> RTp rd_component e (canon_comp c).
Proof.
  intros H. destruct (write_component_inv c e H) as [e1 [e2 [e3 [es4 [es5 [es6 [H1 [H2 [H3 [HF4 [HF5 [HF6 ->]]]]]]]]]]]].
  unfold rd_component.
  apply RTp_bind with (a := wc_name c); [now apply rd_str_rt|].
  apply RTp_bind with (a := wc_format c); [now apply rd_str_rt|].
  apply RTp_bind with (a := (Z.to_N (Z.of_N (lenN (wc_points c))), Z.to_N (Z.of_N (lenN (wc_limbs c))),
                             Z.to_N (Z.of_N (lenN (wc_colors c))))); [now apply rd_u16x3_rt|].
  rewrite !ZN_lenN. cbv iota beta.
  apply RTp_bind with (a := wc_points c).
  { rewrite to_nat_lenN. rewrite <- (map_id (wc_points c)) at 2. exact (RTp_prep_map _ _ _ _ _ rd_str_rt HF4). }
  apply RTp_bind with (a := map limbN (wc_limbs c)).
  { rewrite to_nat_lenN. exact (RTp_prep_map _ _ limbN _ _ (fun l => rd_u16x2_rt (fst l) (snd l)) HF5). }
  destruct (colors_enc _ _ HF6) as [Hc Hlt].
  rewrite <- (app_nil_r (concat es6)).
  apply RTp_bind with (a := map colorN (wc_colors c)); [|apply RTp_ret].
  rewrite Hc. apply RTp_block_val.
  - rewrite lenN_flat_enc_u16. unfold lenN. rewrite length_flat3, map_length. lia.
  - replace (N.to_nat (3 * lenN (wc_colors c))) with (length (flat3 (map colorN (wc_colors c))))
      by (rewrite length_flat3, map_length; unfold lenN; lia).
    rewrite <- (app_nil_r (flat_map enc_u16 _)), words16_enc by exact Hlt. apply triples_flat3.
Qed.

Lemma version_word_lt : version_word < 4294967296.
Proof. reflexivity. Qed.

Lemma write_header_inv dims comps e : write_header dims comps = Ok e ->
  exists e2 e3 es,
    pack_u16s [fst (fst dims); snd (fst dims); snd dims] = Ok e2 /\ pack_u16s [Z.of_N (lenN comps)] = Ok e3 /\
    Forall2 (fun c e' => write_component c = Ok e') comps es /\
    e = enc_u32 version_word ++ e2 ++ e3 ++ concat es.
Proof.
  unfold write_header. cbn [app]. intros H.
  apply concat_r_cons in H. destruct H as [e1 [r1 [H1 [H ->]]]]. injection H1 as <-.
  apply concat_r_cons in H. destruct H as [e2 [r2 [H2 [H ->]]]].
  apply concat_r_cons in H. destruct H as [e3 [r3 [H3 [H ->]]]].
  apply concat_r_map in H. destruct H as [es [HF ->]].
  destruct dims as [[w h] d]. unfold write_dims in H2. destruct (u16_ok w && u16_ok h && u16_ok d); [|discriminate].
  exists e2, e3, es. repeat (split; [assumption|]). reflexivity.
Qed.

Lemma rd_header_rt dims comps e : write_header dims comps = Ok e ->
  RTp rd_header e {| h_version := version_word;
                     h_dims := (Z.to_N (fst (fst dims)), Z.to_N (snd (fst dims)), Z.to_N (snd dims));
                     h_comps := map canon_comp comps |}.
Proof.
  intros H. destruct (write_header_inv dims comps e H) as [e2 [e3 [es [H2 [H3 [HF ->]]]]]].
  unfold rd_header.
  apply RTp_bind with (a := version_word); [apply rd_u32_rt, version_word_lt|].
  apply RTp_bind with (a := (Z.to_N (fst (fst dims)), Z.to_N (snd (fst dims)), Z.to_N (snd dims))); [now apply rd_u16x3_rt|].
  apply pack_u16s_ok in H3. destruct H3 as [HF3 ->]. inversion HF3 as [|? ? Hn _]; subst.
  cbn [flat_map]. rewrite app_nil_r. rewrite ZN_lenN in *.
  apply RTp_bind with (a := lenN comps); [now apply rd_u16_rt|].
  rewrite <- (app_nil_r (concat es)).
  apply RTp_bind with (a := map canon_comp comps); [|apply RTp_ret].
  rewrite to_nat_lenN. exact (RTp_prep_map _ _ _ _ _ rd_component_rt HF).
Qed.

Definition wf_arrays (p : wpose) : Prop :=
  lenN (w_data p) = prodN (w_shape p) /\ lenN (w_conf p) = prodN (w_cshape p).

Lemma flat_map_map {X Y Z} (g : X -> Y) (f : Y -> list Z) l : flat_map f (map g l) = flat_map (fun x => f (g x)) l.
Proof. induction l as [|x l IH]; [reflexivity|]. cbn [map flat_map]. now rewrite IH. Qed.

(* the block of [f] frames that both frame readers are built around *)
Lemma words_block_rt ws (f cells : Z) :
  Forall (fun n => n < 4294967296) ws -> Z.of_N (lenN ws) = (f * cells)%Z ->
  RTp (zblock (4 * f * cells) (fun b => Ret (words32 (Z.to_nat (f * cells)) b))) (flat_map enc_u32 ws) ws.
Proof.
  intros Hlt Hlen. unfold zblock. destruct (Z.ltb_spec (4 * f * cells) 0) as [|_]; [lia|].
  apply RTp_block_val; [rewrite lenN_flat_enc_u32; lia|].
  replace (Z.to_nat (f * cells)) with (length ws) by (unfold lenN in Hlen; lia).
  rewrite <- (app_nil_r (flat_map enc_u32 ws)). now apply words32_enc.
Qed.
Lemma frames_block_rt (ws : list N) (frames cells : Z) :
  Forall (fun n => n < 4294967296) ws ->
  (0 <= frames)%Z -> (0 <= cells)%Z -> Z.of_N (lenN ws) = (frames * cells)%Z ->
  RTp (read_frames frames cells None None) (flat_map enc_u32 ws) (frames, ws).
Proof.
  intros Hlt Hf Hc Hlen. unfold read_frames. cbn [andb]. cbv iota beta.
  rewrite <- (app_nil_r (flat_map enc_u32 ws)).
  apply RTp_bind with (a := ws); [now apply words_block_rt|apply RTp_ret].
Qed.

Lemma num_dims_canon p : num_dims (canon_header p) = num_dims_of (map wc_format (w_comps p)).
Proof. unfold num_dims, canon_header. destruct (w_dims p) as [[w h] d]. cbn [h_comps]. now rewrite map_map. Qed.
Lemma total_points_canon p : total_points (canon_header p) = total_points_w (w_comps p).
Proof. unfold total_points, total_points_w, canon_header. destruct (w_dims p) as [[w h] d]. cbn [h_comps]. now rewrite map_map. Qed.

Lemma eq_shape_ok a b : eq_shape a b = true -> a = b.
Proof.
  unfold eq_shape. rewrite andb_true_iff. intros [Hl Hf]. apply Nat.eqb_eq in Hl.
  revert b Hl Hf. induction a as [|x a IH]; intros [|y b] Hl Hf; try discriminate; [reflexivity|].
  cbn [combine forallb fst snd] in Hf. apply andb_true_iff in Hf. destruct Hf as [Hxy Hf].
  apply N.eqb_eq in Hxy. subst. f_equal. apply IH; [now injection Hl|exact Hf].
Qed.

Lemma words_lt (l : list N) : Forall (fun n => n < 4294967296) (map f64_to_f32 l).
Proof. apply Forall_forall. intros n Hn. apply in_map_iff in Hn. destruct Hn as [w [<- _]]. apply f64_to_f32_lt. Qed.

Lemma read_v0_2_rt h fps F P D data conf :
  num_dims h = Ok (Z.of_N D) -> 1 <= D -> fps < 4294967296 -> F < 4294967296 -> P < 65536 ->
  Forall (fun n => n < 4294967296) data -> Forall (fun n => n < 4294967296) conf ->
  lenN data = F * (P * (total_points h * D)) -> lenN conf = F * (P * total_points h) ->
  RTp (read_v0_2 h None None None None)
      (enc_u32 fps ++ enc_u32 F ++ enc_u16 P ++ flat_map enc_u32 data ++ flat_map enc_u32 conf)
      {| b_fps := fps; b_shape := [F; P; total_points h; D]; b_data := data; b_conf := conf;
         b_mask := map is_zero32 conf |}.
Proof.
  intros Hnd HD Hfps HF HP Hdw Hcw Hld Hlc. unfold read_v0_2.
  apply RTp_bind with (a := fps); [now apply rd_u32_rt|].
  apply RTp_bind with (a := F); [now apply rd_u32_rt|].
  apply RTp_bind with (a := P); [now apply rd_u16_rt|].
  rewrite Hnd. cbn [plift pbind rmap].
  apply RTp_bind with (a := (Z.of_N F, data)); [apply frames_block_rt; [exact Hdw|lia|lia|rewrite Hld; lia]|].
  rewrite <- (app_nil_r (flat_map enc_u32 conf)).
  apply RTp_bind with (a := (Z.of_N F, conf)); [apply frames_block_rt; [exact Hcw|lia|lia|rewrite Hlc; lia]|].
  cbn [fst snd]. unfold mk_body. destruct (Z.leb_spec (Z.of_N D) 0) as [|_]; [lia|]. cbn [plift].
  rewrite !N2Z.id. apply RTp_ret.
Qed.

Lemma write_body_inv p e F P T D : w_shape p = [F; P; T; D] -> write_body p = Ok e ->
  exists fw, pack_f32 (w_fps p) = Some fw /\ F < 4294967296 /\ P < 65536 /\
    e = enc_u32 fw ++ enc_u32 F ++ enc_u16 P ++
        flat_map enc_u32 (map f64_to_f32 (w_data p)) ++ flat_map enc_u32 (map f64_to_f32 (w_conf p)).
Proof.
  intros Hs H. unfold write_body in H. rewrite Hs in H.
  destruct (N.ltb_spec 4294967295 F) as [|HF]; [discriminate|].
  destruct (pack_f32 (w_fps p)) as [fw|]; [|discriminate].
  destruct (N.ltb_spec 65535 P) as [|HP]; [discriminate|]. apply Ok_inj in H. subst e.
  exists fw. rewrite !flat_map_map. split; [reflexivity|]. split; [lia|]. split; [lia|]. reflexivity.
Qed.

Theorem read_body_rt p e F P T D :
  w_shape p = [F; P; T; D] -> w_cshape p = [F; P; T] -> wf_arrays p ->
  num_dims_of (map wc_format (w_comps p)) = Ok (Z.of_N D) -> total_points_w (w_comps p) = T -> 1 <= D ->
  write_body p = Ok e ->
  RTp (read_v0_2 (canon_header p) None None None None) e (canon_body p).
Proof.
  intros Hs Hcs [Hld Hlc] Hnd Htp HD H.
  destruct (write_body_inv p e F P T D Hs H) as [fw [Hfps [HF [HP ->]]]].
  rewrite Hs in Hld. rewrite Hcs in Hlc. cbn [prodN fold_right] in Hld, Hlc.
  rewrite <- num_dims_canon in Hnd. rewrite <- total_points_canon in Htp. subst T.
  unfold canon_body. rewrite Hfps, Hs.
  apply read_v0_2_rt;
    [exact Hnd|exact HD|now apply pack_f32_lt in Hfps|exact HF|exact HP|apply words_lt|apply words_lt| | ];
    unfold lenN in *; rewrite map_length; lia.
Qed.

Definition full_read_prog : prog pose :=
  dop h <- rd_header;
  dop b <- read_v0_2 h None None None None;
  Ret {| p_header := h; p_body := b |}.

Lemma write_pose_ok p bs : write_pose p = Ok bs ->
  exists F P T D h b,
    w_shape p = [F; P; T; D] /\ w_cshape p = [F; P; T] /\
    num_dims_of (map wc_format (w_comps p)) = Ok (Z.of_N D) /\ total_points_w (w_comps p) = T /\
    write_header (w_dims p) (w_comps p) = Ok h /\ write_body p = Ok b /\ bs = h ++ b.
Proof.
  unfold write_pose. destruct (w_shape p) as [|F [|P [|T [|D [|? ?]]]]] eqn:Hs; try discriminate.
  intros H. apply rbind_ok in H. destruct H as [hd [Hnd H]].
  destruct (Z.eqb_spec hd (Z.of_N D)) as [->|]; [|discriminate]. cbn [negb] in H.
  destruct (N.eqb_spec (total_points_w (w_comps p)) T) as [Htp|]; [|discriminate]. cbn [negb] in H.
  destruct (eq_shape (w_cshape p) [F; P; T]) eqn:Hcs; [|discriminate]. cbn [negb] in H.
  apply eq_shape_ok in Hcs.
  apply rbind_ok in H. destruct H as [h [Hh H]]. apply rbind_ok in H. destruct H as [b [Hb H]].
  apply Ok_inj in H. subst bs. exists F, P, T, D, h, b. repeat split; try assumption; reflexivity.
Qed.

Theorem full_read_rt p bs : write_pose p = Ok bs -> wf_arrays p -> 1 <= nth 3 (w_shape p) 0 ->
  RTp full_read_prog bs (canon p).
Proof.
  intros H Hwf HD. destruct (write_pose_ok _ _ H) as [F [P [T [D [h [b [Hs [Hcs [Hnd [Htp [Hh [Hb ->]]]]]]]]]]]].
  rewrite Hs in HD. cbn [nth] in HD. unfold full_read_prog.
  apply RTp_bind with (a := canon_header p).
  { unfold canon_header. destruct (w_dims p) as [[w hh] d] eqn:Hd.
    pose proof (rd_header_rt _ _ _ Hh) as HR. cbn [fst snd] in HR. exact HR. }
  rewrite <- (app_nil_r b).
  apply RTp_bind with (a := canon_body p); [now apply (read_body_rt p b F P T D)|].
  apply RTp_ret.
Qed.

Lemma concat_r_ok_map {X} (f : X -> result bytes) (g : X -> bytes) xs :
  Forall (fun x => f x = Ok (g x)) xs -> concat_r (map f xs) = Ok (concat (map g xs)).
Proof. induction 1 as [|x xs Hx _ IH]; [reflexivity|]. cbn [map concat_r concat]. now rewrite Hx, IH. Qed.
Lemma eq_shape_refl l : eq_shape l l = true.
Proof. unfold eq_shape. rewrite Nat.eqb_refl. cbn [andb]. induction l as [|x l IH]; [reflexivity|].
  cbn [combine forallb fst snd]. now rewrite N.eqb_refl, IH. Qed.
