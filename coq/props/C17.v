(* C17 - Feature representations equal their geometric definition on every backend.
   Numeric clauses: exact reals (R_ops) for the formulas, IEEE special values over exact reals (X_ops) for the
   totality clauses; rounding / overflow are not modelled (the claim is partial in that sense, DESIGN section 9).
   The Torch models fill masked cells by `torch.where` ([zero_filled]) and flatten points as /repo does (C17_Source).
   Discrete clauses (output size, block layout): no reals, closed under the global context. *)
From Coq Require Import String.
From Coq Require Import Reals List Bool.
Require Import Num C17_Repr C17_Spec C17_XReal C17_Layout C17_Run C17_Source Gen_C17.
Require Import C17_Vec C17_Real C17_Total C17_LayoutProofs C17_GenTie C17_Examples.
Import ListNotations.

Theorem distance_def : forall a b : vec,
  torch_distance R_ops (rvals a) (rvals b) = euclid a b /\ tf_distance R_ops a b = euclid a b /\
  (a <> [] -> b <> [] -> np_distance R_ops (rvals a) (rvals b) = euclid a b).
Proof. exact (fun a b => conj (distance_def_torch a b) (conj (distance_def_tf a b) (distance_def_np a b))). Qed.
Print Assumptions distance_def.

(* atan / acos are universally quantified function symbols: the standard library's Ratan.atan / Ratan.acos rest on
   Classical_Prop.classic (outside the allowed axioms); the properties of the two functions that a theorem
   uses are its hypotheses (Ratan.atan_bound, tan_atan, atan_0, acos_bound, cos_acos show they are satisfiable) *)
Theorem angle_def : forall (atan : R -> R) (x1 y1 : R) r1 (x2 y2 : R) r2,
  torch_angle R_ops atan (rvals (x1 :: y1 :: r1)) (rvals (x2 :: y2 :: r2)) = xy_angle atan (x1 :: y1 :: r1) (x2 :: y2 :: r2) /\
  (x2 <> x1 -> tf_angle R_ops atan (x1 :: y1 :: r1) (x2 :: y2 :: r2) = xy_angle atan (x1 :: y1 :: r1) (x2 :: y2 :: r2)).
Proof. exact (fun atan x1 y1 r1 x2 y2 r2 => conj (angle_def_torch atan x1 y1 r1 x2 y2 r2) (angle_def_tf atan x1 y1 r1 x2 y2 r2)). Qed.
Print Assumptions angle_def.

(* what the arctangent of the slope means: (cos t, sin t) is parallel to p2 - p1 *)
Theorem angle_direction : forall (atan : R -> R) (x1 y1 : R) r1 (x2 y2 : R) r2,
  (forall x, - PI / 2 < atan x < PI / 2)%R -> (forall x, tan (atan x) = x) -> x2 <> x1 ->
  let t := xy_angle atan (x1 :: y1 :: r1) (x2 :: y2 :: r2) in
  (- PI / 2 < t < PI / 2 /\ (y2 - y1) * cos t = (x2 - x1) * sin t)%R.
Proof. exact xy_angle_direction. Qed.
Print Assumptions angle_direction.

Theorem inner_angle_def : forall (acos : R -> R) (p1 p2 p3 : vec), norm (vsub p1 p2) <> 0%R -> norm (vsub p3 p2) <> 0%R ->
  torch_inner_angle R_ops acos (rvals p1) (rvals p2) (rvals p3) = inner_angle acos p1 p2 p3 /\
  tf_inner_angle R_ops acos p1 p2 p3 = inner_angle acos p1 p2 p3.
Proof. exact (fun acos p1 p2 p3 H1 H2 => conj (inner_angle_def_torch acos p1 p2 p3 H1 H2) (inner_angle_def_tf acos p1 p2 p3 H1 H2)). Qed.
Print Assumptions inner_angle_def.

Theorem inner_angle_is_the_angle : forall (acos : R -> R) (p1 p2 p3 : vec),
  (forall x, 0 <= acos x <= PI)%R -> (forall x, (-1 <= x <= 1)%R -> cos (acos x) = x) ->
  length p1 = length p2 -> length p3 = length p2 ->
  norm (vsub p1 p2) <> 0%R -> norm (vsub p3 p2) <> 0%R ->
  let t := inner_angle acos p1 p2 p3 in
  (0 <= t <= PI /\ cos t * (norm (vsub p1 p2) * norm (vsub p3 p2)) = dot (vsub p1 p2) (vsub p3 p2))%R.
Proof. exact inner_angle_cos. Qed.
Print Assumptions inner_angle_is_the_angle.

Theorem heron_is_point_line_distance : forall p1 p2 p3 : vec, length p1 = length p2 -> length p2 = length p3 -> p2 <> p3 ->
  torch_pld R_ops (rvals p1) (rvals p2) (rvals p3) = point_line_distance p1 p2 p3 /\
  tf_pld R_ops p1 p2 p3 = point_line_distance p1 p2 p3.
Proof.
  exact (fun p1 p2 p3 L1 L2 H => conj (heron_is_point_line_distance_torch p1 p2 p3 L1 L2 H)
                                     (heron_is_point_line_distance_tf p1 p2 p3 L1 L2 H)).
Qed.
Print Assumptions heron_is_point_line_distance.

(* point_line_distance is the textbook one: the least distance to a point of the line, at the foot of the perpendicular *)
Theorem point_line_distance_is_least : forall (p1 p2 p3 : vec) (t : R), length p1 = length p2 -> length p2 = length p3 -> p2 <> p3 ->
  (point_line_distance p1 p2 p3 <= dist_to_line_point t p1 p2 p3)%R /\
  dot (vaxpy (foot_param p1 p2 p3) (vsub p1 p2) (vsub p3 p2)) (vsub p3 p2) = 0%R.
Proof. exact (fun p1 p2 p3 t L1 L2 H => conj (pld_is_minimum p1 p2 p3 t L1 L2 H) (pld_perpendicular p1 p2 p3 L1 L2 H)). Qed.
Print Assumptions point_line_distance_is_least.

Theorem cross_backend : forall (acos : R -> R) (p1 p2 p3 : vec),
  torch_distance R_ops (rvals p1) (rvals p2) = tf_distance R_ops p1 p2 /\
  (p1 <> [] -> p2 <> [] -> np_distance R_ops (rvals p1) (rvals p2) = tf_distance R_ops p1 p2) /\
  (norm (vsub p1 p2) <> 0%R -> norm (vsub p3 p2) <> 0%R ->
     torch_inner_angle R_ops acos (rvals p1) (rvals p2) (rvals p3) = tf_inner_angle R_ops acos p1 p2 p3) /\
  (euclid p2 p3 <> 0%R -> torch_pld R_ops (rvals p1) (rvals p2) (rvals p3) = tf_pld R_ops p1 p2 p3).
Proof.
  exact (fun acos p1 p2 p3 => conj (proj1 (cross_distance p1 p2)) (conj (proj2 (cross_distance p1 p2))
           (conj (cross_inner_angle acos p1 p2 p3) (cross_pld p1 p2 p3)))).
Qed.
Print Assumptions cross_backend.

Theorem cross_backend_angle : forall (atan : R -> R) (x1 y1 : R) r1 (x2 y2 : R) r2, x2 <> x1 ->
  torch_angle R_ops atan (rvals (x1 :: y1 :: r1)) (rvals (x2 :: y2 :: r2)) = tf_angle R_ops atan (x1 :: y1 :: r1) (x2 :: y2 :: r2).
Proof. intros atan x1 y1 r1 x2 y2 r2 H. now rewrite angle_def_torch, angle_def_tf. Qed.
Print Assumptions cross_backend_angle.

Example nondegenerate_inputs_ex :
  length ex_p1 = length ex_p2 /\ length ex_p2 = length ex_p3 /\ length ex_p3 = length ex_p2 /\
  ex_p1 <> [] /\ ex_p2 <> [] /\ (1%R : R) <> 2%R /\
  norm (vsub ex_p1 ex_p2) <> 0%R /\ norm (vsub ex_p3 ex_p2) <> 0%R /\ ex_p2 <> ex_p3 /\ euclid ex_p2 ex_p3 <> 0%R /\
  euclid ex_p1 ex_p2 = R_sqrt.sqrt 14.
Proof. exact ex_nondegenerate. Qed.
Print Assumptions nondegenerate_inputs_ex.

(* exactly 0 wherever a point is missing (even in one coordinate; the angle reads X and Y only),
   whatever NaN / infinity lies under the mask *)
Theorem masked_zero : forall (acos : R -> R) (p1 p2 p3 : list (mv X_ops)), length p1 = length p2 -> length p2 = length p3 ->
  (all_valid p1 && all_valid p2 = false -> torch_distance X_ops p1 p2 = Fin 0) /\
  (all_valid p1 && all_valid p2 && all_valid p3 = false ->
     torch_inner_angle X_ops (x_acos acos) p1 p2 p3 = Fin 0 /\ torch_pld X_ops p1 p2 p3 = Fin 0) /\
  (forallb (fun c : mv X_ops => negb (snd c)) p1 = true \/ forallb (fun c : mv X_ops => negb (snd c)) p2 = true ->
     np_distance X_ops p1 p2 = Fin 0).
Proof.
  exact (fun acos p1 p2 p3 L1 L2 => conj (masked_zero_distance p1 p2 L1)
    (conj (fun H => conj (masked_zero_inner_angle acos p1 p2 p3 L1 (eq_sym L2) H) (masked_zero_pld p1 p2 p3 L1 L2 H))
          (masked_zero_numpy p1 p2 L1))).
Qed.
Print Assumptions masked_zero.

Theorem masked_zero_angle : forall (atan : R -> R) (x1 y1 : mv X_ops) r1 (x2 y2 : mv X_ops) r2, atan 0%R = 0%R ->
  snd x1 && snd y1 && snd x2 && snd y2 = false ->
  torch_angle X_ops (x_atan atan) (x1 :: y1 :: r1) (x2 :: y2 :: r2) = Fin 0.
Proof. exact C17_Total.masked_zero_angle. Qed.
Print Assumptions masked_zero_angle.

(* never NaN, never infinite: every valid coordinate finite, anything under the mask, any geometry *)
Theorem never_nan : forall (atan acos : R -> R) (p1 p2 p3 : list (mv X_ops)), length p1 = length p2 -> length p2 = length p3 ->
  valid_fin p1 -> valid_fin p2 -> valid_fin p3 ->
  is_fin (torch_distance X_ops p1 p2) /\ is_fin (torch_angle X_ops (x_atan atan) p1 p2) /\
  is_fin (torch_inner_angle X_ops (x_acos acos) p1 p2 p3) /\ is_fin (torch_pld X_ops p1 p2 p3) /\
  is_fin (np_distance X_ops p1 p2).
Proof.
  exact (fun atan acos p1 p2 p3 L1 L2 V1 V2 V3 => conj (never_nan_distance p1 p2 L1 V1 V2) (conj (never_nan_angle atan p1 p2)
    (conj (never_nan_inner_angle acos p1 p2 p3) (conj (never_nan_pld p1 p2 p3 L1 L2 V1 V2 V3) (never_nan_numpy p1 p2 V1 V2))))).
Qed.
Print Assumptions never_nan.

(* degenerate limbs outside the mask: vertical -> +-pi/2, coincident end points -> 0; and on finite
   valid inputs X_ops computes the real-number formula *)
Theorem degenerate_limbs : forall (atan : R -> R) (x y1 y2 : R) r1 r2, atan 0%R = 0%R ->
  (y1 <> y2 -> torch_angle X_ops (x_atan atan) (fins (x :: y1 :: r1)) (fins (x :: y2 :: r2)) =
                 Fin (if Rlt_dec y1 y2 then PI / 2 else - (PI / 2))%R) /\
  torch_angle X_ops (x_atan atan) (fins (x :: y1 :: r1)) (fins (x :: y1 :: r2)) = Fin 0 /\
  torch_distance X_ops (fins (x :: y1 :: r1)) (fins (x :: y2 :: r2)) = Fin (euclid (x :: y1 :: r1) (x :: y2 :: r2)).
Proof.
  exact (fun atan x y1 y2 r1 r2 H0 => conj (x_angle_vertical atan x y1 y2 r1 r2) (conj (x_angle_coincident atan x y1 r1 r2 H0)
          (x_distance_is_real (x :: y1 :: r1) (x :: y2 :: r2)))).
Qed.
Print Assumptions degenerate_limbs.

Example masked_inputs_ex :
  length ex_m1 = length ex_m2 /\ length ex_m2 = length ex_m3 /\ length ex_m3 = length ex_m2 /\
  valid_fin ex_m1 /\ valid_fin ex_m2 /\ valid_fin ex_m3 /\
  all_valid ex_m1 && all_valid ex_m2 = false /\ all_valid ex_m1 && all_valid ex_m2 && all_valid ex_m3 = false /\
  forallb (fun c : mv X_ops => negb (snd c)) ex_m1 = true /\ (3%R : R) <> 5%R.
Proof. exact ex_masked. Qed.
Print Assumptions masked_inputs_ex.

(* filling by multiplication (tensor.mul(mask), [zero_filled_mul]) violates both totality clauses, since NaN * 0 = NaN -
   defect F9; the models above fill by torch.where, which tie_masked_tensor below demands of the source *)
Theorem zero_filled_by_multiplication_refuted : forall atan : R -> R,
  torch_distance_pinned X_ops [(NaN, false); (Fin 2, false)] [(Fin 1, true); (Fin 3, true)] = NaN /\
  torch_angle_pinned X_ops (x_atan atan) [(Fin 1, false); (Fin 2, false)] [(Fin 1, true); (Fin 3, true)] = NaN.
Proof. exact (fun atan => conj pinned_distance_nan_under_mask (pinned_angle_vertical_limb_under_mask atan)). Qed.
Print Assumptions zero_filled_by_multiplication_refuted.

Theorem representation_defined_iff : forall h k1 k2 k3,
  (exists r, mk_repr h k1 k2 k3 = Some r) <-> chains (limb_points h) <> [].
Proof.
  intros h k1 k2 k3. split; [intros [r H]; destruct (mk_repr_inv _ _ _ _ _ H) as (d & _ & Hc & _); exact Hc|].
  intros H. unfold mk_repr. destruct h as [|c h]; [exfalso; apply H; reflexivity|]. cbn [header_dims].
  destruct (limb_points (c :: h)) as [|p l]; [exfalso; apply H; reflexivity|].
  destruct (chains (p :: l)); [exfalso; apply H; reflexivity|]. eexists. reflexivity.
Qed.
Print Assumptions representation_defined_iff.

Theorem output_size : forall X Y (dy : Y) h r (m1s : list (list X -> list Y)) (m2s : list (list X -> list X -> Y))
    (m3s : list (list X -> list X -> list X -> Y)) D (src : t4 X),
  mk_repr h (length m1s) (length m2s) (length m3s) = Some r -> header_dims h = Some D -> wf_header h ->
  length m1s + length m2s + length m3s > 0 ->
  (exists f, call X Y dy r (input_size h) D m1s m2s m3s src = Some (C17_Layout.output_size r, f)) /\
  C17_Layout.output_size r =
    length m1s * (input_size h * D) + length m2s * total_limbs h + length m3s * length (chains (limb_points h)).
Proof.
  intros X Y dy h r m1s m2s m3s D src Hr HD Hwf Hm. split.
  - eexists. apply (call_defined X Y dy h r m1s m2s m3s Hr D HD src Hwf Hm).
  - apply (output_size_header X Y h r m1s m2s m3s Hr D HD).
Qed.
Print Assumptions output_size.

Theorem block_layout : forall X Y (dy : Y) h r (m1s : list (list X -> list Y)) (m2s : list (list X -> list X -> Y))
    (m3s : list (list X -> list X -> list X -> Y)) D (src : t4 X) n f,
  mk_repr h (length m1s) (length m2s) (length m3s) = Some r -> header_dims h = Some D -> wf_header h ->
  length m1s + length m2s + length m3s > 0 ->
  call X Y dy r (input_size h) D m1s m2s m3s src = Some (n, f) ->
  (forall i p d b l dm, i < length m1s -> p < input_size h -> d < D ->
     f b l (i * (input_size h * D) + (p * D + d)) = nth d (nth i m1s dm (src b l p)) dy) /\
  (forall i ci j b l dm dc, i < length m2s -> ci < length h -> j < length (c_limbs (nth ci h dc)) ->
     let ab := nth j (c_limbs (nth ci h dc)) (0, 0) in
     f b l (length m1s * (input_size h * D) + i * total_limbs h + (limbs_before h ci + j)) =
       nth i m2s dm (src b l (fst ab + points_before h ci)) (src b l (snd ab + points_before h ci))) /\
  (forall i q b l dm, i < length m3s -> q < length (chains (limb_points h)) ->
     let x := nth q (chains (limb_points h)) (0, 0, 0) in
     f b l (length m1s * (input_size h * D) + length m2s * total_limbs h + i * length (chains (limb_points h)) + q) =
       nth i m3s dm (src b l (fst (fst x))) (src b l (snd (fst x))) (src b l (snd x))).
Proof.
  intros X Y dy h r m1s m2s m3s D src n f Hr HD Hwf Hm Hc.
  rewrite (call_defined X Y dy h r m1s m2s m3s Hr D HD src Hwf Hm) in Hc. injection Hc as <- <-.
  split; [|split]; intros; [eapply layout_points|eapply layout_limbs|eapply layout_triples]; eassumption.
Qed.
Print Assumptions block_layout.

(* which triples there are, and how many: every pair of limbs (p1,p2), (p2,p3), in limb order *)
Theorem triples_are_limb_chains : forall ls p1 p2 p3,
  (In (p1, p2, p3) (chains ls) <-> In (p1, p2) ls /\ In (p2, p3) ls) /\
  length (chains ls) = sum_nat (map (fun l1 => length (filter (fun l2 => snd l1 =? fst l2)%nat ls)) ls).
Proof. exact (fun ls p1 p2 p3 => conj (chains_spec ls p1 p2 p3) (chains_length ls)). Qed.
Print Assumptions triples_are_limb_chains.

Example header_with_chain_ex :
  wf_header ex_header /\ header_dims ex_header = Some 2 /\
  (exists r, mk_repr ex_header 1 2 2 = Some r /\ C17_Layout.output_size r = 18) /\
  limb_points ex_header = [(0, 1); (1, 2); (3, 4)] /\ chains (limb_points ex_header) = [(0, 1, 2)] /\
  limb_points ex_header_two_chains = [(0, 1); (2, 3); (3, 4); (3, 2)] /\
  chains (limb_points ex_header_two_chains) = [(2, 3, 4); (2, 3, 2); (3, 2, 3)].
Proof.
  repeat split; try reflexivity.
  - repeat constructor.
  - eexists. split; reflexivity.
Qed.
Print Assumptions header_with_chain_ex.

(* ties to the source: Gen_C17 is regenerated from /repo on every run; C17_Source is the text the
   models were transcribed from *)
Theorem tie_torch_representations :
  Gen_C17.torch_distance_distance = C17_Source.torch_distance_distance /\
  Gen_C17.torch_distance_forward = C17_Source.torch_distance_forward /\
  Gen_C17.torch_angle_forward = C17_Source.torch_angle_forward /\
  Gen_C17.torch_inner_vectors_norm = C17_Source.torch_inner_vectors_norm /\
  Gen_C17.torch_inner_forward = C17_Source.torch_inner_forward /\
  Gen_C17.torch_pld_init = C17_Source.torch_pld_init /\
  Gen_C17.torch_pld_forward = C17_Source.torch_pld_forward /\
  Gen_C17.torch_points_forward_prefix = C17_Source.torch_points_forward_prefix /\
  Gen_C17.torch_points_flatten_kind = C17_Source.torch_points_flatten_kind.
Proof. repeat split; reflexivity. Qed.
Print Assumptions tie_torch_representations.
Theorem tie_tf_representations :
  Gen_C17.tf_distance_distance = C17_Source.tf_distance_distance /\
  Gen_C17.tf_distance_call = C17_Source.tf_distance_call /\
  Gen_C17.tf_angle_call = C17_Source.tf_angle_call /\
  Gen_C17.tf_inner_vectors_norm = C17_Source.tf_inner_vectors_norm /\
  Gen_C17.tf_inner_call = C17_Source.tf_inner_call /\
  Gen_C17.tf_pld_init = C17_Source.tf_pld_init /\
  Gen_C17.tf_pld_call = C17_Source.tf_pld_call.
Proof. repeat split; reflexivity. Qed.
Print Assumptions tie_tf_representations.
Theorem tie_numpy_distance :
  Gen_C17.np_distance_distance = C17_Source.np_distance_distance /\
  Gen_C17.np_distance_call = C17_Source.np_distance_call.
Proof. repeat split; reflexivity. Qed.
Print Assumptions tie_numpy_distance.
Theorem tie_masked_tensor :
  Gen_C17.masked_arithmetic = C17_Source.masked_arithmetic /\
  Gen_C17.masked_add = C17_Source.masked_add /\
  Gen_C17.masked_sub = C17_Source.masked_sub /\
  Gen_C17.masked_mul = C17_Source.masked_mul /\
  Gen_C17.masked_truediv = C17_Source.masked_truediv /\
  Gen_C17.masked_pow = C17_Source.masked_pow /\
  Gen_C17.masked_sum = C17_Source.masked_sum /\
  Gen_C17.masked_fix_nan = C17_Source.masked_fix_nan /\
  Gen_C17.masked_div = C17_Source.masked_div /\
  Gen_C17.masked_getitem = C17_Source.masked_getitem /\
  Gen_C17.masked_permute = C17_Source.masked_permute /\
  Gen_C17.masked_split = C17_Source.masked_split /\
  Gen_C17.masked_squeeze = C17_Source.masked_squeeze /\
  Gen_C17.masked_transpose = C17_Source.masked_transpose /\
  Gen_C17.masked_zero_filled_kind = C17_Source.masked_zero_filled_kind /\
  Gen_C17.torch_fallback_getattr = C17_Source.torch_fallback_getattr /\
  Gen_C17.masked_torch_stack = C17_Source.masked_torch_stack.
Proof. repeat split; reflexivity. Qed.
Print Assumptions tie_masked_tensor.
Theorem tie_pose_representation :
  Gen_C17.repr_init = C17_Source.repr_init /\
  Gen_C17.repr_calc_output_size = C17_Source.repr_calc_output_size /\
  Gen_C17.repr_get_limbs_points = C17_Source.repr_get_limbs_points /\
  Gen_C17.repr_get_triangles_points = C17_Source.repr_get_triangles_points /\
  Gen_C17.repr_get_points = C17_Source.repr_get_points /\
  Gen_C17.repr_call = C17_Source.repr_call /\
  Gen_C17.torch_repr_init = C17_Source.torch_repr_init /\
  Gen_C17.torch_repr_group_embeds = C17_Source.torch_repr_group_embeds /\
  Gen_C17.torch_repr_permute = C17_Source.torch_repr_permute /\
  Gen_C17.tf_repr_group_embeds = C17_Source.tf_repr_group_embeds /\
  Gen_C17.tf_repr_get_points = C17_Source.tf_repr_get_points /\
  Gen_C17.tf_repr_permute = C17_Source.tf_repr_permute.
Proof. repeat split; reflexivity. Qed.
Print Assumptions tie_pose_representation.
(* the model keeps the mask through sqrt, square and acos: they must be on the white-list (membership, so
   that harmless additions to the list re-prove) *)
Theorem tie_mask_whitelist :
  forallb (fun s => existsb (String.eqb s) Gen_C17.doesnt_change_mask) ["sqrt"; "square"; "acos"]%string = true.
Proof. reflexivity. Qed.
Print Assumptions tie_mask_whitelist.
Theorem executed_instance_is_F_ops : F17_ops = F_ops.
Proof. exact F17_ops_is_F_ops. Qed.
Print Assumptions executed_instance_is_F_ops.

(* class structure of the current source: overrides and attribute hooks *)
Require Import ClassesTie.
Theorem C17_tie_class_torch_repr : over_torch_repr = Some exp_over_torch_repr.
Proof. exact over_torch_repr_tie. Qed.
Print Assumptions C17_tie_class_torch_repr.
Theorem C17_tie_class_tf_repr : over_tf_repr = Some exp_over_tf_repr.
Proof. exact over_tf_repr_tie. Qed.
Print Assumptions C17_tie_class_tf_repr.
Theorem C17_tie_class_subclasses : subclasses = exp_subclasses.
Proof. exact subclasses_tie. Qed.
Print Assumptions C17_tie_class_subclasses.
Theorem C17_tie_class_attr_hooks : Gen_Classes.attr_hooks = exp_attr_hooks.
Proof. exact attr_hooks_tie. Qed.
Print Assumptions C17_tie_class_attr_hooks.

