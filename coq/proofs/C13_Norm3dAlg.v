(* C13 - the 3-D normaliser over the reals: algebra of the closed form [out_n] of C13_Norm3dP
   (post-conditions, invariance under translation and uniform positive scaling).  [zrot_spec], the one hypothesis
   on the section variable [zrot] of model/C13_Norm3d.v, is stated here because the algebra is its first user. *)
From Coq Require Import Reals List Lra Lia Arith Bool.
Require Import Num RealFacts C13_Normalize C13_Norm3d C13_RBase C13_Norm3dP.
Import ListNotations.
Open Scope R_scope.

(* what the 3-D theorems assume of Rotation.from_euler('z', -(90 + degrees(arctan2(y, x))), degrees=True):
   its matrix is [[c, -s, 0], [s, c, 0], [0, 0, 1]] with (c, s) = (-y, -x) / sqrt(x^2 + y^2) *)
Definition zrot_spec (zrot : R -> R -> R * R) : Prop :=
  forall x y, x * x + y * y <> 0 ->
  zrot x y = (- y / rsqrt (x * x + y * y), - x / rsqrt (x * x + y * y)).

Definition plane_normal (A B C : rv) : rv := rcross (rvsub B A) (rvsub C A).
Definition sqn (v : rv) : R := rdot v v.
(* plane points not collinear *)
Definition noncollinear (A B C : rv) : Prop := sqn (plane_normal A B C) <> 0.
(* the plane normal is not along the x axis (then the coded basis [1,0,0] x n vanishes) *)
Definition normal_not_x (A B C : rv) : Prop :=
  vy (plane_normal A B C) * vy (plane_normal A B C) + vz (plane_normal A B C) * vz (plane_normal A B C) <> 0.
(* the line is not perpendicular to the plane (in particular its points are distinct) *)
Definition line_not_perp (A B C L1 L2 : rv) : Prop := sqn (rcross (rvsub L2 L1) (plane_normal A B C)) <> 0.
Definition coplanar (A B C P : rv) : Prop := rdot (rvsub P A) (plane_normal A B C) = 0.
Lemma normal_not_x_noncollinear A B C : normal_not_x A B C -> noncollinear A B C.
Proof. unfold normal_not_x, noncollinear, sqn. set (n := plane_normal A B C). intros H E. apply H. vsimp.
  nra. Qed.

Lemma sqrt_nz x : 0 < x -> rsqrt x <> 0.
Proof. intros H. pose proof (sqrt_lt_R0 x H). lra. Qed.
Lemma sq_sum_pos x y : x * x + y * y <> 0 -> 0 < x * x + y * y.
Proof. intros H. nra. Qed.
Lemma sqn_nonneg v : 0 <= sqn v.
Proof. unfold sqn. vsimp. nra. Qed.

Lemma zrot_closed_spec : zrot_spec (zrot_closed R_ops).
Proof. intros x y H. unfold zrot_closed. rsimp. rewrite (proj2 (Reqb_false _ _)); [reflexivity|]. apply sqrt_nz. apply sq_sum_pos. exact H. Qed.

Lemma vsub_scale u w a : rvsub (rvscale u a) (rvscale w a) = rvscale (rvsub u w) a.
Proof. vsimp. f_equal; ring. Qed.
Lemma dot_scale u a : rdot (rvscale u a) (rvscale u a) = a * a * rdot u u.
Proof. vsimp. ring. Qed.
Lemma dot_vsub_l p q A n : rdot (rvsub p A) n - rdot (rvsub q A) n = rdot (rvsub p q) n.
Proof. vsimp. ring. Qed.
Lemma rotp_scale cs q a : rotp cs (rvscale q a) = rvscale (rotp cs q) a.
Proof. unfold rotp. vsimp. f_equal; ring. Qed.
Lemma vz_rotp cs q : vz (rotp cs q) = vz q.
Proof. unfold rotp. vsimp. ring. Qed.
Lemma rescale_same sc o : rescale sc o o = v0.
Proof. unfold rescale, v0. vsimp. f_equal; ring. Qed.
Lemma vz_rescale sc o q : vz (rescale sc o q) = (vz q - vz o) * sc.
Proof. unfold rescale. vsimp. ring. Qed.
Lemma rescale_scale size c a o q : 0 < a -> c <> 0 ->
  rescale (size / (a * c)) (rvscale o a) (rvscale q a) = rescale (size / c) o q.
Proof. intros Ha Hc. unfold rescale. vsimp. f_equal; field; split; lra. Qed.

Section Abstract.
Variable zrot : R -> R -> R * R.
Hypothesis Hz : zrot_spec zrot.
Variable size : R.
Notation img := (img zrot).
Notation d_of := (d_of zrot).
Notation out_n := (out_n zrot size).
Notation cur_of A n L1 L2 := (rsqrt (rdot (d_of A n L1 L2) (d_of A n L1 L2))).

Lemma out_n_L1 A n L1 L2 : out_n A n L1 L2 L1 = v0.
Proof. apply rescale_same. Qed.
Lemma out_n_L2 A n L1 L2 : out_n A n L1 L2 L2 = rvscale (d_of A n L1 L2) (size / cur_of A n L1 L2).
Proof. apply vsub_scale. Qed.
(* z of any point: its signed distance to the plane through L1 with normal n, times the scale *)
Lemma out_n_z A n L1 L2 p : vz (out_n A n L1 L2 p) = rdot (rvsub p L1) n * (size / cur_of A n L1 L2).
Proof. unfold C13_Norm3dP.out_n. rewrite vz_rescale. unfold C13_Norm3dP.img. rewrite !vz_rotp.
  change (vz (frame A n p)) with (rdot (rvsub p A) n). change (vz (frame A n L1)) with (rdot (rvsub L1 A) n).
  rewrite dot_vsub_l. reflexivity. Qed.

Section Unit.
Variables A n L1 L2 : rv.
Hypothesis Hunit : rdot n n = 1.
Hypothesis Hu : vy n * vy n + vz n * vz n <> 0.
Hypothesis Hl : sqn (rcross (rvsub L2 L1) n) <> 0.
Let vec := vec_of A n L1 L2.

Lemma vec_xy : vx vec * vx vec + vy vec * vy vec = (vy n * vy n + vz n * vz n) * sqn (rcross (rvsub L2 L1) n).
Proof. (* for any n the two sides differ by (vy vec)^2 * (1 - n.n) *)
  transitivity ((vy n * vy n + vz n * vz n) * sqn (rcross (rvsub L2 L1) n) + vy vec * vy vec * (1 - rdot n n)).
  - unfold vec, vec_of, frame, sqn. vsimp. ring.
  - rewrite Hunit. req. ring. Qed.
Lemma vec_xy_nz : vx vec * vx vec + vy vec * vy vec <> 0.
Proof. rewrite vec_xy. intros E. apply Rmult_integral in E. destruct E; contradiction. Qed.
Let r := rsqrt (vx vec * vx vec + vy vec * vy vec).
Lemma r_pos : 0 < r.
Proof. apply sqrt_lt_R0. apply sq_sum_pos. exact vec_xy_nz. Qed.
Lemma r_sq : r * r = vx vec * vx vec + vy vec * vy vec.
Proof. apply sqrt_sqrt. left. apply sq_sum_pos. exact vec_xy_nz. Qed.
(* the in-plane rotation turns the line onto the negative y axis *)
Lemma d_eq : d_of A n L1 L2 = rV3 0 (- r) (vz vec).
Proof. unfold C13_Norm3dP.d_of, C13_Norm3dP.img. fold vec. rewrite (Hz _ _ vec_xy_nz). fold r.
  pose proof r_pos as Hr. pose proof r_sq as Hr2.
  unfold rotp. cbn [fst snd]. unfold vec, vec_of in *. set (q1 := frame A n L1) in *. set (q2 := frame A n L2) in *.
  vsimp. f_equal.
  - field. lra.
  - replace (- r) with (- (r * r) / r) by (field; lra). rewrite Hr2. field. lra.
  - ring. Qed.
Let cur := cur_of A n L1 L2.
Lemma cur_arg : rdot (d_of A n L1 L2) (d_of A n L1 L2) = r * r + vz vec * vz vec.
Proof. rewrite d_eq. vsimp. ring. Qed.
Lemma cur_arg_pos : 0 < r * r + vz vec * vz vec.
Proof. pose proof r_pos. nra. Qed.
Lemma cur_pos : 0 < cur.
Proof. unfold cur. rewrite cur_arg. apply sqrt_lt_R0. exact cur_arg_pos. Qed.
Lemma cur_sq : cur * cur = r * r + vz vec * vz vec.
Proof. unfold cur. rewrite cur_arg. apply sqrt_sqrt. left. exact cur_arg_pos. Qed.

Lemma out_n_L2_post : 0 < size ->
  vx (out_n A n L1 L2 L2) = 0 /\ vy (out_n A n L1 L2 L2) < 0 /\ rnorm (out_n A n L1 L2 L2) = size.
Proof. intros Hs. rewrite out_n_L2. fold cur. pose proof cur_pos as Hc. pose proof r_pos as Hr. pose proof cur_sq as Hc2.
  set (sc := size / cur). assert (Hsc : 0 < sc) by (apply Rdiv_lt_0_compat; lra).
  unfold norm. rewrite dot_scale, cur_arg, <- Hc2, d_eq. cbn [vscale vx vy]. rsimp. split; [ring|]. split; [nra|].
  replace (sc * sc * (cur * cur)) with (size * size) by (unfold sc; field; lra).
  apply sqrt_square. lra. Qed.
End Unit.

(* translation and uniform positive scaling: every intermediate point is scaled by a *)
Definition simv (a : R) (t v : rv) : rv := rV3 (a * vx v + vx t) (a * vy v + vy t) (a * vz v + vz t).
Lemma frame_sim a t A n q : frame (simv a t A) n (simv a t q) = rvscale (frame A n q) a.
Proof. unfold frame, simv. vsimp. f_equal; ring. Qed.
Lemma zrot_scale a x y : 0 < a -> x * x + y * y <> 0 -> zrot (x * a) (y * a) = zrot x y.
Proof. intros Ha Hxy. pose proof (sq_sum_pos _ _ Hxy) as Hp.
  assert (E : x * a * (x * a) + y * a * (y * a) = a * a * (x * x + y * y)) by ring.
  rewrite (Hz x y Hxy), (Hz (x * a) (y * a)) by (rewrite E; apply Rgt_not_eq, Rmult_lt_0_compat; [nra|exact Hp]).
  rewrite E, sqrt_sq_scal_pos by lra. pose proof (sqrt_nz _ Hp) as Hq. f_equal; field; split; (exact Hq || lra). Qed.

Section Sim.
Variables (a : R) (t A n L1 L2 : rv).
Hypothesis Ha : 0 < a.
Hypothesis Hv : vx (vec_of A n L1 L2) * vx (vec_of A n L1 L2) + vy (vec_of A n L1 L2) * vy (vec_of A n L1 L2) <> 0.
Lemma img_sim q : img (simv a t A) n (simv a t L1) (simv a t L2) (simv a t q) = rvscale (img A n L1 L2 q) a.
Proof. unfold C13_Norm3dP.img, vec_of. rewrite !frame_sim, vsub_scale. cbn [vx vy vscale]. rsimp.
  rewrite zrot_scale by assumption. apply rotp_scale. Qed.
Lemma d_of_sim : d_of (simv a t A) n (simv a t L1) (simv a t L2) = rvscale (d_of A n L1 L2) a.
Proof. unfold C13_Norm3dP.d_of. rewrite !img_sim. apply vsub_scale. Qed.
Lemma cur_sim : cur_of (simv a t A) n (simv a t L1) (simv a t L2) = a * cur_of A n L1 L2.
Proof. rewrite d_of_sim, dot_scale. apply sqrt_sq_scal_pos; [lra|apply (sqn_nonneg (d_of A n L1 L2))]. Qed.
Lemma out_n_sim p : cur_of A n L1 L2 <> 0 ->
  out_n (simv a t A) n (simv a t L1) (simv a t L2) (simv a t p) = out_n A n L1 L2 p.
Proof. intros Hc. unfold C13_Norm3dP.out_n. rewrite cur_sim, !img_sim. apply rescale_scale; assumption. Qed.
End Sim.
End Abstract.
