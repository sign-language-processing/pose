(* List lemmas behind C16: gather, x[::k], complement of a sample, insertion sort. *)
From Coq Require Import ZArith NArith List Bool Arith Lia ZifyN ZifyNat Sorted Permutation SpecFloat.
Require Import Result F32 ListFacts C16_Frames.
Import ListNotations.
Local Open Scope nat_scope.

Lemma memb_In i s : memb i s = true <-> In i s.
Proof. unfold memb. rewrite existsb_exists. split.
  - intros [x [Hx He]]. apply Nat.eqb_eq in He. now subst.
  - intros H. exists i. split; [exact H|apply Nat.eqb_refl]. Qed.
Lemma memb_false i s : memb i s = false <-> ~ In i s.
Proof. rewrite <- memb_In. destruct (memb i s); split; congruence. Qed.
Lemma nodupb_NoDup s : nodupb s = true <-> NoDup s.
Proof. induction s as [|x r IH]; cbn [nodupb].
  - split; [constructor|reflexivity].
  - rewrite andb_true_iff, negb_true_iff, memb_false, IH. split.
    + intros [H1 H2]. now constructor.
    + intros H. inversion H; subst. now split. Qed.
Lemma valid_sample_spec n k s :
  valid_sample n k s = true <-> length s = k /\ NoDup s /\ Forall (fun i => i < n) s.
Proof. unfold valid_sample. rewrite !andb_true_iff, Nat.eqb_eq, nodupb_NoDup, forallb_ltb. tauto. Qed.

Lemma norm_index_nat w n i : i < n -> norm_index w n (Z.of_nat i) = Ok i.
Proof. intros H. unfold norm_index.
  destruct (Z.leb_spec 0 (Z.of_nat i)) as [_|Hc]; [|lia].
  destruct (Z.ltb_spec (Z.of_nat i) (Z.of_nat n)) as [_|Hc]; [|lia].
  cbn [andb]. now rewrite Nat2Z.id. Qed.
Lemma norm_index_nat_inv w n i k : norm_index w n (Z.of_nat i) = Ok k -> k = i /\ i < n.
Proof. unfold norm_index.
  destruct (Z.leb_spec 0 (Z.of_nat i)) as [_|Hc]; [|lia].
  destruct (Z.ltb_spec (Z.of_nat i) (Z.of_nat n)) as [Hlt|Hge]; cbn [andb].
  - intros [= <-]. rewrite Nat2Z.id. split; [reflexivity|lia].
  - destruct (Z.ltb_spec (Z.of_nat i) 0) as [Hneg|_]; [lia|]. rewrite andb_false_r. discriminate. Qed.
(* negative indices count from the end on the backends that wrap *)
Lemma norm_index_wrap n k : 1 <= k <= n -> norm_index true n (- Z.of_nat k) = Ok (n - k).
Proof. intros H. unfold norm_index.
  destruct (Z.leb_spec 0 (- Z.of_nat k)) as [Hc|_]; [lia|]. cbn [andb].
  destruct (Z.leb_spec (- Z.of_nat n) (- Z.of_nat k)) as [_|Hc]; [|lia].
  destruct (Z.ltb_spec (- Z.of_nat k) 0) as [_|Hc]; [|lia]. cbn [andb]. f_equal. lia. Qed.

Lemma gather_nat {A} (d : A) w l idx :
  Forall (fun i => i < length l) idx -> gather w l (map Z.of_nat idx) = Ok (map (fun i => nth i l d) idx).
Proof. unfold gather. induction idx as [|i r IH]; intros H; cbn [map rmapM]; [reflexivity|].
  inversion H as [|i' r' Hi Hr]; subst. rewrite norm_index_nat by exact Hi. cbn [rbind].
  rewrite (nth_error_nth' l d Hi). cbn [rbind]. rewrite IH by exact Hr. reflexivity. Qed.
(* a successful gather of non-negative indexes stayed within range (no default element needed to say so) *)
Lemma gather_nat_range {A} w (l : list A) idx out :
  gather w l (map Z.of_nat idx) = Ok out -> Forall (fun i => i < length l) idx.
Proof. unfold gather. revert out. induction idx as [|i r IH]; intros out; cbn [map rmapM]; [constructor|].
  destruct (norm_index w (length l) (Z.of_nat i)) as [k|e] eqn:Hn; cbn [rbind]; [|discriminate].
  apply norm_index_nat_inv in Hn. destruct Hn as [-> Hi]. destruct (nth_error l i); cbn [rbind]; [|discriminate].
  destruct (rmapM _ (map Z.of_nat r)) as [ys|e] eqn:Hr; cbn [rbind]; [|discriminate].
  intros _. constructor; [exact Hi | exact (IH ys eq_refl)]. Qed.
Lemma gather_nat_inv {A} (d : A) w l idx out :
  gather w l (map Z.of_nat idx) = Ok out ->
  out = map (fun i => nth i l d) idx /\ Forall (fun i => i < length l) idx.
Proof. intros H. pose proof (gather_nat_range w l idx out H) as Hr. rewrite (gather_nat d w l idx Hr) in H.
  injection H as <-. now split. Qed.

Lemma seq_S_map a n : seq a (S n) = a :: map S (seq a n).
Proof. cbn [seq]. f_equal. symmetry. apply seq_shift. Qed.
Lemma div_add_one a b : 1 <= b -> (a + b) / b = S (a / b).
Proof. intros Hb. rewrite <- (Nat.mul_1_l b) at 1. rewrite Nat.div_add by (intros ->; inversion Hb). apply Nat.add_1_r. Qed.
(* the skip counter never exceeds by' - 1 = k, so the number of frames left to take needs no truncated subtraction *)
Lemma stride_from {A} (d : A) (k : nat) : forall (l : list A) (s : nat), s <= k ->
  stride (S k) s l = map (fun j => nth (s + j * S k) l d) (seq 0 ((length l + k - s) / S k)).
Proof. induction l as [|x r IH]; intros s Hs; cbn [stride length].
  - rewrite Nat.div_small; [reflexivity|]. apply Nat.lt_succ_r, Nat.le_sub_l.
  - destruct s as [|s'].
    + cbn [Nat.sub]. rewrite !Nat.sub_0_r, (IH k (le_n k)), Nat.add_sub.
      change (S (length r) + k) with (S (length r + k)). rewrite <- Nat.add_succ_r, div_add_one by apply Nat.lt_0_succ.
      rewrite seq_S_map. cbn [map]. f_equal. rewrite map_map. reflexivity.
    + rewrite (IH s') by (apply Nat.lt_le_incl, Hs). reflexivity. Qed.
(* frames 0, k, 2k, ... : ceil(n / k) of them *)
Lemma stride_spec {A} (d : A) (by' : nat) (l : list A) : 1 <= by' ->
  stride by' 0 l = map (fun j => nth (j * by') l d) (seq 0 ((length l + by' - 1) / by')).
Proof. intros Hb. destruct by' as [|k]; [inversion Hb|]. rewrite (stride_from d k l 0 (Nat.le_0_l k)).
  rewrite Nat.add_succ_r. cbn [Nat.sub]. now rewrite !Nat.sub_0_r. Qed.

Lemma strideN_stride {A} (by' : N) (l : list A) : forall skip, strideN by' skip l = stride (N.to_nat by') (N.to_nat skip) l.
Proof. induction l as [|x r IH]; intros skip; cbn [strideN stride]; [reflexivity|].
  destruct (N.eqb_spec skip 0) as [->|Hne].
  - cbn [N.to_nat]. rewrite IH. f_equal. f_equal. lia.
  - replace (N.to_nat skip) with (S (N.to_nat (skip - 1))) by lia. apply IH. Qed.

Lemma sorted_seq a n : StronglySorted lt (seq a n).
Proof. revert a. induction n as [|n IH]; intros a; cbn [seq]; constructor; [apply IH|].
  apply Forall_forall. intros x Hx. apply in_seq in Hx. lia. Qed.
Lemma sorted_filter {A} (R : A -> A -> Prop) f l : StronglySorted R l -> StronglySorted R (filter f l).
Proof. induction 1 as [|x l Hs IH Hf]; cbn [filter]; [constructor|].
  destruct (f x); [|exact IH]. constructor; [exact IH|].
  apply Forall_forall. intros y Hy. apply filter_In in Hy. rewrite Forall_forall in Hf. now apply Hf. Qed.
Lemma complement_sorted n s : StronglySorted lt (complement n s).
Proof. apply sorted_filter, sorted_seq. Qed.
Lemma complement_In n s i : In i (complement n s) <-> i < n /\ ~ In i s.
Proof. unfold complement. rewrite filter_In, in_seq, negb_true_iff, memb_false. cbn [Nat.add].
  split; intros [H1 H2]; (split; [|exact H2]); [apply H1 | split; [apply Nat.le_0_l | exact H1]]. Qed.
Lemma complement_range n s : Forall (fun i => i < n) (complement n s).
Proof. apply Forall_forall. intros x Hx. now apply complement_In in Hx. Qed.
Lemma complement_nil n : complement n [] = seq 0 n.
Proof. unfold complement. induction (seq 0 n) as [|x r IH]; [reflexivity|].
  change (filter (fun i => negb (memb i [])) (x :: r)) with (x :: filter (fun i => negb (memb i [])) r). now rewrite IH. Qed.
Lemma filter_split_length {A} (f : A -> bool) l : length (filter f l) + length (filter (fun x => negb (f x)) l) = length l.
Proof. induction l as [|x r IH]; cbn [filter length]; [reflexivity|]. destruct (f x); cbn [negb length]; lia. Qed.
Lemma complement_length n s : NoDup s -> Forall (fun i => i < n) s -> length (complement n s) + length s = n.
Proof. intros Hd Hr. unfold complement.
  pose proof (filter_split_length (fun i => memb i s) (seq 0 n)) as Hsplit. rewrite seq_length in Hsplit.
  assert (Hp : Permutation (filter (fun i => memb i s) (seq 0 n)) s).
  { apply NoDup_Permutation; [apply NoDup_filter, seq_NoDup|exact Hd|].
    intros x. rewrite filter_In, memb_In, in_seq. rewrite Forall_forall in Hr. split; [tauto|].
    intros Hx. specialize (Hr x Hx). split; [lia|exact Hx]. }
  apply Permutation_length in Hp. lia. Qed.

Lemma insert_perm x l : Permutation (insert x l) (x :: l).
Proof. induction l as [|y r IH]; cbn [insert]; [reflexivity|]. destruct (Nat.leb x y); [reflexivity|].
  rewrite IH. apply perm_swap. Qed.
Lemma isort_perm l : Permutation (isort l) l.
Proof. induction l as [|x r IH]; cbn [isort fold_right]; [reflexivity|]. fold (isort r). rewrite insert_perm. now constructor. Qed.
Lemma insert_sorted x l : StronglySorted le l -> StronglySorted le (insert x l).
Proof. induction 1 as [|y r Hs IH Hf]; cbn [insert]; [repeat constructor|].
  destruct (Nat.leb_spec x y) as [Hle|Hgt].
  - constructor; [now constructor|]. constructor; [exact Hle|].
    apply Forall_forall. intros z Hz. rewrite Forall_forall in Hf. specialize (Hf z Hz). lia.
  - constructor; [exact IH|]. apply Forall_forall. intros z Hz.
    apply (Permutation_in _ (insert_perm x r)) in Hz. destruct Hz as [<-|Hz]; [lia|].
    rewrite Forall_forall in Hf. now apply Hf. Qed.
Lemma isort_sorted l : StronglySorted le (isort l).
Proof. induction l as [|x r IH]; cbn [isort fold_right]; [constructor|]. now apply insert_sorted. Qed.
Lemma sorted_le_nodup_lt l : StronglySorted le l -> NoDup l -> StronglySorted lt l.
Proof. induction 1 as [|x r Hs IH Hf]; intros Hd; [constructor|]. inversion Hd as [|x' r' Hn Hd']; subst.
  constructor; [now apply IH|]. apply Forall_forall. intros y Hy. rewrite Forall_forall in Hf. specialize (Hf y Hy).
  assert (x <> y) by (intros ->; contradiction). lia. Qed.
Lemma sorted_lt_ext a : forall b, StronglySorted lt a -> StronglySorted lt b -> (forall x, In x a <-> In x b) -> a = b.
Proof. induction a as [|x a IH]; intros b Ha Hb Hab.
  - destruct b as [|y b]; [reflexivity|]. exfalso. apply (Hab y). now left.
  - destruct b as [|y b]; [exfalso; apply (Hab x); now left|].
    inversion Ha as [|x' a' Hsa Hfa]; subst. inversion Hb as [|y' b' Hsb Hfb]; subst.
    rewrite Forall_forall in Hfa, Hfb.
    assert (x = y).
    { destruct (proj1 (Hab x) (or_introl eq_refl)) as [->|Hxb]; [reflexivity|].
      destruct (proj2 (Hab y) (or_introl eq_refl)) as [->|Hya]; [reflexivity|].
      specialize (Hfa y Hya). specialize (Hfb x Hxb). lia. }
    subst y. f_equal. apply IH; [exact Hsa|exact Hsb|]. intros z. split; intros Hz.
    + destruct (proj1 (Hab z) (or_intror Hz)) as [<-|H]; [|exact H]. specialize (Hfa _ Hz). lia.
    + destruct (proj2 (Hab z) (or_intror Hz)) as [<-|H]; [|exact H]. specialize (Hfb _ Hz). lia. Qed.
Lemma isort_strict l : NoDup l -> StronglySorted lt (isort l).
Proof. intros Hd. apply sorted_le_nodup_lt; [apply isort_sorted|].
  apply (Permutation_NoDup (Permutation_sym (isort_perm l)) Hd). Qed.
Lemma isort_of_perm_seq n l : Permutation l (seq 0 n) -> isort l = seq 0 n.
Proof. intros Hp. apply sorted_lt_ext.
  - apply isort_strict. apply (Permutation_NoDup (Permutation_sym Hp)), seq_NoDup.
  - apply sorted_seq.
  - intros x. split; intros H.
    + apply (Permutation_in _ Hp), (Permutation_in _ (isort_perm l)), H.
    + apply (Permutation_in _ (Permutation_sym (isort_perm l))), (Permutation_in _ (Permutation_sym Hp)), H. Qed.
Lemma In_firstn' {A} k (l : list A) x : In x (firstn k l) -> In x l.
Proof. intros H. rewrite <- (firstn_skipn k l). apply in_or_app. now left. Qed.
Lemma NoDup_firstn {A} k (l : list A) : NoDup l -> NoDup (firstn k l).
Proof. revert l. induction k as [|k IH]; intros l Hd; cbn [firstn]; [constructor|].
  destruct l as [|x r]; [constructor|]. inversion Hd; subst. constructor; [|now apply IH].
  intros Hi. apply In_firstn' in Hi. contradiction. Qed.
