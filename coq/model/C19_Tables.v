(* C19 - the OpenPose layouts the model is written against (utils/openpose.py:14-215, utils/openpose_135.py:6-93).
   HAND-KEPT LITERALS: the 137-point layout (BODY_25 body, 70 face points, 2 x 21 hand points, keyed by the JSON
   field names of OpenPose's *_keypoints.json files) and the single-component 135-point layout, limbs by point index,
   formats, and the frame-file pattern.  coq/gen/Gen_C19.v is regenerated from /repo on every run and
   the gen_*_tie theorems of props/C19.v state that it equals these literals, so a source edit of a table breaks a proof obligation. *)
From Coq Require Import String List Arith.
Import ListNotations.
Open Scope string_scope.

Definition frame_pattern : string := "(?:^|\D)(\d+)\_keypoints.json".

Definition components_137 : list (string * list string * list (nat * nat) * string) :=
  [ ("pose_keypoints_2d",
   [ "Nose"; "Neck"; "RShoulder"; "RElbow"; "RWrist"; "LShoulder"; "LElbow"; "LWrist"; "MidHip"; "RHip"; "RKnee"; "RAnkle"; "LHip"; "LKnee"; "LAnkle"; "REye"; "LEye"; "REar"; "LEar"; "LBigToe"; "LSmallToe"; "LHeel"; "RBigToe"; "RSmallToe"; "RHeel" ],
   [ (1, 2); (2, 3); (3, 4); (1, 5); (5, 6); (6, 7); (1, 8); (0, 16); (0, 15); (0, 18); (0, 17); (1, 0); (8, 9); (9, 10); (10, 11); (8, 12); (12, 13); (13, 14); (11, 24); (11, 22); (22, 23); (14, 21); (14, 19); (19, 20) ],
   "XYC");
    ("face_keypoints_2d",
   [ "FB_0"; "FB_1"; "FB_2"; "FB_3"; "FB_4"; "FB_5"; "FB_6"; "FB_7"; "FB_8"; "FB_9"; "FB_10"; "FB_11"; "FB_12"; "FB_13"; "FB_14"; "FB_15"; "FB_16"; "FEB_17"; "FEB_18"; "FEB_19"; "FEB_20"; "FEB_21"; "FEB_22"; "FEB_23"; "FEB_24"; "FEB_25"; "FEB_26"; "FN_27"; "FN_28"; "FN_29"; "FN_30"; "FN_31"; "FN_32"; "FN_33"; "FN_34"; "FN_35"; "FE_36"; "FE_37"; "FE_38"; "FE_39"; "FE_40"; "FE_41"; "FE_42"; "FE_43"; "FE_44"; "FE_45"; "FE_46"; "FE_47"; "FLO_48"; "FLO_49"; "FLO_50"; "FLO_51"; "FLO_52"; "FLO_53"; "FLO_54"; "FLO_55"; "FLO_56"; "FLO_57"; "FLO_58"; "FLO_59"; "FLI_60"; "FLI_61"; "FLI_62"; "FLI_63"; "FLI_64"; "FLI_65"; "FLI_66"; "FLI_67"; "FP_68"; "FP_69" ],
   [ (8, 7); (7, 6); (6, 5); (5, 4); (4, 3); (3, 2); (2, 1); (1, 0); (8, 9); (9, 10); (10, 11); (11, 12); (12, 13); (13, 14); (14, 15); (15, 16); (48, 49); (49, 50); (50, 51); (51, 52); (52, 53); (53, 54); (54, 55); (55, 56); (56, 57); (57, 58); (58, 59); (59, 48); (60, 61); (61, 62); (62, 63); (63, 64); (64, 65); (65, 66); (66, 67); (67, 60); (27, 28); (28, 29); (29, 30); (30, 31); (31, 32); (32, 33); (33, 34); (34, 35); (30, 33); (17, 18); (18, 19); (19, 20); (20, 21); (22, 23); (23, 24); (24, 25); (25, 26); (36, 37); (37, 38); (38, 39); (39, 40); (40, 41); (41, 36); (42, 43); (43, 44); (44, 45); (45, 46); (46, 47); (47, 42) ],
   "XYC");
    ("hand_left_keypoints_2d",
   [ "BASE"; "T_STT"; "T_BCMC"; "T_MCP"; "T_IP"; "I_CMC"; "I_MCP"; "I_PIP"; "I_DIP"; "M_CMC"; "M_MCP"; "M_PIP"; "M_DIP"; "R_CMC"; "R_MCP"; "R_PIP"; "R_DIP"; "P_CMC"; "P_MCP"; "P_PIP"; "P_DIP" ],
   [ (0, 1); (0, 5); (0, 9); (0, 13); (0, 17); (1, 2); (2, 3); (3, 4); (5, 6); (6, 7); (7, 8); (9, 10); (10, 11); (11, 12); (13, 14); (14, 15); (15, 16); (17, 18); (18, 19); (19, 20) ],
   "XYC");
    ("hand_right_keypoints_2d",
   [ "BASE"; "T_STT"; "T_BCMC"; "T_MCP"; "T_IP"; "I_CMC"; "I_MCP"; "I_PIP"; "I_DIP"; "M_CMC"; "M_MCP"; "M_PIP"; "M_DIP"; "R_CMC"; "R_MCP"; "R_PIP"; "R_DIP"; "P_CMC"; "P_MCP"; "P_PIP"; "P_DIP" ],
   [ (0, 1); (0, 5); (0, 9); (0, 13); (0, 17); (1, 2); (2, 3); (3, 4); (5, 6); (6, 7); (7, 8); (9, 10); (10, 11); (11, 12); (13, 14); (14, 15); (15, 16); (17, 18); (18, 19); (19, 20) ],
   "XYC") ].

Definition components_135 : list (string * list string * list (nat * nat) * string) :=
  [ ("BODY_135",
   [ "Nose"; "LEye"; "REye"; "LEar"; "REar"; "LShoulder"; "RShoulder"; "LElbow"; "RElbow"; "LWrist"; "RWrist"; "LHip"; "RHip"; "LKnee"; "RKnee"; "LAnkle"; "RAnkle"; "UpperNeck"; "HeadTop"; "LBigToe"; "LSmallToe"; "LHeel"; "RBigToe"; "RSmallToe"; "RHeel"; "LThumb1CMC"; "LThumb2Knuckles"; "LThumb3IP"; "LThumb4FingerTip"; "LIndex1Knuckles"; "LIndex2PIP"; "LIndex3DIP"; "LIndex4FingerTip"; "LMiddle1Knuckles"; "LMiddle2PIP"; "LMiddle3DIP"; "LMiddle4FingerTip"; "LRing1Knuckles"; "LRing2PIP"; "LRing3DIP"; "LRing4FingerTip"; "LPinky1Knuckles"; "LPinky2PIP"; "LPinky3DIP"; "LPinky4FingerTip"; "RThumb1CMC"; "RThumb2Knuckles"; "RThumb3IP"; "RThumb4FingerTip"; "RIndex1Knuckles"; "RIndex2PIP"; "RIndex3DIP"; "RIndex4FingerTip"; "RMiddle1Knuckles"; "RMiddle2PIP"; "RMiddle3DIP"; "RMiddle4FingerTip"; "RRing1Knuckles"; "RRing2PIP"; "RRing3DIP"; "RRing4FingerTip"; "RPinky1Knuckles"; "RPinky2PIP"; "RPinky3DIP"; "RPinky4FingerTip"; "FaceContour0"; "FaceContour1"; "FaceContour2"; "FaceContour3"; "FaceContour4"; "FaceContour5"; "FaceContour6"; "FaceContour7"; "FaceContour8"; "FaceContour9"; "FaceContour10"; "FaceContour11"; "FaceContour12"; "FaceContour13"; "FaceContour14"; "FaceContour15"; "FaceContour16"; "REyeBrow0"; "REyeBrow1"; "REyeBrow2"; "REyeBrow3"; "REyeBrow4"; "LEyeBrow4"; "LEyeBrow3"; "LEyeBrow2"; "LEyeBrow1"; "LEyeBrow0"; "NoseUpper0"; "NoseUpper1"; "NoseUpper2"; "NoseUpper3"; "NoseLower0"; "NoseLower1"; "NoseLower2"; "NoseLower3"; "NoseLower4"; "REye0"; "REye1"; "REye2"; "REye3"; "REye4"; "REye5"; "LEye0"; "LEye1"; "LEye2"; "LEye3"; "LEye4"; "LEye5"; "OMouth0"; "OMouth1"; "OMouth2"; "OMouth3"; "OMouth4"; "OMouth5"; "OMouth6"; "OMouth7"; "OMouth8"; "OMouth9"; "OMouth10"; "OMouth11"; "IMouth0"; "IMouth1"; "IMouth2"; "IMouth3"; "IMouth4"; "IMouth5"; "IMouth6"; "IMouth7"; "RPupil"; "LPupil" ],
   [ (6, 5); (6, 8); (8, 10); (5, 7); (7, 9); (0, 1); (0, 2); (0, 3); (0, 4); (12, 11); (12, 6); (11, 5); (12, 14); (14, 16); (11, 13); (13, 15); (16, 24); (16, 22); (22, 23); (15, 21); (15, 19); (19, 20); (9, 25); (10, 45); (9, 29); (10, 49); (9, 33); (10, 53); (9, 37); (10, 57); (9, 41); (10, 61); (25, 26); (45, 46); (26, 27); (46, 47); (27, 28); (47, 48); (29, 30); (49, 50); (30, 31); (50, 51); (31, 32); (51, 52); (33, 34); (53, 54); (34, 35); (54, 55); (35, 36); (55, 56); (37, 38); (57, 58); (38, 39); (58, 59); (39, 40); (59, 60); (41, 42); (61, 62); (42, 43); (62, 63); (43, 44); (63, 64); (73, 72); (72, 71); (71, 70); (70, 69); (69, 68); (68, 67); (67, 66); (66, 65); (73, 74); (74, 75); (75, 76); (76, 77); (77, 78); (78, 79); (79, 80); (80, 81); (113, 114); (114, 115); (115, 116); (116, 117); (117, 118); (118, 119); (119, 120); (120, 121); (121, 122); (122, 123); (123, 124); (124, 113); (125, 126); (126, 127); (127, 128); (128, 129); (129, 130); (130, 131); (131, 132); (132, 125); (92, 93); (93, 94); (94, 95); (95, 96); (96, 97); (97, 98); (98, 99); (99, 100); (95, 98); (82, 83); (83, 84); (84, 85); (85, 86); (87, 88); (88, 89); (89, 90); (90, 91); (101, 102); (102, 103); (103, 104); (104, 105); (105, 106); (106, 101); (107, 108); (108, 109); (109, 110); (110, 111); (111, 112); (112, 107) ],
   "XYC") ].

