(* C19 - the four nested loops of load_openpose (openpose.py:266-275) against the cell view of the arrays. *)
From Coq Require Import List Arith NArith Bool Lia.
Require Import Result F32 C19_Layout C19_FrameId C19_OpenPose C19_Spec C19_ArrayLemmas.
Import ListNotations.
Local Open Scope nat_scope.

Definition flat (ts : list triple) : list N := concat (map (fun t : triple => let '(x, y, c) := t in [x; y; c]) ts).
Lemma flat_cons x y c ts : flat ((x, y, c) :: ts) = x :: y :: c :: flat ts.
Proof. reflexivity. Qed.
Lemma flat_length ts : length (flat ts) = 3 * length ts.
Proof. induction ts as [|[[x y] c] ts IH]; [reflexivity|]. rewrite flat_cons. cbn [length]. lia. Qed.
Lemma chunk3_flat : forall ts l, chunk3 l = Some ts -> l = flat ts.
Proof.
  induction ts as [|t ts IH]; intros l H; destruct l as [|x [|y [|c r]]]; cbn [chunk3] in H; try discriminate.
  - reflexivity.
  - destruct (chunk3 r); discriminate.
  - destruct (chunk3 r) as [t'|] eqn:E; [|discriminate]. injection H as <- <-. rewrite flat_cons. now rewrite (IH r E).
Qed.
Lemma chunk3_of_flat ts : chunk3 (flat ts) = Some ts.
Proof. induction ts as [|[[x y] c] ts IH]; [reflexivity|]. rewrite flat_cons. cbn [chunk3]. now rewrite IH. Qed.

(* cells (f, p, lo .. lo+n-1) *)
Definition inrow (f p lo n f' p' k' : nat) : bool := Nat.eqb f' f && (Nat.eqb p' p && ((lo <=? k') && (k' <? lo + n))).

Section Loops.
Variables F P K : nat.

(* [a'] is [a] with the triples [ts] written to the points lo, lo+1, ... of row (f, p) *)
Definition wrote (f p lo : nat) (ts : list triple) (a a' : arrays) : Prop :=
  shaped F P K a' /\
  forall f' p' k', cell a' f' p' k' =
    if inrow f p lo (length ts) f' p' k' then option_map cast3 (nth_error ts (k' - lo)) else cell a f' p' k'.

Lemma wrote_nil f p lo a : shaped F P K a -> wrote f p lo [] a a.
Proof.
  intros Hs. split; [exact Hs|]. intros f' p' k'. unfold inrow. cbn [length]. rewrite Nat.add_0_r.
  destruct (Nat.leb_spec lo k'), (Nat.ltb_spec k' lo); try lia; rewrite ?andb_false_r; reflexivity.
Qed.
Lemma wrote_app f p lo t1 t2 a a1 a2 :
  wrote f p lo t1 a a1 -> wrote f p (lo + length t1) t2 a1 a2 -> wrote f p lo (t1 ++ t2) a a2.
Proof.
  intros [_ G1] [Hs G2]. split; [exact Hs|]. intros f' p' k'. rewrite G2, G1. unfold inrow. rewrite app_length.
  destruct (Nat.eqb f' f); [|reflexivity]. destruct (Nat.eqb p' p); [|reflexivity].
  destruct (Nat.leb_spec (lo + length t1) k'), (Nat.ltb_spec k' (lo + length t1 + length t2)), (Nat.leb_spec lo k'),
           (Nat.ltb_spec k' (lo + length t1)), (Nat.ltb_spec k' (lo + (length t1 + length t2))); cbn [andb]; try lia; try reflexivity.
  - rewrite nth_error_app2 by lia. do 2 f_equal. lia.
  - rewrite nth_error_app1 by lia. reflexivity.
Qed.
(* the three stores of openpose.py:272-274 *)
Lemma wrote_one f p k x y c a : shaped F P K a -> f < F -> p < P -> k < K ->
  exists d1 d2 c1,
    store4 f p k 0 (cast32 x) (a_data a) = Some d1 /\ store4 f p k 1 (cast32 y) d1 = Some d2 /\
    store3 f p k (cast32 c) (a_conf a) = Some c1 /\ wrote f p k [(x, y, c)] a (mkA d2 c1).
Proof.
  intros [Hd Hc] Hf Hp Hk.
  destruct (store4_spec F P K 2 f p k 0 (cast32 x) _ Hd Hf Hp Hk ltac:(lia)) as (d1 & S1 & R1 & G1).
  destruct (store4_spec F P K 2 f p k 1 (cast32 y) _ R1 Hf Hp Hk ltac:(lia)) as (d2 & S2 & R2 & G2).
  destruct (store3_spec F P K f p k (cast32 c) _ Hc Hf Hp Hk) as (c1 & S3 & R3 & G3).
  exists d1, d2, c1. split; [exact S1|]. split; [exact S2|]. split; [exact S3|]. split; [split; assumption|].
  intros f' p' k'. unfold cell; cbn [a_data a_conf]. rewrite !G2, !G1, G3. unfold inrow, hit. cbn [length].
  destruct (Nat.eqb f' f); [|reflexivity]. destruct (Nat.eqb p' p); [|reflexivity].
  destruct (Nat.leb_spec k k'), (Nat.ltb_spec k' (k + 1)), (Nat.eqb_spec k' k) as [->|N]; try lia; [rewrite Nat.sub_diag|..]; reflexivity.
Qed.

Lemma kp_loop_ok f p : f < F -> p < P ->
  forall ts fuel kid a, shaped F P K a -> kid + length ts <= K -> length (flat ts) <= fuel ->
  exists a', kp_loop fuel 3 (flat ts) f p kid a = Ok (kid + length ts, a') /\ wrote f p kid ts a a'.
Proof.
  intros Hf Hp. induction ts as [|[[x y] c] ts IH]; intros fuel kid a Hs Hk Hfu.
  - exists a. split; [|apply wrote_nil, Hs]. rewrite Nat.add_0_r. destruct fuel; reflexivity.
  - rewrite flat_cons in *. cbn [length] in Hk, Hfu.
    destruct fuel as [|fuel]; [lia|]. cbn [kp_loop].
    destruct (wrote_one f p kid x y c a Hs Hf Hp ltac:(lia)) as (d1 & d2 & c1 & S1 & S2 & S3 & W).
    rewrite S1. cbn [nth_error]. rewrite S2, S3. cbn [skipn].
    destruct (IH fuel (S kid) (mkA d2 c1) (proj1 W) ltac:(lia) ltac:(lia)) as (a' & E & W').
    exists a'. split; [rewrite E; do 2 f_equal; cbn [length]; lia|].
    apply (wrote_app f p kid [(x, y, c)] ts a _ a' W). cbn [length]. rewrite Nat.add_1_r. exact W'.
Qed.

Lemma comp_loop_ok f p : f < F -> p < P ->
  forall cs per ts kid a, Forall (fun c => length (c_format c) = 3) cs -> person_triples cs per = Some ts ->
  shaped F P K a -> kid + length ts <= K ->
  exists a', comp_loop cs per f p kid a = Ok (kid + length ts, a') /\ wrote f p kid ts a a'.
Proof.
  intros Hf Hp. induction cs as [|c cs IH]; intros per ts kid a Hfmt Hpt Hs Hk; cbn [person_triples] in Hpt.
  - injection Hpt as <-. exists a. split; [|apply wrote_nil, Hs]. cbn [comp_loop length]. now rewrite Nat.add_0_r.
  - inversion Hfmt as [|c' cs' Hc Hcs]; subst.
    destruct (lookup (c_name c) per) as [ns|] eqn:El; [|discriminate].
    destruct (chunk3 ns) as [t1|] eqn:E1; [|discriminate].
    destruct (person_triples cs per) as [t2|] eqn:E2; [|discriminate]. injection Hpt as <-.
    rewrite app_length in Hk. apply chunk3_flat in E1. subst ns.
    cbn [comp_loop]. rewrite El, Hc. cbn [Nat.eqb].
    destruct (kp_loop_ok f p Hf Hp t1 (length (flat t1)) kid a Hs ltac:(lia) ltac:(lia)) as (a1 & R1 & W1).
    rewrite R1. cbn [rbind fst snd].
    destruct (IH per t2 (kid + length t1) a1 Hcs E2 (proj1 W1) ltac:(lia)) as (a2 & R2 & W2).
    exists a2. split; [rewrite R2, app_length; do 2 f_equal; lia|exact (wrote_app _ _ _ _ _ _ _ _ W1 W2)].
Qed.

(* what the person contributes to point k', [dflt] beyond the triples it lists *)
Definition pcell (cs : list comp) (per : person) (k' : nat) (dflt : option triple) : option triple :=
  match person_triples cs per with
  | Some ts => match nth_error ts k' with Some t => Some (cast3 t) | None => dflt end
  | None => dflt
  end.
Definition fits (cs : list comp) (per : person) : Prop := exists ts, person_triples cs per = Some ts /\ length ts <= K.

Lemma person_loop_ok cs f : f < F -> Forall (fun c => length (c_format c) = 3) cs ->
  forall people p0 a, Forall (fits cs) people -> shaped F P K a -> p0 + length people <= P ->
  exists a', person_loop cs people f p0 a = Ok a' /\ shaped F P K a' /\
    forall f' p' k', cell a' f' p' k' =
      if Nat.eqb f' f && (p0 <=? p') then
        match nth_error people (p' - p0) with Some per => pcell cs per k' (cell a f' p' k') | None => cell a f' p' k' end
      else cell a f' p' k'.
Proof.
  intros Hf Hfmt. induction people as [|per rest IH]; intros p0 a Hfit Hs Hp.
  - exists a. split; [reflexivity|]. split; [exact Hs|]. intros f' p' k'.
    destruct (Nat.eqb f' f && (p0 <=? p')); [|reflexivity]. destruct (p' - p0); reflexivity.
  - inversion Hfit as [|per' rest' [ts [Ept Hlen]] Hrest]; subst. cbn [length] in Hp. cbn [person_loop].
    destruct (comp_loop_ok f p0 Hf ltac:(lia) cs per ts 0 a Hfmt Ept Hs ltac:(lia)) as (a1 & R1 & Hs1 & G1).
    rewrite R1. cbn [rbind snd].
    destruct (IH (S p0) a1 Hrest Hs1 ltac:(lia)) as (a2 & R2 & Hs2 & G2).
    exists a2. split; [exact R2|]. split; [exact Hs2|].
    intros f' p' k'. rewrite G2, !G1. unfold inrow, pcell. rewrite Nat.sub_0_r. cbn [Nat.add].
    destruct (Nat.eqb_spec f' f) as [->|Nf]; cbn [andb]; [|reflexivity].
    destruct (Nat.leb_spec (S p0) p'), (Nat.leb_spec p0 p'); try lia.
    + destruct (Nat.eqb_spec p' p0); [lia|]. cbn [andb].
      replace (p' - p0) with (S (p' - S p0)) by lia. cbn [nth_error]. reflexivity.
    + assert (p' = p0) by lia. subst p'. rewrite Nat.eqb_refl, Nat.sub_diag. cbn [andb nth_error Nat.leb]. rewrite Ept.
      destruct (Nat.ltb_spec k' (length ts)) as [L|L]; [|now rewrite (proj2 (nth_error_None ts k') L)].
      destruct (nth_error ts k') eqn:E; [reflexivity|]. apply nth_error_None in E. lia.
    + destruct (Nat.eqb_spec p' p0); [lia|]. reflexivity.
Qed.

Lemma find_frame_none f (fs : frames) : ~ In f (map fst fs) -> find_frame f fs = None.
Proof.
  induction fs as [|[g fr] r IH]; intros H; [reflexivity|]. cbn [find_frame]. cbn [map fst In] in H.
  destruct (Nat.eqb_spec f g) as [->|N]; [tauto|]. apply IH. tauto.
Qed.

Lemma frame_loop_ok cs : Forall (fun c => length (c_format c) = 3) cs ->
  forall (fs : frames) a,
  Forall (fun x => fst x < F /\ length (snd x) <= P /\ Forall (fits cs) (snd x)) fs -> NoDup (map fst fs) -> shaped F P K a ->
  exists a', frame_loop cs fs a = Ok a' /\ shaped F P K a' /\
    forall f' p' k', cell a' f' p' k' =
      match find_frame f' fs with
      | Some fr => match nth_error fr p' with Some per => pcell cs per k' (cell a f' p' k') | None => cell a f' p' k' end
      | None => cell a f' p' k'
      end.
Proof.
  intros Hfmt. induction fs as [|[fid fr] rest IH]; intros a Hall Hnd Hs.
  - exists a. split; [reflexivity|]. split; [exact Hs|]. reflexivity.
  - inversion Hall as [|x r (Hf & Hp & Hfit) Hrest]; subst. cbn [fst snd] in *.
    cbn [map fst] in Hnd. inversion Hnd as [|y l Hnotin Hnd']; subst.
    cbn [frame_loop].
    destruct (person_loop_ok cs fid Hf Hfmt fr 0 a Hfit Hs ltac:(lia)) as (a1 & R1 & Hs1 & G1).
    rewrite R1. cbn [rbind].
    destruct (IH a1 Hrest Hnd' Hs1) as (a2 & R2 & Hs2 & G2).
    exists a2. split; [exact R2|]. split; [exact Hs2|].
    intros f' p' k'. rewrite G2. cbn [find_frame].
    destruct (Nat.eqb_spec f' fid) as [->|Nf].
    + rewrite (find_frame_none fid rest Hnotin). rewrite G1. rewrite Nat.eqb_refl. cbn [andb Nat.leb].
      rewrite Nat.sub_0_r. reflexivity.
    + destruct (find_frame f' rest) as [fr'|]; [|rewrite G1].
      * destruct (nth_error fr' p') as [per|]; rewrite G1; (destruct (Nat.eqb_spec f' fid); [contradiction|]); reflexivity.
      * destruct (Nat.eqb_spec f' fid); [contradiction|]. reflexivity.
Qed.
End Loops.
