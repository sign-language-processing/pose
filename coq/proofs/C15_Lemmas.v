(* C15 - general lemmas: zipw, bodies as nested lists, min / max of a list. *)
From Coq Require Import Reals ZArith List Bool Lia Lra.
Require Import Result ResultFacts Num RealFacts C15_Spatial C15_Real.
Import ListNotations.
Local Open Scope R_scope.

Lemma Reqb_refl x : Reqb x x = true.
Proof. exact (RealFacts.Reqb_refl x). Qed.

Lemma map_const {A B} (b : B) (l : list A) : map (fun _ => b) l = repeat b (length l).
Proof. induction l as [|x l IH]; cbn [map length repeat]; [reflexivity | now rewrite IH]. Qed.
Lemma nth_error_tabulate {X} (g : nat -> X) n k : nth_error (map g (seq 0 n)) k = if Nat.ltb k n then Some (g k) else None.
Proof. rewrite nth_error_map. destruct (Nat.ltb_spec k n) as [H|H].
  - rewrite (nth_error_nth' _ 0%nat) by (now rewrite seq_length). now rewrite seq_nth.
  - rewrite (proj2 (nth_error_None _ _)) by (now rewrite seq_length). reflexivity. Qed.

Section Zip.
Context {A B C : Type}.
Lemma zipw_length (f : A -> B -> C) l1 l2 : length (zipw f l1 l2) = Nat.min (length l1) (length l2).
Proof. revert l2; induction l1 as [|x r IH]; intros [|y r2]; cbn [zipw length Nat.min]; try reflexivity. now rewrite IH. Qed.
Lemma zipw_nth_error (f : A -> B -> C) l1 l2 k :
  nth_error (zipw f l1 l2) k =
  match nth_error l1 k, nth_error l2 k with Some x, Some y => Some (f x y) | _, _ => None end.
Proof. revert l2 k; induction l1 as [|x r IH]; intros [|y r2] [|k]; cbn [zipw nth_error]; try reflexivity.
  - now destruct (nth_error r k).
  - apply IH. Qed.
Lemma zipw_ext_in (f g : A -> B -> C) l1 l2 :
  (forall x y, In x l1 -> In y l2 -> f x y = g x y) -> zipw f l1 l2 = zipw g l1 l2.
Proof. revert l2; induction l1 as [|x r IH]; intros [|y r2] H; cbn [zipw]; try reflexivity.
  f_equal; [apply H; now left | apply IH; intros; apply H; now right]. Qed.
End Zip.
Lemma zipw_map_same {X A B C} (f : A -> B -> C) (g : X -> A) (h : X -> B) l :
  zipw f (map g l) (map h l) = map (fun x => f (g x) (h x)) l.
Proof. induction l as [|x r IH]; cbn [zipw map]; [reflexivity | now rewrite IH]. Qed.
Lemma zipw_map_l {X A B C} (f : A -> B -> C) (g : X -> A) l1 l2 :
  zipw f (map g l1) l2 = zipw (fun x y => f (g x) y) l1 l2.
Proof. revert l2; induction l1 as [|x r IH]; intros [|y r2]; cbn [zipw map]; try reflexivity. now rewrite IH. Qed.
Lemma zipw_map_r {X A B C} (f : A -> B -> C) (g : X -> B) l1 l2 :
  zipw f l1 (map g l2) = zipw (fun x y => f x (g y)) l1 l2.
Proof. revert l2; induction l1 as [|x r IH]; intros [|y r2]; cbn [zipw map]; try reflexivity. now rewrite IH. Qed.
Lemma map_zipw {A B C E} (g : C -> E) (f : A -> B -> C) l1 l2 :
  map g (zipw f l1 l2) = zipw (fun x y => g (f x y)) l1 l2.
Proof. revert l2; induction l1 as [|x r IH]; intros [|y r2]; cbn [zipw map]; try reflexivity. now rewrite IH. Qed.
Lemma zipw_fst_only {A B C} (f : A -> C) (l1 : list A) (l2 : list B) :
  (length l1 <= length l2)%nat -> zipw (fun x _ => f x) l1 l2 = map f l1.
Proof. revert l2; induction l1 as [|x r IH]; intros [|y r2] H; cbn [zipw map length] in *; try reflexivity; [lia|].
  f_equal. apply IH. lia. Qed.

Lemma Forall2_map_r {A B} (P : A -> Prop) (Rp : A -> B -> Prop) (f : A -> B) l :
  Forall P l -> (forall x, P x -> Rp x (f x)) -> Forall2 Rp l (map f l).
Proof. intros H Hf. induction H; cbn [map]; constructor; auto. Qed.
Lemma Forall_map_impl {A B} (P : A -> Prop) (Q : B -> Prop) (f : A -> B) l :
  Forall P l -> (forall x, P x -> Q (f x)) -> Forall Q (map f l).
Proof. intros H Hf. apply Forall_map. exact (Forall_impl _ Hf H). Qed.
Lemma map_ext_P {A B} (P : A -> Prop) (f g : A -> B) l : Forall P l -> (forall x, P x -> f x = g x) -> map f l = map g l.
Proof. intros H Hf. apply map_ext_Forall. exact (Forall_impl _ Hf H). Qed.
Lemma Forall2_impl_Forall {A B} (P : A -> Prop) (Q : B -> Prop) (R1 R2 : A -> B -> Prop) l l' :
  Forall P l -> Forall Q l' -> Forall2 R1 l l' -> (forall x y, P x -> Q y -> R1 x y -> R2 x y) -> Forall2 R2 l l'.
Proof. intros HP HQ HR H. induction HR; inversion HP; inversion HQ; subst; constructor; auto. Qed.

Lemma all3_rel3_map3 {O : ops} (P : point O -> Prop) (Rp : point O -> point O -> Prop) (f : point O -> point O) b :
  all3 P b -> (forall p, P p -> Rp p (f p)) -> rel3 Rp b (map3 O f b).
Proof. intros Hb Hf. apply (Forall2_map_r _ _ _ _ Hb). intros fr Hfr. apply (Forall2_map_r _ _ _ _ Hfr). intros pe Hpe.
  exact (Forall2_map_r _ _ _ _ Hpe Hf). Qed.
Lemma all3_map3 {O : ops} (P Q : point O -> Prop) (f : point O -> point O) b :
  all3 P b -> (forall p, P p -> Q (f p)) -> all3 Q (map3 O f b).
Proof. intros Hb Hf. apply (Forall_map_impl _ _ _ _ Hb). intros fr Hfr. apply (Forall_map_impl _ _ _ _ Hfr). intros pe Hpe.
  exact (Forall_map_impl _ _ _ _ Hpe Hf). Qed.
Lemma map3_ext_all3 {O : ops} (P : point O -> Prop) (f g : point O -> point O) b :
  all3 P b -> (forall p, P p -> f p = g p) -> map3 O f b = map3 O g b.
Proof. intros Hb Hf. apply (map_ext_P _ _ _ _ Hb). intros fr Hfr. apply (map_ext_P _ _ _ _ Hfr). intros pe Hpe.
  exact (map_ext_P _ _ _ _ Hpe Hf). Qed.
Lemma rel3_impl_all3 {A B} (P : A -> Prop) (Q : B -> Prop) (R1 R2 : A -> B -> Prop) X Y :
  all3 P X -> all3 Q Y -> rel3 R1 X Y -> (forall x y, P x -> Q y -> R1 x y -> R2 x y) -> rel3 R2 X Y.
Proof. intros HP HQ HR H. apply (Forall2_impl_Forall _ _ _ _ _ _ HP HQ HR). intros fr fr' H1 H2 H3.
  apply (Forall2_impl_Forall _ _ _ _ _ _ H1 H2 H3). intros pe pe' H4 H5 H6.
  exact (Forall2_impl_Forall _ _ _ _ _ _ H4 H5 H6 H). Qed.
Lemma map3_map3 {O : ops} (f g : point O -> point O) b : map3 O f (map3 O g b) = map3 O (fun p => f (g p)) b.
Proof. unfold map3. rewrite map_map. apply map_ext. intros fr. rewrite map_map. apply map_ext. intros pe. now rewrite map_map. Qed.
Lemma map3_id {O : ops} (b : frames O) : map3 O (fun p => p) b = b.
Proof. unfold map3. rewrite <- (map_id b) at 2. apply map_ext. intros fr. rewrite <- (map_id fr) at 2.
  apply map_ext. intros pe. apply map_id. Qed.
Lemma all_points_map3 {O : ops} (f : point O -> point O) b : all_points O (map3 O f b) = map f (all_points O b).
Proof. unfold all_points, map3. now rewrite !concat_map. Qed.
Lemma all3_all_points {O : ops} (P : point O -> Prop) b : all3 P b -> Forall P (all_points O b).
Proof. intros Hb. apply Forall_concat, Forall_concat. exact Hb. Qed.

Lemma zipw_rel_ext {A B C} (Rp : A -> B -> Prop) (f g : A -> B -> C) l1 l2 :
  Forall2 Rp l1 l2 -> (forall x y, Rp x y -> f x y = g x y) -> zipw f l1 l2 = zipw g l1 l2.
Proof. intros H Hf. induction H as [|x y r1 r2 Hxy Hr IH]; cbn [zipw]; [reflexivity|]. f_equal; [now apply Hf | exact IH]. Qed.
Lemma zip3_rel_ext {A B C} (Rp : A -> B -> Prop) (f g : A -> B -> C) X Y :
  rel3 Rp X Y -> (forall x y, Rp x y -> f x y = g x y) -> zip3 f X Y = zip3 g X Y.
Proof. intros H Hf. apply (zipw_rel_ext _ _ _ _ _ H). intros fr fr' H1. apply (zipw_rel_ext _ _ _ _ _ H1). intros pe pe' H2.
  exact (zipw_rel_ext _ _ _ _ _ H2 Hf). Qed.
Lemma map3_zip3 {O : ops} {A B} (g : point O -> point O) (f : A -> B -> point O) X Y :
  map3 O g (zip3 f X Y) = zip3 (fun p q => g (f p q)) X Y.
Proof. unfold map3, zip3. rewrite map_zipw. apply zipw_ext_in. intros fr fr' _ _.
  rewrite map_zipw. apply zipw_ext_in. intros pe pe' _ _. apply map_zipw. Qed.
Lemma zip3_map3 {O : ops} {C} (f : point O -> point O -> C) (g h : point O -> point O) X Y :
  zip3 f (map3 O g X) (map3 O h Y) = zip3 (fun p q => f (g p) (h q)) X Y.
Proof. unfold map3, zip3. rewrite zipw_map_l, zipw_map_r. apply zipw_ext_in. intros fr fr' _ _.
  rewrite zipw_map_l, zipw_map_r. apply zipw_ext_in. intros pe pe' _ _. now rewrite zipw_map_l, zipw_map_r. Qed.

(* both folds at once: [f] returns the one of its two arguments that comes first in the total preorder [le] *)
Section Pick.
Variables (le : R -> R -> Prop) (f : R -> R -> R).
Hypothesis le_refl : forall x, le x x.
Hypothesis le_trans : forall x y z, le x y -> le y z -> le x z.
Hypothesis f_pick : forall a b, (f a b = a /\ le a b) \/ (f a b = b /\ le b a).
Lemma fold_pick_spec r : forall x, (fold_left f r x = x \/ In (fold_left f r x) r) /\ le (fold_left f r x) x /\
  forall y, In y r -> le (fold_left f r x) y.
Proof. induction r as [|y r IH]; intros x; cbn [fold_left].
  - split; [now left|]. split; [apply le_refl|]. intros y [].
  - destruct (IH (f x y)) as [Hin [Hle Hall]]. destruct (f_pick x y) as [[E Hxy]|[E Hyx]]; rewrite E in *.
    + split; [destruct Hin as [->|Hin]; [now left | right; now right]|]. split; [exact Hle|].
      intros z [<-|Hz]; [now apply (le_trans _ x) | now apply Hall].
    + split; [right; destruct Hin as [->|Hin]; [now left | now right]|]. split; [now apply (le_trans _ y)|].
      intros z [<-|Hz]; [exact Hle | now apply Hall]. Qed.
Lemma pick_spec l m : match l with [] => None | x :: r => Some (fold_left f r x) end = Some m ->
  In m l /\ forall y, In y l -> le m y.
Proof. destruct l as [|x r]; [discriminate|]. intros [= <-]. destruct (fold_pick_spec r x) as [Hin [Hle Hall]]. split.
  - destruct Hin as [->|Hin]; [now left | now right].
  - intros y [<-|Hy]; [exact Hle | now apply Hall]. Qed.
End Pick.
Lemma min2_pick a b : (min2 R_ops a b = a /\ a <= b) \/ (min2 R_ops a b = b /\ b <= a).
Proof. unfold min2. rsimp. destruct (Rleb a b) eqn:E; [left | right]; (split; [reflexivity|]).
  - now apply Rleb_true. - apply Rleb_false in E. lra. Qed.
Lemma max2_pick a b : (max2 R_ops a b = a /\ b <= a) \/ (max2 R_ops a b = b /\ a <= b).
Proof. unfold max2. rsimp. destruct (Rleb a b) eqn:E; [right | left]; (split; [reflexivity|]).
  - now apply Rleb_true. - apply Rleb_false in E. lra. Qed.
Lemma lmin_spec l m : lmin R_ops l = Some m -> is_min m l.
Proof. exact (pick_spec Rle (min2 R_ops) Rle_refl Rle_trans min2_pick l m). Qed.
Lemma lmax_spec l m : lmax R_ops l = Some m -> is_max m l.
Proof. exact (pick_spec (fun a b => b <= a) (max2 R_ops) Rle_refl (fun x y z H1 H2 => Rle_trans z y x H2 H1) max2_pick l m). Qed.
Lemma lmin_none {O : ops} (l : list (T O)) : lmin O l = None <-> l = [].
Proof. destruct l; cbn [lmin]; split; intros H; try reflexivity; discriminate. Qed.
Lemma lmax_none {O : ops} (l : list (T O)) : lmax O l = None <-> l = [].
Proof. destruct l; cbn [lmax]; split; intros H; try reflexivity; discriminate. Qed.
Lemma is_min_unique a b l : is_min a l -> is_min b l -> a = b.
Proof. intros [Ha1 Ha2] [Hb1 Hb2]. specialize (Ha2 _ Hb1). specialize (Hb2 _ Ha1). lra. Qed.
Lemma min_max_smallest lo hi l : is_min lo l -> is_max hi l -> smallest_interval lo hi l.
Proof. intros [Hl1 Hl2] [Hh1 Hh2]. split.
  - intros x Hx. split; [now apply Hl2 | now apply Hh2].
  - intros lo' hi' H. split; [apply (H lo Hl1) | apply (H hi Hh1)]. Qed.

Lemma rmapM_ok {A B} (f : A -> result B) l r : rmapM f l = Ok r -> Forall2 (fun x y => f x = Ok y) l r.
Proof. exact (rmapM_Forall2 f l r). Qed.
