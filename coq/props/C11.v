(* C11 - Selecting, removing or hiding points by name affects exactly those points.
   Objects (components, bodies) live in a heap [h]; a pose [p] names them by address; [deref h p] is the pose value.
   Hypothesis forced by "by name" (DESIGN section 7): [names_unique] - component names are pairwise different and point
   names are pairwise different inside a component (a boolean NoDup predicate); [header_wf] adds "limbs name points".
   [tfe = true]: tf.gather on a Python list, which raises on an empty index list (finding F17); [tfe = false]: the list
   cast to an int32 tensor first, which is what the source does (entry 8 of Gen_C08.cfg_code, props/C08.v ctor_cfg_tie). *)
From Coq Require Import List Arith Bool NArith ZArith.
Require Import Result Tensor C11_Str C11_Select C11_Helpers C11_Heap C11_Tables Gen_C11.
Require Import C11_SelectProofs C11_RemoveProofs C11_HelperProofs C11_Main C11_Examples.
Import ListNotations.
Open Scope str_scope.
Open Scope list_scope.

(* ---- the flat index of a named point is its position in the flattened (component, point) list, and the only one *)
Theorem point_index_position : forall cs c p k,
  (point_index cs c p = Ok k -> k < total_points cs /\ nth_error (flat_names cs) k = Some (c, p)) /\
  (names_unique cs = true -> nth_error (flat_names cs) k = Some (c, p) -> point_index cs c p = Ok k).
Proof. exact (fun cs c p k => conj (point_index_spec cs c p k) (point_index_unique cs c p k)). Qed.
Print Assumptions point_index_position.

(* ---- selection: point i of the result carries coordinates, confidence and missing flag of the source point with that
   component and name, for every frame and person; any order of components, any sub-list / permutation of points *)
Theorem select_points : forall tfe h p sel pts h' p' v F P D,
  deref h p = Ok v -> source_ok v F P D -> get_components_h tfe h p sel pts = Ok (h', p') ->
  exists v', deref h' p' = Ok v' /\
    body_shape (v_body v') F P (total_points (v_comps v')) D /\
    b_fps (v_body v') = b_fps (v_body v) /\ b_backend (v_body v') = b_backend (v_body v) /\
    v_version v' = v_version v /\ v_dims v' = v_dims v /\
    forall i c n, nth_error (flat_names (v_comps v')) i = Some (c, n) ->
      exists k, point_index (v_comps v) c n = Ok k /\ nth_error (flat_names (v_comps v)) k = Some (c, n) /\
        forall f q, f < F -> q < P ->
          tget 0%Z (b_conf (v_body v')) [f; q; i] = tget 0%Z (b_conf (v_body v)) [f; q; k] /\
          forall e, e < D -> tget 0%Z (b_data (v_body v')) [f; q; i; e] = tget 0%Z (b_data (v_body v)) [f; q; k; e] /\
                             tget false (b_mask (v_body v')) [f; q; i; e] = tget false (b_mask (v_body v)) [f; q; k; e].
Proof. exact C11_Main.select_points. Qed.
Print Assumptions select_points.

(* ---- the result has the requested components in the requested order, each with the requested points; its limbs connect
   the same named points as before, in the same order and orientation; limbs with a dropped endpoint disappear;
   colours and format are kept *)
Theorem select_limbs : forall tfe h p sel pts h' p' v,
  deref h p = Ok v -> header_wf (v_comps v) = true -> get_components_h tfe h p sel pts = Ok (h', p') ->
  exists v', deref h' p' = Ok v' /\
    Forall2 (fun name c' => exists c, In c (v_comps v) /\ c_name c = name /\ c_name c' = name /\
               c_colors c' = c_colors c /\ c_format c' = c_format c /\
               c_points c' = match pts_lookup pts name with Some np => np | None => c_points c end /\
               limb_names c' = filter (fun ab => mem (fst ab) (c_points c') && mem (snd ab) (c_points c')) (limb_names c))
            sel (v_comps v').
Proof. exact C11_Main.select_limbs. Qed.
Print Assumptions select_limbs.

(* ---- the call only allocates: every object that existed before is unchanged, so is the source pose *)
Theorem select_pure : forall tfe h p sel pts h' p' v,
  get_components_h tfe h p sel pts = Ok (h', p') -> deref h p = Ok v ->
  (exists ext, h' = h ++ ext) /\ deref h' p = Ok v /\ (forall a, a < length h -> nth_error h' a = nth_error h a).
Proof. exact select_pure_h. Qed.
Print Assumptions select_pure.

(* ---- a request naming existing components / points is served (NumPy, Torch; TensorFlow with [tfe = false]) *)
Theorem select_defined : forall tfe h p sel pts v F P D,
  deref h p = Ok v -> source_ok v F P D ->
  ((forall s, In s sel -> In s (map c_name (v_comps v))) /\
   (forall c np, In c (v_comps v) -> In (c_name c) sel -> pts_lookup pts (c_name c) = Some np -> forall q, In q np -> In q (c_points c))) ->
  (tfe = false \/ b_backend (v_body v) <> TF) -> exists r, get_components_h tfe h p sel pts = Ok r.
Proof. intros tfe h p sel pts v F P D Hd [Hu Hb] [R1 R2] Htf.
  destruct (select_defined_v tfe _ _ sel pts _ _ _ Hu Hb R1 R2 Htf) as [r Hr].
  exact (refines_defined (get_components_h_refines tfe h p v sel pts Hd) Hr). Qed.
Print Assumptions select_defined.
(* with [tfe = true]: tf.gather(t, []) raises, so an empty selection has no result on the TensorFlow backend *)
Theorem select_defined_tf_empty_refuted : forall b, b_backend b = TF -> get_points true [] b = Err Value.
Proof. intros b H. unfold get_points. rewrite H. reflexivity. Qed.
Print Assumptions select_defined_tf_empty_refuted.

(* ---- removal = selection of the complement: exactly the surviving points, in source order, each with its column;
   never fails, absent names are ignored; the source is unchanged *)
Theorem remove_is_complement : forall tfe h p R pts h' p' v F P D,
  deref h p = Ok v -> source_ok v F P D -> remove_components_h tfe h p R pts = Ok (h', p') ->
  exists v', deref h' p' = Ok v' /\
    get_components_v tfe (v_comps v) (v_body v) (map c_name (kept_components R (v_comps v)))
       (Some (map (fun c => (c_name c, remaining_points pts c)) (kept_components R (v_comps v)))) = Ok (v_comps v', v_body v') /\
    flat_names (v_comps v') = filter (survives R pts) (flat_names (v_comps v)) /\
    map c_name (v_comps v') = filter (fun n => negb (mem n R)) (map c_name (v_comps v)) /\
    carries_named_points v v' F P D /\
    (exists ext, h' = h ++ ext) /\ deref h' p = Ok v.
Proof. exact C11_Main.remove_is_complement. Qed.
Print Assumptions remove_is_complement.
Theorem remove_defined : forall tfe h p R pts v F P D,
  deref h p = Ok v -> source_ok v F P D -> (tfe = false \/ b_backend (v_body v) <> TF) ->
  exists r, remove_components_h tfe h p R pts = Ok r.
Proof. intros tfe h p R pts v F P D Hd [Hu Hb] Htf.
  destruct (remove_defined_v tfe _ _ R pts _ _ _ Hu Hb Htf) as [r Hr].
  exact (refines_defined (remove_components_h_refines tfe h p v R pts Hd) Hr). Qed.
Print Assumptions remove_defined.

(* ---- pose_hide_legs(remove=False): in place; the header and every column it does not name are unchanged, the named
   columns that exist become 0 / confidence 0 / not missing; no other object is touched.  For every name table. *)
Theorem hide_legs_hides_only_named : forall T tfe h p h' p' v F P D,
  hide_legs_h T tfe h p false = Ok (h', p') -> deref h p = Ok v -> body_shape (v_body v) F P (total_points (v_comps v)) D ->
  p' = p /\ exists f tbl b', detect T (map c_name (v_comps v)) = Ok f /\ hide_table T f = Ok tbl /\
    deref h' p = Ok (mkV (v_version v) (v_dims v) (v_bbox v) (v_comps v) b') /\
    hidden_columns (hide_indices (v_comps v) tbl) (v_body v) b' F P (total_points (v_comps v)) D /\
    (forall k, In k (hide_indices (v_comps v) tbl) <->
               exists c ps n, In (c, ps) tbl /\ In n ps /\ point_index (v_comps v) c n = Ok k) /\
    length h' = length h /\ forall a, a <> p_body p -> nth_error h' a = nth_error h a.
Proof. intros T tfe h p h' p' v F P D H Hd Hb.
  destruct (hide_legs_inplace_h _ _ _ _ _ _ _ _ _ _ _ H Hd Hb) as [E [f [tbl [b' [A1 [A2 [A3 [A4 [A5 A6]]]]]]]]].
  split; [exact E|]. exists f, tbl, b'. split; [exact A1|]. split; [exact A2|]. split; [exact A3|]. split; [exact A4|].
  split; [intros k; apply hide_indices_spec|]. split; [exact A5|exact A6]. Qed.
Print Assumptions hide_legs_hides_only_named.
(* ---- pose_hide_legs(remove=True): the named points disappear, every other point keeps its column; source unchanged *)
Theorem hide_legs_removes_only_named : forall T tfe h p h' p' v F P D,
  hide_legs_h T tfe h p true = Ok (h', p') -> deref h p = Ok v -> source_ok v F P D ->
  exists f tbl v', detect T (map c_name (v_comps v)) = Ok f /\ hide_table T f = Ok tbl /\ deref h' p' = Ok v' /\
    flat_names (v_comps v') = filter (survives [] (Some tbl)) (flat_names (v_comps v)) /\
    map c_name (v_comps v') = map c_name (v_comps v) /\
    carries_named_points v v' F P D /\ (exists ext, h' = h ++ ext) /\ deref h' p = Ok v.
Proof. intros T tfe h p h' p' v F P D H Hd Hs. destruct (hide_legs_remove_h _ _ _ _ _ _ H Hd) as [f [tbl [A1 [A2 A3]]]].
  destruct (C11_Main.remove_is_complement _ _ _ _ _ _ _ _ _ _ _ Hd Hs A3) as [v' [B1 [_ [B3 [B4 [B5 [B6 B7]]]]]]].
  exists f, tbl, v'. split; [exact A1|]. split; [exact A2|]. split; [exact B1|]. split; [exact B3|].
  split; [rewrite B4; apply C11_ListLemmas.filter_all; reflexivity|]. split; [exact B5|]. split; [exact B6|exact B7]. Qed.
Print Assumptions hide_legs_removes_only_named.

(* ---- correct_wrist: works on a deep copy (source untouched); only the body-wrist column can change: it takes the
   hand-wrist column where the hand wrist's confidence is non-zero *)
Theorem correct_wrist_changes_only_body_wrist : forall T h p hand h' p' v F P D,
  correct_wrist_h T h p hand = Ok (h', p') -> deref h p = Ok v -> body_shape (v_body v) F P (total_points (v_comps v)) D ->
  (forall a, a < length h -> nth_error h' a = nth_error h a) /\ deref h' p = Ok v /\
  exists b' f hw bw wi bi, deref h' p' = Ok (mkV (v_version v) (v_dims v) (v_bbox v) (v_comps v) b') /\
    detect T (map c_name (v_comps v)) = Ok f /\ wrist_entry T f hand = Ok (hw, bw) /\
    point_index (v_comps v) (fst hw) (snd hw) = Ok wi /\ point_index (v_comps v) (fst bw) (snd bw) = Ok bi /\
    wrist_corrected wi bi (v_body v) b' F P (total_points (v_comps v)) D.
Proof. intros T h p hand h' p' v F P D H Hd Hb. destruct (correct_wrist_h_spec _ _ _ _ _ _ _ H Hd) as [[ext ->] [b' [A3 A4]]].
  split; [intros a Ha; now apply nth_error_app1|]. split; [now apply deref_ext|].
  destruct (correct_wrist_body_spec _ _ _ _ _ _ _ _ _ Hb A3) as [f [hw [bw [wi [bi [B1 [B2 [B3 [B4 [_ [_ B7]]]]]]]]]]].
  exists b', f, hw, bw, wi, bi. auto 10. Qed.
Print Assumptions correct_wrist_changes_only_body_wrist.
Theorem correct_wrists_is_left_then_right : forall T h p l r h' p' v F P D,
  correct_wrists_h T h p l r = Ok (h', p') -> deref h p = Ok v -> body_shape (v_body v) F P (total_points (v_comps v)) D ->
  (forall a, a < length h -> nth_error h' a = nth_error h a) /\ deref h' p = Ok v /\
  exists b1 b2 f hw1 bw1 w1 i1 hw2 bw2 w2 i2,
    deref h' p' = Ok (mkV (v_version v) (v_dims v) (v_bbox v) (v_comps v) b2) /\
    detect T (map c_name (v_comps v)) = Ok f /\
    wrist_entry T f l = Ok (hw1, bw1) /\ point_index (v_comps v) (fst hw1) (snd hw1) = Ok w1 /\ point_index (v_comps v) (fst bw1) (snd bw1) = Ok i1 /\
    wrist_entry T f r = Ok (hw2, bw2) /\ point_index (v_comps v) (fst hw2) (snd hw2) = Ok w2 /\ point_index (v_comps v) (fst bw2) (snd bw2) = Ok i2 /\
    wrist_corrected w1 i1 (v_body v) b1 F P (total_points (v_comps v)) D /\
    wrist_corrected w2 i2 b1 b2 F P (total_points (v_comps v)) D.
Proof. intros T h p l r h' p' v F P D H Hd Hb.
  destruct (correct_wrists_h_spec _ _ _ _ _ _ _ _ H Hd) as [[ext ->] [b1 [b2 [A3 [A4 A5]]]]].
  split; [intros a Ha; now apply nth_error_app1|]. split; [now apply deref_ext|].
  destruct (correct_wrist_body_spec _ _ _ _ _ _ _ _ _ Hb A3) as [f [hw1 [bw1 [w1 [i1 [B1 [B2 [B3 [B4 [_ [_ B7]]]]]]]]]]].
  assert (Hb1 : body_shape b1 F P (total_points (v_comps v)) D) by (destruct B7; assumption).
  destruct (correct_wrist_body_spec _ _ _ _ _ _ _ _ _ Hb1 A4) as [f' [hw2 [bw2 [w2 [i2 [C1 [C2 [C3 [C4 [_ [_ C7]]]]]]]]]]].
  assert (f' = f) by congruence. subst f'.
  exists b1, b2, f, hw1, bw1, w1, i1, hw2, bw2, w2, i2. auto 15. Qed.
Print Assumptions correct_wrists_is_left_then_right.

(* ---- reduce_holistic: a non-Holistic pose is returned as it is; otherwise it is the selection of all components but the
   world landmarks, the face contour points and the body points whose names contain none of the ignored words *)
Theorem reduce_holistic_selects_named : forall T tfe h p h' p' v F P D,
  reduce_holistic_h T tfe h p = Ok (h', p') -> deref h p = Ok v -> source_ok v F P D ->
  (exists f, detect T (map c_name (v_comps v)) = Ok f /\ f <> Holistic /\ h' = h /\ p' = p) \/
  (detect T (map c_name (v_comps v)) = Ok Holistic /\
   exists bc v', In bc (v_comps v) /\ c_name bc = t_body_comp T /\ deref h' p' = Ok v' /\
     get_components_v tfe (v_comps v) (v_body v)
       (filter (fun n => negb (str_eqb n (t_world_comp T))) (map c_name (v_comps v)))
       (Some [(t_face_comp T, t_face_contours T);
              (t_body_comp T, filter (fun q => forallb (fun i => negb (substrb i q)) (t_ignore_names T)) (c_points bc))])
     = Ok (v_comps v', v_body v') /\
     carries_named_points v v' F P D /\ (exists ext, h' = h ++ ext) /\ deref h' p = Ok v).
Proof. intros T tfe h p h' p' v F P D H Hd Hs.
  destruct (reduce_holistic_h_spec _ _ _ _ _ _ _ H Hd) as [A|[A1 [names [pd [A2 A3]]]]]; [left; exact A|right].
  split; [exact A1|]. destruct (reduce_request_spec _ _ _ _ A2) as [bc [B1 [B2 [-> ->]]]].
  destruct (refines_value (get_components_h_refines tfe h p v _ _ Hd) A3) as [cs' [b' [Hv [[ext ->] Hd']]]].
  exists bc, (mkV (v_version v) (v_dims v) false cs' b'). cbn [v_comps v_body].
  split; [exact B1|]. split; [exact B2|]. split; [exact Hd'|]. split; [exact Hv|].
  split; [eapply select_carries; eassumption|]. split; [eauto|now apply deref_ext]. Qed.
Print Assumptions reduce_holistic_selects_named.

(* ---- ties: facts regenerated from /repo on this run (gen/Gen_C11.v) = what the model was written from *)
(* POINTS_DIMS and the transposes executed by the three get_points, in execution order *)
Theorem points_dims_tie : Gen_C11.points_dims = C11_Select.points_dims.
Proof. reflexivity. Qed.
Print Assumptions points_dims_tie.
Theorem get_points_perms_tie :
  Gen_C11.np_perms = [C11_Select.points_dims; C11_Select.points_dims; conf_perm; conf_perm] /\
  Gen_C11.torch_perms = [C11_Select.points_dims; C11_Select.points_dims; conf_perm; conf_perm] /\
  Gen_C11.tf_perms = [C11_Select.points_dims; C11_Select.points_dims; conf_perm; conf_perm].
Proof. repeat split; reflexivity. Qed.
Print Assumptions get_points_perms_tie.
(* get_components copies name, points, limbs, colours, format into the like-named constructor parameters, and builds the
   new header from (version, dimensions, components) with is_bbox left at its default False *)
Theorem constructors_tie :
  Gen_C11.component_ctor_params = ["name"; "points"; "limbs"; "colors"; "point_format"] /\
  firstn 5 Gen_C11.component_ctor_fields =
    [("name", "name"); ("points", "points"); ("limbs", "limbs"); ("colors", "colors"); ("format", "point_format")] /\
  Gen_C11.gc_component_args = ["component.name"; "component.points"; "component.limbs"; "component.colors"; "component.format"] /\
  Gen_C11.header_ctor_params = ["version"; "dimensions"; "components"; "is_bbox"] /\
  Gen_C11.header_ctor_defaults = ["False"] /\
  Gen_C11.header_ctor_fields = [("version", "version"); ("dimensions", "dimensions"); ("components", "components"); ("is_bbox", "is_bbox")] /\
  Gen_C11.gc_header_args = ["self.header.version"; "self.header.dimensions"; "new_components_order"] /\
  Gen_C11.gc_pose_args = ["header=new_header"; "body=new_body"].
Proof. repeat split; reflexivity. Qed.
Print Assumptions constructors_tie.
(* the name tables of utils/generic.py *)
Theorem tables_tie : Gen_C11.tables = C11_Tables.pinned_tables.
Proof. reflexivity. Qed.
Print Assumptions tables_tie.
(* generic.py's hard-coded list of MediaPipe component names is the list utils/holistic.py builds *)
Theorem holistic_names_tie : Gen_C11.holistic_component_names = t_mediapipe Gen_C11.tables.
Proof. reflexivity. Qed.
Print Assumptions holistic_names_tie.
Theorem correct_wrists_hands_tie : Gen_C11.correct_wrists_hands = ["LEFT"; "RIGHT"].
Proof. reflexivity. Qed.
Print Assumptions correct_wrists_hands_tie.
(* the translator's evaluation of `any(word in point ...)` agrees with the model's substring test *)
Theorem hide_openpose_tie :
  t_hide_openpose Gen_C11.tables =
  [("pose_keypoints_2d", filter (fun q => existsb (fun w => substrb w q) Gen_C11.hide_openpose_words) Gen_C11.openpose_body_points)].
Proof. reflexivity. Qed.
Print Assumptions hide_openpose_tie.
(* every leg point named for Holistic is a MediaPipe body landmark *)
Theorem hide_holistic_tie :
  forallb (fun e => forallb (fun q => mem q Gen_C11.flipped_body_points) (snd e)) (t_hide_holistic Gen_C11.tables) = true /\
  map fst (t_hide_holistic Gen_C11.tables) = ["POSE_LANDMARKS"; "POSE_WORLD_LANDMARKS"].
Proof. split; reflexivity. Qed.
Print Assumptions hide_holistic_tie.

(* ---- non-vacuity: the hypotheses are satisfiable and the calls are defined on concrete poses *)
Example ex_source : deref ex_h ex_p = Ok ex_v /\ source_ok ex_v 1 2 2 /\ header_wf (v_comps ex_v) = true /\
  ((forall s, In s ex_sel -> In s (map c_name (v_comps ex_v))) /\
   (forall c np, In c (v_comps ex_v) -> In (c_name c) ex_sel -> pts_lookup ex_pts (c_name c) = Some np -> forall q, In q np -> In q (c_points c))).
Proof. split; [reflexivity|]. split; [split; [reflexivity|repeat split]|]. split; [reflexivity|]. split.
  - intros s [<-|[<-|[]]]; cbn; auto.
  - intros c np [<-|[<-|[]]] _ Hl q Hq; cbn in Hl; try discriminate. injection Hl as <-. destruct Hq as [<-|[<-|[]]]; cbn; auto. Qed.
Print Assumptions ex_source.
(* a reordered selection with a permuted sub-list of points: defined, 4 points, limbs re-named *)
Example ex_select : exists h' p' v', get_components_h false ex_h ex_p ex_sel ex_pts = Ok (h', p') /\ deref h' p' = Ok v' /\
  flat_names (v_comps v') = [("B", "b0"); ("B", "b1"); ("A", "a2"); ("A", "a0")] /\
  map limb_names (v_comps v') = [[("b0", "b1")]; [("a2", "a0")]] /\
  data (b_data (v_body v')) = [7; 8; 9; 10; 5; 6; 1; 2; 17; 18; 19; 20; 15; 16; 11; 12]%Z /\ deref h' ex_p = Ok ex_v.
Proof. eexists _, _, _. split; [vm_compute; reflexivity|]. split; [vm_compute; reflexivity|]. repeat split; vm_compute; reflexivity. Qed.
Print Assumptions ex_select.
(* removal with absent names *)
Example ex_remove : exists h' p' v', remove_components_h false ex_h ex_p ["B"; "nope"] (Some [("A", ["a1"; "zz"]); ("nope", ["x"])]) = Ok (h', p') /\
  deref h' p' = Ok v' /\ flat_names (v_comps v') = [("A", "a0"); ("A", "a2")] /\ map limb_names (v_comps v') = [[("a2", "a0")]].
Proof. eexists _, _, _. split; [vm_compute; reflexivity|]. split; [vm_compute; reflexivity|]. repeat split; vm_compute; reflexivity. Qed.
Print Assumptions ex_remove.
(* duplicate names make "the point with that name" ambiguous: the hypothesis is needed *)
Example ex_duplicate_names_ambiguous :
  let cs := [mkC "A" ["x"; "x"] [] [] "XYC"] in
  names_unique cs = false /\ nth_error (flat_names cs) 1 = Some ("A", "x") /\ point_index cs "A" "x" = Ok 0.
Proof. repeat split; reflexivity. Qed.
Print Assumptions ex_duplicate_names_ambiguous.
Example op_source : deref op_h op_p = Ok op_v /\ source_ok op_v 1 2 2.
Proof. split; [reflexivity|]. split; [reflexivity|repeat split]. Qed.
Print Assumptions op_source.
Example op_hide : exists h' b', hide_legs_h pinned_tables false op_h op_p false = Ok (h', op_p) /\
  deref h' op_p = Ok (mkV 2 [1; 1; 0]%Z false (v_comps op_v) b') /\
  hide_indices (v_comps op_v) (t_hide_openpose pinned_tables) = [2; 1] /\
  data (b_conf b') = [1; 0; 0; 4; 5; 6; 7; 8; 9; 0; 0; 12; 13; 0; 15; 16]%Z.
Proof. eexists _, _. split; [vm_compute; reflexivity|]. split; [vm_compute; reflexivity|]. split; vm_compute; reflexivity. Qed.
Print Assumptions op_hide.
Example op_hide_remove : exists h' p' v', hide_legs_h pinned_tables false op_h op_p true = Ok (h', p') /\ deref h' p' = Ok v' /\
  map c_points (v_comps v') = [["Nose"; "LWrist"; "RWrist"]; ["BASE"; "T_STT"]; ["BASE"]] /\
  map limb_names (v_comps v') = [[("Nose", "LWrist")]; [("BASE", "T_STT")]; []].
Proof. eexists _, _, _. split; [vm_compute; reflexivity|]. split; [vm_compute; reflexivity|]. repeat split; vm_compute; reflexivity. Qed.
Print Assumptions op_hide_remove.
(* left wrist (column 3) takes the hand base (column 5) for person 0, keeps its value for person 1 (base confidence 0) *)
Example op_wrist : exists h' p' b', correct_wrist_h pinned_tables op_h op_p "LEFT" = Ok (h', p') /\
  deref h' p' = Ok (mkV 2 [1; 1; 0]%Z false (v_comps op_v) b') /\ deref h' op_p = Ok op_v /\
  data (b_conf b') = [1; 2; 3; 6; 5; 6; 7; 8; 9; 10; 11; 12; 13; 0; 15; 16]%Z /\
  data (b_data b') = [1; 2; 3; 4; 5; 6; 11; 12; 9; 10; 11; 12; 13; 14; 15; 16; 17; 18; 19; 20; 21; 22; 23; 24; 25; 26; 27; 28; 29; 30; 31; 32]%Z.
Proof. eexists _, _, _. split; [vm_compute; reflexivity|]. split; [vm_compute; reflexivity|]. repeat split; vm_compute; reflexivity. Qed.
Print Assumptions op_wrist.
Example op_wrists : exists r, correct_wrists_h pinned_tables op_h op_p "LEFT" "RIGHT" = Ok r.
Proof. eexists. vm_compute. reflexivity. Qed.
Print Assumptions op_wrists.
Example ho_source : deref ho_h ho_p = Ok ho_v /\ source_ok ho_v 1 1 3.
Proof. split; [reflexivity|]. split; [reflexivity|repeat split]. Qed.
Print Assumptions ho_source.
Example ho_reduce : exists h' p' v', reduce_holistic_h pinned_tables false ho_h ho_p = Ok (h', p') /\ deref h' p' = Ok v' /\
  flat_names (v_comps v') = [("POSE_LANDMARKS", "LEFT_SHOULDER"); ("POSE_LANDMARKS", "LEFT_WRIST")] /\
  map limb_names (v_comps v') = [[("LEFT_SHOULDER", "LEFT_WRIST")]] /\ deref h' ho_p = Ok ho_v.
Proof. eexists _, _, _. split; [vm_compute; reflexivity|]. split; [vm_compute; reflexivity|]. repeat split; vm_compute; reflexivity. Qed.
Print Assumptions ho_reduce.
Example op_reduce_identity : reduce_holistic_h pinned_tables false op_h op_p = Ok (op_h, op_p).
Proof. reflexivity. Qed.
Print Assumptions op_reduce_identity.
(* the 13 OpenPose leg points (incl. MidHip) and the 10 Holistic ones *)
Example pinned_leg_points :
  map snd (t_hide_openpose pinned_tables) =
    [["MidHip"; "RHip"; "RKnee"; "RAnkle"; "LHip"; "LKnee"; "LAnkle"; "LBigToe"; "LSmallToe"; "LHeel"; "RBigToe"; "RSmallToe"; "RHeel"]] /\
  map (fun e => length (snd e)) (t_hide_holistic pinned_tables) = [10; 10].
Proof. split; reflexivity. Qed.
Print Assumptions pinned_leg_points.

(* class structure of the source: overrides and attribute hooks (proofs/ClassesTie.v) *)
Require Import ClassesTie.
Theorem C11_tie_class_numpy_body : over_numpy_body = Some exp_over_numpy_body.
Proof. exact over_numpy_body_tie. Qed.
Print Assumptions C11_tie_class_numpy_body.
Theorem C11_tie_class_torch_body : over_torch_body = Some exp_over_torch_body.
Proof. exact over_torch_body_tie. Qed.
Print Assumptions C11_tie_class_torch_body.
Theorem C11_tie_class_tf_body : over_tf_body = Some exp_over_tf_body.
Proof. exact over_tf_body_tie. Qed.
Print Assumptions C11_tie_class_tf_body.
Theorem C11_tie_class_subclasses : subclasses = exp_subclasses.
Proof. exact subclasses_tie. Qed.
Print Assumptions C11_tie_class_subclasses.
Theorem C11_tie_class_attr_hooks : Gen_Classes.attr_hooks = exp_attr_hooks.
Proof. exact attr_hooks_tie. Qed.
Print Assumptions C11_tie_class_attr_hooks.

