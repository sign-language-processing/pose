(* C05: parseBodyV0_1.  What it takes from the parsed header, and the two Float32Arrays for either version
   ([parse_body_arrays]); for version 0.2 on the bytes of Pose.write: same fps / frame / people counts as the Python reader
   and the arrays are exactly the Python reader's data and confidence tensors (row-major). *)
From Coq Require Import ZArith NArith List Lia ZifyBool ZifyN ZifyNat Bool.
Require Import ListN Result Bytes Utf8 Utf8S F32 Prog Codec ProgLemmas CodecRT
  C05_JsParser C05_View C05_Lemmas C05_Header C05_HeaderView.
Import ListNotations.
Open Scope N_scope.

(* what the body parsers take from a component of the parsed header *)
Definition jcomp_of_comp (c : component) : jcomp :=
  {| jc_name := strip_bom (c_name c); jc_format := strip_bom (c_format c);
     jc_npoints := Z.of_N (lenN (c_points c)); jc_plen := Z.of_N (lenN (c_points c)) |}.
Lemma jcomp_of_obj c : jcomp_of (VObj (js_comp_obj c)) = Some (jcomp_of_comp c).
Proof.
  unfold jcomp_of, js_comp_obj. kred. unfold js_strv, arr_len, jcomp_of_comp.
  rewrite map_length. unfold lenN. rewrite nat_N_Z. reflexivity.
Qed.
Lemma header_comps_obj h hl : header_comps (js_header_obj h hl) = Some (map jcomp_of_comp (h_comps h)).
Proof.
  unfold header_comps, js_header_obj. destruct (h_dims h) as [[w hh] d]. kred.
  apply (all_some_map jcomp_of (fun c => VObj (js_comp_obj c))). intros c _. apply jcomp_of_obj.
Qed.
Lemma jcomp_of_no_bom c : comp_no_bom c -> jc_name (jcomp_of_comp c) = c_name c /\ jc_format (jcomp_of_comp c) = c_format c.
Proof. intros [Hn [Hf _]]. cbn [jcomp_of_comp jc_name jc_format]. now rewrite !strip_no_bom. Qed.
Lemma jc_names cs : Forall comp_no_bom cs -> map jc_name (map jcomp_of_comp cs) = map c_name cs.
Proof. induction 1 as [|c cs Hc _ IH]; [reflexivity|]. cbn [map]. now rewrite IH, (proj1 (jcomp_of_no_bom c Hc)). Qed.
(* so a component that can be addressed by name in the Python header can be in the JavaScript one *)
Lemma jcomp_nth cs n c : Forall comp_no_bom cs -> nth_error cs n = Some c -> ~ In (c_name c) (map c_name (skipn (S n) cs)) ->
  jc_name (jcomp_of_comp c) = c_name c /\ jc_format (jcomp_of_comp c) = c_format c /\
  nth_error (map jcomp_of_comp cs) n = Some (jcomp_of_comp c) /\
  ~ In (jc_name (jcomp_of_comp c)) (map jc_name (skipn (S n) (map jcomp_of_comp cs))).
Proof.
  intros Hnb Hn Hlater.
  assert (Hc : comp_no_bom c) by (rewrite Forall_forall in Hnb; apply Hnb; eapply nth_error_In; exact Hn).
  destruct (jcomp_of_no_bom c Hc) as [Hname Hfmt]. repeat split; [exact Hname|exact Hfmt|now rewrite nth_error_map, Hn|].
  rewrite Hname, <- skipn_map, jc_names, skipn_map by exact Hnb. exact Hlater.
Qed.

(* strings the two readers see alike, and format lengths JavaScript counts as Python does *)
Definition bmp (s : str) : Prop := Forall (fun c => c < 65536) s.
Definition wcomp_plain (c : wcomponent) : Prop := wcomp_no_bom c /\ bmp (wc_format c).
(* the part of it the body parsers depend on (names only decide under which key a component's points are found) *)
Definition plain_format (c : wcomponent) : Prop := no_bom (wc_format c) /\ bmp (wc_format c).
Lemma plain_formats comps : Forall wcomp_plain comps -> Forall plain_format comps.
Proof. apply Forall_impl. intros c [[_ [Hb _]] Hm]. now split. Qed.
Lemma plain_no_bom comps : Forall wcomp_plain comps -> Forall comp_no_bom (map canon_comp comps).
Proof. intros H. apply canon_no_bom. eapply Forall_impl; [|exact H]. intros c Hc. exact (proj1 Hc). Qed.
Lemma utf16_len_bmp s : bmp s -> utf16_len s = Z.of_N (lenN s).
Proof. induction 1 as [|c s Hc _ IH]; [reflexivity|]. cbn [utf16_len fold_right]. fold (utf16_len s). rewrite IH.
  destruct (N.ltb_spec c 65536); [|lia]. unfold lenN. cbn [length]. rewrite Nat2N.inj_succ. lia. Qed.
Lemma js_points_eq comps : js_points (map jcomp_of_comp comps) = Z.of_N (sumN (map (fun c => lenN (c_points c)) comps)).
Proof. unfold js_points. induction comps as [|c l IH]; [reflexivity|]. cbn [map fold_right sumN jc_plen jcomp_of_comp] in *. rewrite IH. unfold sumN. lia. Qed.
Lemma sum_points_canon comps : sumN (map (fun c => lenN (c_points c)) (map canon_comp comps)) = total_points_w comps.
Proof. rewrite map_map. reflexivity. Qed.
Lemma format_len c : plain_format c -> utf16_len (jc_format (jcomp_of_comp (canon_comp c))) = Z.of_N (lenN (wc_format c)).
Proof. intros [Hb Hm]. cbn [jcomp_of_comp canon_comp jc_format c_format]. rewrite (strip_no_bom _ Hb). now apply utf16_len_bmp. Qed.
(* JavaScript's Math.max starts from the first format, Python's max from 0 *)
Lemma max_format_len l : Forall plain_format l -> forall a, (0 <= a)%Z ->
  fold_right Z.max a (map (fun c => utf16_len (jc_format c)) (map jcomp_of_comp (map canon_comp l)))
  = Z.max a (fold_right Z.max 0%Z (map (fun f => Z.of_N (lenN f)) (map wc_format l))).
Proof. induction 1 as [|c l Hc _ IH]; intros a Ha; cbn [map fold_right]; [lia|]. rewrite (IH a Ha), (format_len c Hc). lia. Qed.
Lemma js_dims_eq (comps : list wcomponent) d : Forall plain_format comps ->
  num_dims_of (map wc_format comps) = Ok d -> js_dims (map jcomp_of_comp (map canon_comp comps)) = Some d.
Proof.
  intros Hp. destruct comps as [|c l]; [discriminate|]. inversion Hp as [|? ? Hc Hl]; subst.
  cbn [map num_dims_of js_dims fold_right]. intros [= <-]. rewrite (format_len c Hc), (max_format_len l Hl) by lia. reflexivity.
Qed.

Lemma read_f32_array_enc pre ws post : Forall (fun n => n < 4294967296) ws ->
  read_f32_array (pre ++ flat_map enc_u32 ws ++ post) (Z.of_N (lenN ws)) (Z.of_N (lenN pre))
  = Some (ws, (Z.of_N (lenN pre) + 4 * Z.of_N (lenN ws))%Z).
Proof.
  intros Hlt. unfold read_f32_array.
  destruct (Z.ltb_spec (Z.of_N (lenN ws)) 0) as [|_]; [lia|].
  destruct (Z.eqb_spec (Z.of_N (lenN ws)) 0) as [E|NE].
  - destruct ws; [|unfold lenN in E; cbn [length] in E; lia]. f_equal. f_equal. unfold lenN. cbn [length]. lia.
  - destruct (Z.ltb_spec (Z.of_N (lenN pre)) 0) as [|_]; [lia|].
    destruct (Z.leb_spec (Z.of_N (lenN pre) + 4 * Z.of_N (lenN ws)) (Z.of_N (lenN (pre ++ flat_map enc_u32 ws ++ post)))) as [_|H];
      [|rewrite lenN_app3, lenN_flat_enc_u32 in H; lia].
    rewrite N2Z.id, drop_pre. replace (Z.to_nat (Z.of_N (lenN ws))) with (length ws) by (unfold lenN; lia).
    rewrite words32_enc by exact Hlt. reflexivity.
Qed.

Lemma parse_body_arrays h comps (v02 : bool) hv ib dw cw info F P T D :
  get_num h k_headerLength = Some (Z.of_N (lenN hv)) -> js_dims comps = Some (Z.of_N D) -> js_points comps = Z.of_N T ->
  let buf := hv ++ ib ++ flat_map enc_u32 dw ++ flat_map enc_u32 cw in
  parse (if v02 then info_v02_schema (lenN hv) else info_v01_schema (lenN hv)) buf = Some info ->
  get_num info k__frames = Some (Z.of_N F) -> get_num info k__people = Some (Z.of_N P) ->
  Z.of_N (lenN ib) = (if v02 then info_size_v02 else info_size_v01) ->
  Forall (fun n => n < 4294967296) dw -> Forall (fun n => n < 4294967296) cw ->
  lenN dw = F * P * T * D -> lenN cw = F * P * T ->
  parse_body_v01 h comps buf v02 =
    Some {| jb_info := info; jb_frames := Z.of_N F; jb_people := Z.of_N P; jb_points := Z.of_N T; jb_dims := Z.of_N D;
            jb_data := dw; jb_conf := cw |}.
Proof.
  intros Hhl Hd Hp buf Hi HF HP Hib Hdw Hcw Ldw Lcw.
  unfold parse_body_v01. rewrite Hhl, Hd, Hp, N2Z.id, Hi, HF, HP.
  unfold js_data_len, js_conf_len, js_data_start. rewrite <- Hib.
  replace (Z.of_N F * Z.of_N P * Z.of_N T * Z.of_N D)%Z with (Z.of_N (lenN dw)) by lia.
  replace (Z.of_N F * Z.of_N P * Z.of_N T)%Z with (Z.of_N (lenN cw)) by lia.
  replace (Z.of_N (lenN hv) + Z.of_N (lenN ib))%Z with (Z.of_N (lenN (hv ++ ib))) by (rewrite lenN_app; lia).
  unfold buf. rewrite (app_assoc hv ib).
  rewrite (read_f32_array_enc (hv ++ ib) dw (flat_map enc_u32 cw)) by exact Hdw.
  replace (Z.of_N (lenN (hv ++ ib)) + 4 * Z.of_N (lenN dw))%Z with (Z.of_N (lenN ((hv ++ ib) ++ flat_map enc_u32 dw)))
    by (rewrite (lenN_app (hv ++ ib)), lenN_flat_enc_u32; lia).
  rewrite (app_assoc (hv ++ ib)), <- (app_nil_r (flat_map enc_u32 cw)).
  rewrite (read_f32_array_enc _ cw []) by exact Hcw. reflexivity.
Qed.

Definition comps_of (p : wpose) : list jcomp := map jcomp_of_comp (map canon_comp (w_comps p)).
Definition info_obj_v02 (fps F P : N) : obj :=
  [(k_fps, VF32 fps); (k__frames, VNum (Z.of_N F)); (k__people, VNum (Z.of_N P))].
Lemma parse_info_v02 hv fw F P rest : fw < 4294967296 -> F < 4294967296 -> P < 65536 ->
  parse (info_v02_schema (lenN hv)) (hv ++ (enc_u32 fw ++ enc_u32 F ++ enc_u16 P) ++ rest) = Some (info_obj_v02 fw F P).
Proof.
  intros Hfw HF HP. unfold parse, js_little, info_v02_schema. rewrite run_seek. change (0 + lenN hv) with (lenN hv).
  rewrite <- !app_assoc. rewrite run_f32 by exact Hfw. rewrite run_u32 by exact HF. rewrite run_u16 by exact HP. reflexivity.
Qed.

Theorem js_body_v02 p bs F P T D : write_pose p = Ok bs -> wf_arrays p -> w_shape p = [F; P; T; D] ->
  Forall plain_format (w_comps p) ->
  exists h b, write_header (w_dims p) (w_comps p) = Ok h /\ bs = h ++ b /\
  parse_body_v01 (js_header_obj (canon_header p) (lenN h)) (comps_of p) bs true =
    Some {| jb_info := info_obj_v02 (b_fps (canon_body p)) F P;
            jb_frames := Z.of_N F; jb_people := Z.of_N P; jb_points := Z.of_N T; jb_dims := Z.of_N D;
            jb_data := b_data (canon_body p); jb_conf := b_conf (canon_body p) |}.
Proof.
  intros H [Hld Hlc] Hs Hplain.
  destruct (write_pose_ok _ _ H) as [F' [P' [T' [D' [h [b [Hs' [Hcs [Hnd [Htp [Hh [Hb ->]]]]]]]]]]]].
  rewrite Hs in Hs'. injection Hs' as <- <- <- <-. exists h, b. split; [exact Hh|]. split; [reflexivity|].
  unfold write_body in Hb. rewrite Hs in Hb.
  destruct (N.ltb_spec 4294967295 F) as [|HF]; [discriminate|].
  destruct (pack_f32 (w_fps p)) as [fw|] eqn:Hfps; [|discriminate].
  destruct (N.ltb_spec 65535 P) as [|HP]; [discriminate|]. apply Ok_inj in Hb. subst b.
  rewrite Hs in Hld. rewrite Hcs in Hlc. cbn [prodN fold_right] in Hld, Hlc.
  rewrite <- (flat_map_map f64_to_f32 enc_u32 (w_data p)), <- (flat_map_map f64_to_f32 enc_u32 (w_conf p)).
  unfold canon_body. cbn [b_fps b_data b_conf]. rewrite Hfps.
  rewrite (app_assoc (enc_u32 fw)), (app_assoc (enc_u32 fw ++ enc_u32 F)), <- (app_assoc (enc_u32 fw)).
  apply (parse_body_arrays _ _ true h (enc_u32 fw ++ enc_u32 F ++ enc_u16 P)).
  - apply header_obj_length.
  - exact (js_dims_eq _ _ Hplain Hnd).
  - unfold comps_of. now rewrite js_points_eq, sum_points_canon, Htp.
  - apply parse_info_v02; [now apply pack_f32_lt in Hfps|lia|lia].
  - reflexivity.
  - reflexivity.
  - reflexivity.
  - apply words_lt.
  - apply words_lt.
  - rewrite lenN_map. lia.
  - rewrite lenN_map. lia.
Qed.
