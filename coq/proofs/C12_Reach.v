(* C12 - [step] keeps [Inv] ([inv_mk], [selection_inv], [inv_preserved]), hence every reachable state has it; then
   the executable invariant [invb] against [Inv]. *)
From Coq Require Import List Arith Bool ZArith Lia.
Require Import Result ResultFacts Tensor C12_Model C12_Tab C12_Inv.
Import ListNotations.

(* a new body under a header [h]: the invariant holds as soon as the body agrees with its confidence over [h]'s points *)
Lemma inv_mk h be (r : result (tensor bool * tensor bool)) st' P D :
  (do mc <- r; Ok (mk_state h be mc)) = Ok st' -> h <> [] -> Forall (fun c => c_fmt c = S D) h ->
  (forall m' c', r = Ok (m', c') -> exists F', Cons m' c' F' P (total_points h) D) -> Inv st'.
Proof.
  intros H Hne Hfmt HC. apply rbind_ok in H. destruct H as [[m' c'] [Hr H]]. injection H as <-.
  destruct (HC m' c' Hr) as [F' HC']. exists F', P, (total_points h), D. repeat (split; [assumption|]). split; [reflexivity|exact HC'].
Qed.
(* get_components, and remove_components through it: the selected header with the selected points *)
Lemma selection_inv h be cs pts m c st' F P T D :
  Forall (fun c => c_fmt c = S D) h -> Cons m c F P T D -> cs <> [] ->
  (do hi <- get_components_hdr h cs pts; do mc <- get_points be F P T D (snd hi) m c; Ok (mk_state (fst hi) be mc)) = Ok st' -> Inv st'.
Proof.
  intros Hfmt HC Hcs H. apply rbind_ok in H. destruct H as [[h' idxs] [Hh H]]. cbn [fst snd] in H.
  destruct (get_components_hdr_ok _ _ _ _ _ D Hfmt Hh) as [A [B C0]].
  apply (inv_mk _ _ _ _ P D H); [|exact A|].
  - intros E. rewrite E in C0. destruct cs; [congruence|discriminate].
  - intros m' c' Hx. exists F. rewrite B. eapply get_points_cons; eassumption.
Qed.

Theorem inv_preserved st o st' : Inv st -> pre st o = true -> step st o = Ok st' -> Inv st'.
Proof.
  intros [F [P [T [D [Hne [Hfmt [HT HC]]]]]]] Hpre H.
  unfold step in H. rewrite (cons_dims4 _ _ _ _ _ _ HC) in H. cbn [rbind] in H. subst T.
  (* all operations but selection and bbox keep the header *)
  destruct o as [cs pts|cs pts| |newF cz'|by_|ix|sel|sel|axis|ok|i1 i2|pp zs| | |lay| ]; rewrite ?pass_through_id in H;
    [ | | | (apply (inv_mk _ _ _ _ P D H Hne Hfmt); intros m' c' Hx) .. ].
  - (* get_components *)
    eapply selection_inv; try eassumption. destruct cs; [discriminate Hpre|discriminate].
  - (* remove_components *)
    eapply selection_inv; try eassumption. apply rc_args_keep. exact Hpre.
  - (* bbox *)
    apply (inv_mk _ _ _ _ P D H).
    + unfold bbox_hdr. destruct (s_hdr st); [congruence|discriminate].
    + unfold bbox_hdr. rewrite Forall_map. exact Hfmt.
    + intros m' c' Hx. apply only_np_ok in Hx. rewrite total_points_bbox.
      eexists. eapply bbox_np_cons; eassumption.
  - (* interpolate *)
    apply only_np_ok in Hx. eexists. eapply interpolate_np_cons; eassumption.
  - (* slice_step *)
    eexists. eapply slice_step_cons; eassumption.
  - (* select_frames *)
    eapply select_frames_cons; eassumption.
  - (* dropout, uniform *)
    eexists. eapply dropout_cons; eassumption.
  - (* dropout, normal *)
    eexists. eapply dropout_cons; eassumption.
  - (* flip *)
    apply only_np_ok in Hx. eexists. eapply flip_np_cons; eassumption.
  - (* augment2d *)
    eexists. eapply augment2d_cons; eassumption.
  - (* normalize: the precondition provides a frame and person where both reference points are observed *)
    eexists. eapply normalize_cons; try eassumption.
    cbn [pre] in Hpre. rewrite (cons_dims4 _ _ _ _ _ _ HC) in Hpre.
    apply andb_prop in Hpre. destruct Hpre as [_ Hpre].
    apply ex_lt_spec in Hpre. destruct Hpre as [f0 [Hf0 Hpre]]. apply ex_lt_spec in Hpre. destruct Hpre as [p0 [Hp0 Hpre]].
    apply andb_prop in Hpre. destruct Hpre as [Z1 Z2]. apply negb_true_iff in Z1, Z2.
    exists f0, p0. auto.
  - (* normalize_distribution *)
    eexists. eapply normalize_distribution_cons; eassumption.
  - (* focus *)
    apply only_np_ok in Hx. eexists. eapply focus_np_cons; eassumption.
  - (* copy *)
    eexists. eapply fin_cons; [|exact Hx]. exact HC.
  - (* torch *)
    apply only_np_ok in Hx.
    destruct (D =? 0); [discriminate|]. destruct lay; [|discriminate]. injection Hx as <- <-.
    eexists. eapply conf_mask_cons, HC.
  - (* tensorflow *)
    apply only_np_ok in Hx.
    destruct (D =? 0); [discriminate|]. injection Hx as <- <-.
    eexists. eapply conf_mask_cons, HC.
Qed.

(* every state reachable by operations whose preconditions hold and that do not raise *)
Inductive reachable (s0 : state) : state -> Prop :=
| reach_refl : reachable s0 s0
| reach_step st o st' : reachable s0 st -> pre st o = true -> step st o = Ok st' -> reachable s0 st'.
Theorem reachable_inv s0 st : Inv s0 -> reachable s0 st -> Inv st.
Proof. intros H0 R. induction R as [|st o st' R IH Hp Hs]; [exact H0|]. eapply inv_preserved; eassumption. Qed.
Lemma reachable_trans s0 s1 s2 : reachable s0 s1 -> reachable s1 s2 -> reachable s0 s2.
Proof. intros A B. induction B; [exact A|]. eapply reach_step; eassumption. Qed.
Lemma run_reachable ops : forall st st', run st ops = Ok st' -> reachable st st'.
Proof.
  induction ops as [|o r IH]; intros st st' H; cbn [run] in H.
  - injection H as <-. constructor.
  - destruct (pre st o) eqn:Hp; [|discriminate]. apply rbind_ok in H. destruct H as [s1 [Hs H]].
    eapply reachable_trans; [|apply IH; exact H]. eapply reach_step; [constructor|exact Hp|exact Hs].
Qed.
Theorem run_inv ops st st' : Inv st -> run st ops = Ok st' -> Inv st'.
Proof. intros HI H. eapply reachable_inv; [exact HI|]. eapply run_reachable; exact H. Qed.

(* the executable invariant is the stated one *)
Lemma wfb_spec {X} (t : tensor X) : wfb t = true <-> wf t.
Proof. unfold wfb, wf. apply Nat.eqb_eq. Qed.
Lemma consb_spec m c F P T D : shape m = [F; P; T; D] -> shape c = [F; P; T] -> consb m c F P T D = true <-> Cons m c F P T D.
Proof.
  intros Hm Hc. unfold consb, Cons. rewrite !andb_true_iff, !wfb_spec. split.
  - intros [[Wm Wc] H]. repeat (split; [assumption|]). intros f p t d Hf Hp Ht Hd.
    rewrite all_lt_spec in H. specialize (H f Hf). rewrite all_lt_spec in H. specialize (H p Hp).
    rewrite all_lt_spec in H. specialize (H t Ht). rewrite all_lt_spec in H. apply eqb_prop. exact (H d Hd).
  - intros [_ [_ [Wm [Wc H]]]]. split; [split; assumption|].
    apply all_lt_spec; intros f Hf. apply all_lt_spec; intros p Hp. apply all_lt_spec; intros t Ht. apply all_lt_spec; intros d Hd.
    rewrite H by assumption. apply eqb_reflx.
Qed.
Theorem invb_sound st : invb st = true -> Inv st.
Proof.
  unfold invb. destruct (dims4 (s_mask st) (s_cz st)) as [[[[F P] T] D]|e] eqn:E; [|discriminate].
  apply dims4_shapes in E. destruct E as [Hm Hc].
  rewrite !andb_true_iff, (consb_spec _ _ _ _ _ _ Hm Hc), forallb_forall, Nat.eqb_eq. intros [[[Hne Hfmt] HT] HC].
  exists F, P, T, D. split. { intros E0. rewrite E0 in Hne. discriminate. }
  split. { apply Forall_forall. intros c Hin. apply Nat.eqb_eq. apply Hfmt. exact Hin. }
  split; assumption.
Qed.
Theorem invb_complete st : Inv st -> invb st = true.
Proof.
  intros [F [P [T [D [Hne [Hfmt [HT HC]]]]]]]. unfold invb. rewrite (cons_dims4 _ _ _ _ _ _ HC).
  pose proof HC as [Hm [Hc _]]. rewrite !andb_true_iff, (consb_spec _ _ _ _ _ _ Hm Hc). split; [split; [split|]|exact HC].
  - destruct (s_hdr st); [congruence|reflexivity].
  - apply forallb_forall. intros c Hin. apply Nat.eqb_eq. rewrite Forall_forall in Hfmt. apply Hfmt. exact Hin.
  - apply Nat.eqb_eq. exact HT.
Qed.
(* ... and the statement's own reading of it (header dims = max format length - 1) *)
Lemma fold_max_const (l : list nat) n : l <> [] -> Forall (fun x => x = n) l -> fold_right Nat.max 0 l = n.
Proof.
  intros Hne H. induction H as [|x l Hx Hl IH]; [congruence|]. cbn [fold_right]. subst x.
  destruct l as [|y l']; [cbn; lia|]. rewrite IH by discriminate. lia.
Qed.
Theorem inv_num_dims st : Inv st -> exists F P D, num_dims (s_hdr st) = Some (Z.of_nat D) /\
  shape (s_mask st) = [F; P; total_points (s_hdr st); D] /\ shape (s_cz st) = [F; P; total_points (s_hdr st)].
Proof.
  intros [F [P [T [D [Hne [Hfmt [HT [Hm [Hc _]]]]]]]]]. exists F, P, D. subst T. split; [|split; assumption].
  unfold num_dims. destruct (s_hdr st) as [|c0 r] eqn:E; [congruence|]. rewrite <- E in *.
  rewrite (fold_max_const (map c_fmt (s_hdr st)) (S D)).
  - f_equal. lia.
  - rewrite E. discriminate.
  - rewrite Forall_map. exact Hfmt.
Qed.
