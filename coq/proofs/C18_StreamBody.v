(* C18, the body of a window read of a stream: a BytesIOReader that holds ANY prefix of the file (whatever
   prefetch length it took from the memo at pose.py:60), positioned at the proved (header, offset), decodes the
   body that the plain reader decodes from the whole file at that offset (instance of the reader simulation of
   C03, StreamLemmas.sim_fwd), and two such readers decode the same body or both raise. *)
From Coq Require Import NArith List.
Require Import ListN Result Bytes Prog Codec PoseRead ProgLemmas StreamLemmas StreamRead StreamBack StreamIndep C18_Threads C18_Bytes.
Import ListNotations.
Open Scope N_scope.

Lemma prefix_reader_inv file L e pl : e <= lenN (takeN L file) ->
  StreamLemmas.Inv file {| buf := takeN L file; off := e; skipped := 0; pulled := pl |}.
Proof.
  intros He. destruct (prefix_hpre file L e pl He) as [HP Ho]. exact (pre_inv file _ HP Ho).
Qed.

Theorem stream_body_any_prefetch file h a e L pl b pr' :
  e <= lenN (takeN L file) ->
  run_plain (read_body no_legacy h a) {| pbuf := file; poff := e |} = Ok (b, pr') ->
  exists sr', run_stream file (read_body no_legacy h a)
                {| buf := takeN L file; off := e; skipped := 0; pulled := pl |} = Ok (b, sr').
Proof.
  intros He Hrun.
  set (sr := {| buf := takeN L file; off := e; skipped := 0; pulled := pl |}).
  assert (HS : Sim file [] {| pbuf := file; poff := e |} sr).
  { split; [symmetry; apply app_nil_r|]. split; [reflexivity|]. now apply prefix_reader_inv. }
  pose proof (sim_fwd file [] _ (v2prog_no_legacy h a) _ _ _ _ HS Hrun) as H.
  destruct (run_stream file (read_body no_legacy h a) sr) as [[b' sr']|e'].
  - destruct H as [<- _]. now exists sr'.
  - now contradiction H.
Qed.

(* the two prefetch lengths: the thread's, from a memo another thread may just have replaced, and the solo read's.
   Instance of StreamIndep.amount_indep. *)
Theorem stream_body_prefetch_irrelevant file h a e L L' pl pl' :
  e <= lenN (takeN L file) -> e <= lenN (takeN L' file) ->
  match run_stream file (read_body no_legacy h a) {| buf := takeN L file; off := e; skipped := 0; pulled := pl |},
        run_stream file (read_body no_legacy h a) {| buf := takeN L' file; off := e; skipped := 0; pulled := pl' |} with
  | Ok (b, _), Ok (b', _) => b = b'
  | Err _, Err _ => True
  | _, _ => False
  end.
Proof.
  intros H1 H2.
  set (s1 := {| buf := takeN L file; off := e; skipped := 0; pulled := pl |}).
  set (s2 := {| buf := takeN L' file; off := e; skipped := 0; pulled := pl' |}).
  assert (HT : Twin file s1 s2).
  { split; [apply prefix_reader_inv; exact H1|]. split; [apply prefix_reader_inv; exact H2|]. split; reflexivity. }
  pose proof (amount_indep file _ (v2prog_no_legacy h a) s1 s2 HT) as H. unfold twin_result in H.
  destruct (run_stream file _ s1) as [[b ?]|]; destruct (run_stream file _ s2) as [[b' ?]|]; try exact H. exact (proj1 H).
Qed.
