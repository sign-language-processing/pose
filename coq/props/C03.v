(* C03 - a frame or time window read equals the same slice of a full read.
   Statements, closed by [exact] or by a few lines from the lemmas of proofs/, each followed by Print Assumptions. *)
From Coq Require Import ZArith NArith List String Bool Lia.
Require Import ListN Result Bytes Prog Codec PoseRead ProgLemmas CodecRT PoseReadLemmas WindowLemmas StreamLemmas StreamRead StreamBack StreamIndep C03_Window C03_Consume CodecGenTie C03_Examples C03_ExamplesConsume.
Import ListNotations.
Open Scope N_scope.

(* Window read from a byte string.  For EVERY written file [bs] (any pose the writer accepts), every consistent
   memo state, every combination of start_frame / start_time / end_frame / end_time without a conflict whose
   bounds resolve (time -> frame by floor / ceil of the binary64 product ms/1000*fps) to a valid window
   (start = 0 or start < frames; start <= min(end, frames)): the result has the file's header and exactly
   frames [start, min(end, frames)) of the full read's fps, data, confidence and mask ([window_pose] is the
   slice of [canon p], the full-read result of C01). *)
Theorem C03_window_bytes :
  forall legacy m p bs a s e,
    MemoOK m -> write_pose p = Ok bs -> wf_arrays p -> 1 <= nth 3 (w_shape p) 0 ->
    conflict (a_sf a) (a_st a) = false -> conflict (a_ef a) (a_et a) = false ->
    resolve_start (fps_word p) (a_sf a) (a_st a) = Ok s -> resolve_end (fps_word p) (a_ef a) (a_et a) = Ok e ->
    valid_window p s e ->
    fst (read_bytes legacy m bs a) = Ok (window_pose p s e).
Proof. exact read_bytes_window. Qed.
Print Assumptions C03_window_bytes.

(* The same from a seekable stream (BytesIOReader: prefetch of any length, skips that drop prefetched bytes,
   refills), for every memo state; the memo left behind is the one a bytes read leaves. *)
Theorem C03_window_stream :
  forall legacy m p bs a s e,
    MemoOK m -> write_pose p = Ok bs -> wf_arrays p -> 1 <= nth 3 (w_shape p) 0 ->
    any_arg a = true ->
    conflict (a_sf a) (a_st a) = false -> conflict (a_ef a) (a_et a) = false ->
    resolve_start (fps_word p) (a_sf a) (a_st a) = Ok s -> resolve_end (fps_word p) (a_ef a) (a_et a) = Ok e ->
    valid_window p s e ->
    fst (fst (read_stream legacy m bs a)) = Ok (window_pose p s e) /\
    snd (fst (read_stream legacy m bs a)) = snd (read_bytes legacy m bs a).
Proof.
  intros legacy m p bs a s e Hm H Hwf HD Ha Hc1 Hc2 Hrs Hre Hv.
  apply read_stream_as_bytes; try assumption.
  - intros h r Hr.
    destruct (written_header p bs H) as [o Hh]. rewrite Hh in Hr. injection Hr as <- _.
    rewrite read_body_dispatch. apply v2prog_read_v0_2.
  - now apply (read_bytes_window legacy m p bs a s e).
Qed.
Print Assumptions C03_window_stream.

(* More generally, for ANY byte string (not only written files): whenever the bytes read succeeds and the body
   decoder is a v0.2 one, the stream read returns the same pose and memo. *)
Theorem C03_stream_simulates_bytes :
  forall legacy m q a pose,
    MemoOK m -> any_arg a = true ->
    (forall h r, run_plain rd_header {| pbuf := q; poff := 0 |} = Ok (h, r) -> StreamLemmas.v2prog (read_body legacy h a)) ->
    fst (read_bytes legacy m q a) = Ok pose ->
    fst (fst (read_stream legacy m q a)) = Ok pose /\ snd (fst (read_stream legacy m q a)) = snd (read_bytes legacy m q a).
Proof. exact read_stream_as_bytes. Qed.
Print Assumptions C03_stream_simulates_bytes.

(* "Whatever was read earlier in the process", for ANY byte string (written file or not): what a windowed stream read returns
   under a sound memo is what it returns in a fresh process - the same pose, or both raise (which exception is raised when the
   bytes run out may differ: EOFError if the retained buffer is empty, struct.error otherwise).  The memo only sets the length
   of the first prefetch and may save the header parse; [amount_indep] shows that a v0.2 decoder never observes how much of the
   stream is buffered beyond its read position.  The hypothesis on the body decoder holds for the library's v0.2 / unknown-version
   decoders (second theorem); the v0.1 decoder asks bytes_left() and is covered by C04's own theorems. *)
Theorem C03_stream_result_independent_of_memo :
  forall legacy m q a, MemoOK m -> any_arg a = true -> (forall h, StreamLemmas.v2prog (read_body legacy h a)) ->
    same_outcome (fst (fst (read_stream legacy m q a))) (fst (fst (read_stream legacy None q a))).
Proof. exact read_stream_memo_independent. Qed.
Print Assumptions C03_stream_result_independent_of_memo.
Theorem C03_stream_result_independent_of_memo_v02 :
  forall m q a, MemoOK m -> any_arg a = true ->
    same_outcome (fst (fst (read_stream no_legacy m q a))) (fst (fst (read_stream no_legacy None q a))).
Proof. intros m q a Hm Ha. apply read_stream_memo_independent; [exact Hm|exact Ha|]. intros h. apply v2prog_no_legacy. Qed.
Print Assumptions C03_stream_result_independent_of_memo_v02.
(* Two readers of one stream at the same position return the same values from any v0.2 program, whatever each holds beyond it. *)
Theorem C03_stream_buffered_amount_unobservable :
  forall A q (p : prog A), StreamLemmas.v2prog p -> forall s1 s2, Twin q s1 s2 ->
    twin_result q (run_stream q p s1) (run_stream q p s2).
Proof. exact @amount_indep. Qed.
Print Assumptions C03_stream_buffered_amount_unobservable.
(* The header a stream read parses (memo miss) is the header the plain reader parses from the whole byte string, at the same end
   offset, and the memo entry it stores is sound; hence every stream read leaves a sound memo (the hypothesis [MemoOK] of all
   the theorems above holds again for the next read, whatever mix of byte and stream reads came before). *)
Theorem C03_stream_header_is_the_bytes_header :
  forall (legacy : vclass -> header -> rargs -> prog body) q m r1 h r2,
    expect q (prefetch_len m) {| buf := []; off := 0; skipped := 0; pulled := 0 |} = Ok r1 ->
    run_stream q rd_header r1 = Ok (h, r2) ->
    run_plain rd_header {| pbuf := q; poff := 0 |} = Ok (h, {| pbuf := q; poff := off r2 |}) /\
    py_slice 0 (off r2) (buf r2) = py_slice 0 (off r2) q /\
    MemoOK (Some {| m_start := 0; m_end := off r2; m_slice := py_slice 0 (off r2) (buf r2); m_header := h |}).
Proof. exact stream_header_bwd. Qed.
Print Assumptions C03_stream_header_is_the_bytes_header.
Theorem C03_stream_leaves_sound_memo :
  forall legacy m q a, MemoOK m -> MemoOK (snd (fst (read_stream legacy m q a))).
Proof. exact read_stream_memo_ok. Qed.
Print Assumptions C03_stream_leaves_sound_memo.
(* The converse of C03_stream_simulates_bytes is FALSE for programs with skips, and the model shows where: after a skip past the
   end of the stream BytesIOReader serves a zero-length block (an empty slice of its retained buffer is in range) that
   BufferReader refuses (offset beyond the buffer).  Reachable only with a zero-frame window of a truncated file; C07 covers
   what such a read may return. *)
Theorem C03_stream_converse_refuted :
  let p : prog bytes := Skip 5 (Block 0 (fun b => Ret b)) in
  let sr := {| buf := [1; 2]; off := 0; skipped := 0; pulled := 2 |} in
  fst (match run_stream [1; 2] p sr with Ok x => Ok (fst x) | Err e => Err e end, 0) = Ok [] /\
  run_plain p {| pbuf := [1; 2]; poff := 0 |} = Err StructError.
Proof. exact bwd_counterexample. Qed.
Print Assumptions C03_stream_converse_refuted.

Theorem C03_stream_without_window_args :
  forall legacy m file a, any_arg a = false -> fst (read_stream legacy m file a) = read_bytes legacy m file a.
Proof. exact read_stream_noargs. Qed.
Print Assumptions C03_stream_without_window_args.

(* Consumption clause.  Under the hypotheses of C03_window_stream the stream read pulls from the stream at most
   the header ([header_len p] = byte length of the header Pose.write emits), the 10 bytes of the body's info
   fields (fps, frame count, people count), the prefetch ((memo.end_offset or 10240) + 100) and the window
   itself ([window_bytes p s e] = 4 * people * points * (dims + 1) * (min(end, frames) - start) bytes of the data
   and confidence blocks).  The bound mentions neither the number of frames outside the window nor the length
   of the file: bytes prefetched past a skip point are dropped, never re-read beyond the window. *)
Theorem C03_stream_consumption :
  forall legacy m p bs a s e,
    MemoOK m -> write_pose p = Ok bs -> wf_arrays p -> 1 <= nth 3 (w_shape p) 0 ->
    any_arg a = true ->
    conflict (a_sf a) (a_st a) = false -> conflict (a_ef a) (a_et a) = false ->
    resolve_start (fps_word p) (a_sf a) (a_st a) = Ok s -> resolve_end (fps_word p) (a_ef a) (a_et a) = Ok e ->
    valid_window p s e ->
    snd (read_stream legacy m bs a) <= header_len p + 10 + prefetch_len m + window_bytes p s e.
Proof. exact read_stream_pulled_bound. Qed.
Print Assumptions C03_stream_consumption.
(* the weaker closed form sketched in DESIGN section 6 (prefetch >= 100 absorbs the 10 info bytes) *)
Theorem C03_stream_consumption_design_form :
  forall legacy m p bs a s e,
    MemoOK m -> write_pose p = Ok bs -> wf_arrays p -> 1 <= nth 3 (w_shape p) 0 ->
    any_arg a = true ->
    conflict (a_sf a) (a_st a) = false -> conflict (a_ef a) (a_et a) = false ->
    resolve_start (fps_word p) (a_sf a) (a_st a) = Ok s -> resolve_end (fps_word p) (a_ef a) (a_et a) = Ok e ->
    valid_window p s e ->
    snd (read_stream legacy m bs a) <= header_len p + 2 * prefetch_len m + window_bytes p s e.
Proof.
  intros legacy m p bs a s e Hm H Hwf HD Ha Hc1 Hc2 Hrs Hre Hv.
  pose proof (read_stream_pulled_bound legacy m p bs a s e Hm H Hwf HD Ha Hc1 Hc2 Hrs Hre Hv).
  pose proof (prefetch_len_ge m). lia.
Qed.
Print Assumptions C03_stream_consumption_design_form.

(* argument conflicts and a start at or beyond the last frame are rejected *)
Theorem C03_conflict_rejected :
  forall legacy m p bs a, MemoOK m -> write_pose p = Ok bs ->
    conflict (a_sf a) (a_st a) || conflict (a_ef a) (a_et a) = true ->
    exists e, fst (read_bytes legacy m bs a) = Err e.
Proof.
  intros legacy m p bs a Hm H Hc.
  destruct (written_header p bs H) as [o Hh].
  exact (proj1 (conflict_rejected_v02 legacy m bs a _ o Hm Hh (canon_version p) Hc)).
Qed.
Print Assumptions C03_conflict_rejected.
Theorem C03_start_beyond_rejected :
  forall legacy m p bs a s, MemoOK m -> write_pose p = Ok bs -> wf_arrays p ->
    conflict (a_sf a) (a_st a) = false -> conflict (a_ef a) (a_et a) = false ->
    resolve_start (fps_word p) (a_sf a) (a_st a) = Ok (Some s) -> (0 < s)%Z -> (frames_of p <= s)%Z ->
    exists e, fst (read_bytes legacy m bs a) = Err e.
Proof.
  intros legacy m p bs a s Hm H _ Hc1 Hc2 Hrs Hpos Hbey.
  exact (proj1 (start_beyond_rejected legacy m p bs a s Hm H Hc1 Hc2 Hrs Hpos Hbey)).
Qed.
Print Assumptions C03_start_beyond_rejected.

(* the same two rejections from a seekable stream (no [any_arg] hypothesis is needed: a conflict, or a resolved
   start, implies that some window argument is given) *)
Theorem C03_conflict_rejected_stream :
  forall legacy m p bs a, MemoOK m -> write_pose p = Ok bs ->
    conflict (a_sf a) (a_st a) || conflict (a_ef a) (a_et a) = true ->
    exists e, fst (fst (read_stream legacy m bs a)) = Err e.
Proof.
  intros legacy m p bs a Hm H Hc.
  destruct (written_header p bs H) as [o Hh].
  exact (proj2 (conflict_rejected_v02 legacy m bs a _ o Hm Hh (canon_version p) Hc)).
Qed.
Print Assumptions C03_conflict_rejected_stream.
Theorem C03_start_beyond_rejected_stream :
  forall legacy m p bs a s, MemoOK m -> write_pose p = Ok bs -> wf_arrays p ->
    conflict (a_sf a) (a_st a) = false -> conflict (a_ef a) (a_et a) = false ->
    resolve_start (fps_word p) (a_sf a) (a_st a) = Ok (Some s) -> (0 < s)%Z -> (frames_of p <= s)%Z ->
    exists e, fst (fst (read_stream legacy m bs a)) = Err e.
Proof.
  intros legacy m p bs a s Hm H _ Hc1 Hc2 Hrs Hpos Hbey.
  exact (proj2 (start_beyond_rejected legacy m p bs a s Hm H Hc1 Hc2 Hrs Hpos Hbey)).
Qed.
Print Assumptions C03_start_beyond_rejected_stream.

(* non-vacuity: a 3-frame file, the window [1,2) given in frames and in milliseconds *)
Theorem C03_example_file : (exists bs, write_pose ex3 = Ok bs) /\ wf_arrays ex3 /\ 1 <= nth 3 (w_shape ex3) 0.
Proof. split; [eexists; vm_compute; reflexivity|]. split; [split; reflexivity|]. cbn. lia. Qed.
Print Assumptions C03_example_file.
Theorem C03_example_frame_window :
  any_arg ex3_frames = true /\
  conflict (a_sf ex3_frames) (a_st ex3_frames) = false /\ conflict (a_ef ex3_frames) (a_et ex3_frames) = false /\
  resolve_start (fps_word ex3) (a_sf ex3_frames) (a_st ex3_frames) = Ok (Some 1%Z) /\
  resolve_end (fps_word ex3) (a_ef ex3_frames) (a_et ex3_frames) = Ok (Some 2%Z) /\
  valid_window ex3 (Some 1%Z) (Some 2%Z).
Proof. exact ex3_frames_hyps. Qed.
Print Assumptions C03_example_frame_window.
(* 34 ms * 30 fps = 1.02 -> floor 1 ; 66 ms * 30 fps = 1.98 -> ceil 2 : the same window given in time *)
Theorem C03_example_time_window :
  conflict (a_sf ex3_times) (a_st ex3_times) = false /\ conflict (a_ef ex3_times) (a_et ex3_times) = false /\
  resolve_start (fps_word ex3) (a_sf ex3_times) (a_st ex3_times) = Ok (Some 1%Z) /\
  resolve_end (fps_word ex3) (a_ef ex3_times) (a_et ex3_times) = Ok (Some 2%Z).
Proof. repeat split; vm_compute; reflexivity. Qed.
Print Assumptions C03_example_time_window.
Theorem C03_example_beyond :
  resolve_start (fps_word ex3) (Some 3%Z) None = Ok (Some 3%Z) /\ (0 < 3)%Z /\ (frames_of ex3 <= 3)%Z.
Proof. repeat split; vm_compute; try reflexivity; intros E; discriminate. Qed.
Print Assumptions C03_example_beyond.

Theorem C03_example_conflict : conflict (Some 1%Z) (Some 10%Z) || conflict None None = true.
Proof. reflexivity. Qed.
Print Assumptions C03_example_conflict.
(* non-vacuity of the consumption bound: a 600-frame file of 14452 bytes, window [1,2), empty memo: the bound is
   10416 bytes - less than the file - and the model pulls 10364 (the 10340-byte prefetch and the 24-byte window) *)
Theorem C03_example_consumption_file :
  write_pose ex600 = Ok ex600_file /\ (wf_arrays ex600 /\ 1 <= nth 3 (w_shape ex600) 0).
Proof. exact (conj ex600_written ex600_wf). Qed.
Print Assumptions C03_example_consumption_file.
Theorem C03_example_consumption_window :
  any_arg ex3_frames = true /\
  conflict (a_sf ex3_frames) (a_st ex3_frames) = false /\ conflict (a_ef ex3_frames) (a_et ex3_frames) = false /\
  resolve_start (fps_word ex600) (a_sf ex3_frames) (a_st ex3_frames) = Ok (Some 1%Z) /\
  resolve_end (fps_word ex600) (a_ef ex3_frames) (a_et ex3_frames) = Ok (Some 2%Z) /\
  valid_window ex600 (Some 1%Z) (Some 2%Z).
Proof. exact (frames_1_2_hyps ex600 eq_refl). Qed.
Print Assumptions C03_example_consumption_window.
Theorem C03_example_consumption_bound_below_file :
  header_len ex600 + 10 + prefetch_len None + window_bytes ex600 (Some 1%Z) (Some 2%Z) = 10416 /\
  lenN ex600_file = 14452 /\
  snd (read_stream no_legacy None ex600_file ex3_frames) = 10364.
Proof. exact ex600_bound_below_file. Qed.
Print Assumptions C03_example_consumption_bound_below_file.

(* ties to the current source *)
Theorem C03_tie_body_read_v0_2 : Gen_Codec.body_read_v0_2 = exp_body_read_v0_2.
Proof. exact body_read_v0_2_tie. Qed.
Print Assumptions C03_tie_body_read_v0_2.
Theorem C03_tie_body_read_frames : Gen_Codec.body_read_frames = exp_body_read_frames.
Proof. exact body_read_frames_tie. Qed.
Print Assumptions C03_tie_body_read_frames.
Theorem C03_tie_struct_table : Gen_Codec.struct_table = exp_struct_table.
Proof. exact struct_table_tie. Qed.
Print Assumptions C03_tie_struct_table.
Theorem C03_tie_pose_read : Gen_Codec.pose_read = exp_pose_read.
Proof. exact pose_read_tie. Qed.
Print Assumptions C03_tie_pose_read.
Theorem C03_tie_reader_bytes_left : Gen_Codec.reader_bytes_left = exp_reader_bytes_left.
Proof. exact reader_bytes_left_tie. Qed.
Print Assumptions C03_tie_reader_bytes_left.
Theorem C03_tie_reader_unpack_numpy : Gen_Codec.reader_unpack_numpy = exp_reader_unpack_numpy.
Proof. exact reader_unpack_numpy_tie. Qed.
Print Assumptions C03_tie_reader_unpack_numpy.
Theorem C03_tie_reader_unpack : Gen_Codec.reader_unpack = exp_reader_unpack.
Proof. exact reader_unpack_tie. Qed.
Print Assumptions C03_tie_reader_unpack.
Theorem C03_tie_reader_advance : Gen_Codec.reader_advance = exp_reader_advance.
Proof. exact reader_advance_tie. Qed.
Print Assumptions C03_tie_reader_advance.
Theorem C03_tie_reader_skip : Gen_Codec.reader_skip = exp_reader_skip.
Proof. exact reader_skip_tie. Qed.
Print Assumptions C03_tie_reader_skip.
Theorem C03_tie_stream_reader_init : Gen_Codec.stream_reader_init = exp_stream_reader_init.
Proof. exact stream_reader_init_tie. Qed.
Print Assumptions C03_tie_stream_reader_init.
Theorem C03_tie_stream_reader_skip : Gen_Codec.stream_reader_skip = exp_stream_reader_skip.
Proof. exact stream_reader_skip_tie. Qed.
Print Assumptions C03_tie_stream_reader_skip.
Theorem C03_tie_stream_reader_read_chunk : Gen_Codec.stream_reader_read_chunk = exp_stream_reader_read_chunk.
Proof. exact stream_reader_read_chunk_tie. Qed.
Print Assumptions C03_tie_stream_reader_read_chunk.
Theorem C03_tie_stream_reader_expect_to_read : Gen_Codec.stream_reader_expect_to_read = exp_stream_reader_expect_to_read.
Proof. exact stream_reader_expect_to_read_tie. Qed.
Print Assumptions C03_tie_stream_reader_expect_to_read.
Theorem C03_tie_reader_methods : Gen_Codec.reader_methods = exp_reader_methods.
Proof. exact reader_methods_tie. Qed.
Print Assumptions C03_tie_reader_methods.
Theorem C03_tie_stream_reader_methods : Gen_Codec.stream_reader_methods = exp_stream_reader_methods.
Proof. exact stream_reader_methods_tie. Qed.
Print Assumptions C03_tie_stream_reader_methods.
Theorem C03_tie_reader_class_attrs : Gen_Codec.reader_class_attrs = [] /\ Gen_Codec.stream_reader_class_attrs = [].
Proof. exact reader_class_attrs_tie. Qed.
Print Assumptions C03_tie_reader_class_attrs.
