(* C16: generic frame dropout (NumPy / PyTorch bodies), for every draw random.sample can make. *)
From Coq Require Import ZArith List Bool Arith Lia Sorted Permutation SpecFloat QArith_base.
Require Import Result F32 C16_Frames C16_Lists C16_Select.
Import ListNotations.
Local Open Scope nat_scope.

Lemma dropout_is_given {A} c be (b : body A) d s : dropout c be b d s = dropout_given c be b (fraction d) s.
Proof. destruct d; reflexivity. Qed.

Lemma dropout_inv {A} c be (b : body A) d s r kept :
  dropout c be b d s = Ok (r, kept) ->
  exists k, drop_count c (frames b) (fraction d) = Ok k /\ (0 <= k <= Z.of_nat (frames b))%Z /\
            kept = complement (frames b) s /\ select_frames be b (map Z.of_nat kept) = Ok r.
Proof. rewrite dropout_is_given. unfold dropout_given.
  destruct (drop_count c (frames b) (fraction d)) as [k|e] eqn:Hk; cbn [rbind]; [|discriminate].
  destruct (Z.ltb_spec k 0) as [Hneg|Hpos]; cbn [orb]; [discriminate|].
  destruct (Z.ltb_spec (Z.of_nat (frames b)) k) as [Hbig|Hle]; [discriminate|].
  destruct (select_frames be b _) as [r'|e] eqn:Hs; cbn [rbind]; [|discriminate].
  intros [= <- <-]. exists k. repeat split; try lia; assumption. Qed.
Lemma possible_draw_inv c n p s k :
  possible_draw c n p s -> drop_count c n p = Ok k -> (0 <= k <= Z.of_nat n)%Z ->
  length s = Z.to_nat k /\ NoDup s /\ Forall (fun i => i < n) s.
Proof. intros [k' [Hs Hv]] Hk Hr. unfold sample_size in Hs. rewrite Hk in Hs.
  destruct (Z.ltb_spec k 0); [lia|]. destruct (Z.ltb_spec (Z.of_nat n) k); [lia|]. cbn [orb] in Hs.
  injection Hs as <-. now apply valid_sample_spec. Qed.
Lemma drop_count_inv c n p k :
  drop_count c n p = Ok k -> exists a kc, asked_count n p = Ok a /\ cap_count c n = Ok kc /\ k = Z.min a kc.
Proof. unfold drop_count. destruct (asked_count n p) as [a|e]; cbn [rbind]; [|discriminate].
  destruct (cap_count c n) as [kc|e]; cbn [rbind]; [|discriminate]. intros [= <-]. now exists a, kc. Qed.

Lemma kept_sorted_in_range {A} c be (b : body A) d s r kept :
  dropout c be b d s = Ok (r, kept) -> StronglySorted lt kept /\ Forall (fun i => i < frames b) kept.
Proof. intros H. apply dropout_inv in H. destruct H as [k [_ [_ [-> _]]]].
  split; [apply complement_sorted|apply complement_range]. Qed.
Lemma pose_is_those_frames {A} (x : A) c be (b : body A) d s r kept :
  dropout c be b d s = Ok (r, kept) -> r = body_at x b kept.
Proof. intros H. apply dropout_inv in H. destruct H as [k [_ [_ [_ Hs]]]].
  now apply (select_ok_inv x) in Hs. Qed.
Lemma dropped_count {A} c be (b : body A) d s r kept :
  possible_draw c (frames b) (fraction d) s -> dropout c be b d s = Ok (r, kept) ->
  exists a kc, asked_count (frames b) (fraction d) = Ok a /\ cap_count c (frames b) = Ok kc /\
               (0 <= Z.min a kc <= Z.of_nat (frames b))%Z /\
               Z.of_nat (length kept) = (Z.of_nat (frames b) - Z.min a kc)%Z /\
               forall i, In i kept <-> i < frames b /\ ~ In i s.
Proof. intros Hp H. apply dropout_inv in H. destruct H as [k [Hk [Hr [-> _]]]].
  destruct (possible_draw_inv _ _ _ _ _ Hp Hk Hr) as [Hl [Hd Hf]].
  destruct (drop_count_inv _ _ _ _ Hk) as [a [kc [Ha [Hc ->]]]]. exists a, kc.
  split; [exact Ha|]. split; [exact Hc|]. split; [exact Hr|]. split; [|intros i; apply complement_In].
  pose proof (complement_length _ _ Hd Hf). lia. Qed.

Lemma asked_zero n sg a : asked_count n (S754_zero sg) = Ok a -> a = 0%Z.
Proof. unfold asked_count, int_times_float. destruct (is_inf_sf _); cbn [rbind]; [discriminate|].
  unfold sf64_mul. destruct (sf64_of_Z (Z.of_nat n)) as [s0|s0| |s0 m0 e0]; cbn [SFmul py_int sf_trunc]; congruence. Qed.
Lemma zero_fraction_drops_nothing {A} c be (b : body A) d sg s r kept :
  fraction d = S754_zero sg -> possible_draw c (frames b) (fraction d) s ->
  dropout c be b d s = Ok (r, kept) -> kept = seq 0 (frames b).
Proof. intros Hz Hp H. apply dropout_inv in H. destruct H as [k [Hk [Hr [-> _]]]].
  destruct (possible_draw_inv _ _ _ _ _ Hp Hk Hr) as [Hl _].
  destruct (drop_count_inv _ _ _ _ Hk) as [a [kc [Ha [_ ->]]]]. rewrite Hz in Ha. apply asked_zero in Ha. subst a.
  assert (Z.min 0 kc = 0%Z) as E by lia. rewrite E in Hl. cbn [Z.to_nat] in Hl.
  destruct s; [apply complement_nil|discriminate]. Qed.

Lemma cap_okb_spec c n : cap_okb c n = true <-> cap_ok c n.
Proof. unfold cap_okb, cap_ok. destruct (cap_count c n) as [k|e]; split.
  - intros H. apply andb_true_iff in H. destruct H as [H1 H2]. exists k. split; [reflexivity|]. lia.
  - intros [k' [[= <-] Hk]]. apply andb_true_iff. split; lia.
  - discriminate.
  - intros [k' [H _]]. discriminate. Qed.
Lemma keeps_one_if_cap_ok {A} c be (b : body A) d s r kept :
  cap_ok c (frames b) -> possible_draw c (frames b) (fraction d) s ->
  dropout c be b d s = Ok (r, kept) -> 1 <= length kept.
Proof. intros [kc0 [Hc0 Hb]] Hp H. destruct (dropped_count _ _ _ _ _ _ _ Hp H) as [a [kc [_ [Hc [_ [Hl _]]]]]].
  rewrite Hc0 in Hc. injection Hc as <-. lia. Qed.

(* "about that fraction": int(x) is within 1 below x *)
Lemma pow_pos_2 p : Z.pow_pos 2 p = Zpos (Pos.pow 2 p).
Proof. now rewrite Pos2Z.inj_pow_pos. Qed.
Lemma trunc_bounds x a : sf_nonneg x = true -> sf_trunc x = Some a ->
  (0 <= a)%Z /\ Qle (inject_Z a) (sf_Q x) /\ Qlt (sf_Q x) (inject_Z (a + 1)).
Proof. destruct x as [s|s| |s m e]; cbn [sf_nonneg sf_trunc sf_Q]; try discriminate.
  - intros _ [= <-]. unfold Qle, Qlt, inject_Z. cbn [Qnum Qden]. lia.
  - intros Hs. apply negb_true_iff in Hs. subst s. intros [= <-]. unfold Qle, Qlt, inject_Z.
    destruct e as [|p|p]; cbn [Qnum Qden].
    + lia.
    + rewrite pow_pos_2. lia.
    + rewrite pow_pos_2. set (D := Pos.pow 2 p).
      pose proof (Z.mul_div_le (Zpos m) (Zpos D) ltac:(lia)) as H1.
      pose proof (Z.mul_succ_div_gt (Zpos m) (Zpos D) ltac:(lia)) as H2.
      pose proof (Z.div_pos (Zpos m) (Zpos D) ltac:(lia) ltac:(lia)) as H3.
      unfold Z.succ in H2. split; [lia|]. split; nia. Qed.
Lemma drops_about_the_fraction {A} c be (b : body A) d s r kept x :
  possible_draw c (frames b) (fraction d) s -> dropout c be b d s = Ok (r, kept) ->
  int_times_float (frames b) (fraction d) = Ok x -> sf_nonneg x = true ->
  exists a kc, cap_count c (frames b) = Ok kc /\ asked_count (frames b) (fraction d) = Ok a /\
    Qle (inject_Z a) (sf_Q x) /\ Qlt (sf_Q x) (inject_Z (a + 1)) /\
    ((a <= kc)%Z -> Z.of_nat (frames b - length kept) = a) /\
    ((kc < a)%Z -> Z.of_nat (frames b - length kept) = kc).
Proof. intros Hp H Hx Hn. destruct (dropped_count _ _ _ _ _ _ _ Hp H) as [a [kc [Ha [Hc [Hr [Hl _]]]]]].
  exists a, kc. split; [exact Hc|]. split; [exact Ha|].
  unfold asked_count in Ha. rewrite Hx in Ha. cbn [rbind] in Ha. unfold py_int in Ha.
  destruct (sf_trunc x) as [a'|] eqn:Ht; [|discriminate]. injection Ha as ->.
  destruct (trunc_bounds _ _ Hn Ht) as [H0 [H1 H2]]. repeat split; try assumption; intros; lia. Qed.

Definition c99 : spec_float := sf_of_b64 4607092346807469998%N.       (* 0.99 *)
Definition p03 : spec_float := sf_of_b64 4599075939470750515%N.       (* 0.3 *)
Definition ex_body : body nat := mkB (sf64_of_Z 30) [10;11;12;13;14;15;16;17;18;19] [20;21;22;23;24;25;26;27;28;29] [30;31;32;33;34;35;36;37;38;39].
Example possible_draw_example : possible_draw c99 10 p03 [7; 2; 5].
Proof. exists 3. split; vm_compute; reflexivity. Qed.
Example dropout_example :
  dropout c99 NumPy ex_body (Given p03) [7; 2; 5]
  = Ok (mkB (sf64_of_Z 30) [10;11;13;14;16;18;19] [20;21;23;24;26;28;29] [30;31;33;34;36;38;39], [0;1;3;4;6;8;9]).
Proof. vm_compute. reflexivity. Qed.
Example zero_draw_example : possible_draw c99 10 (S754_zero true) [].
Proof. exists 0. split; vm_compute; reflexivity. Qed.
Example cap_ok_example : cap_ok c99 200.
Proof. apply cap_okb_spec. vm_compute. reflexivity. Qed.
(* the cap is reached: fraction 1 of 200 frames drops 198 *)
Example capped_example : drop_count c99 200 (sf64_of_Z 1) = Ok 198%Z.
Proof. vm_compute. reflexivity. Qed.
Example nonneg_example : exists x, int_times_float 10 p03 = Ok x /\ sf_nonneg x = true /\ sf_trunc x = Some 3%Z.
Proof. eexists. split; [vm_compute; reflexivity|]. split; vm_compute; reflexivity. Qed.
