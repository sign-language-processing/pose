(* C10 - refinement, part 2: mean / variance (TensorFlow) against the per-slice reference.
   Needs a numeric type with x + 0 = x; variance additionally needs a faithful count (1 + ... + 1 <> 0).
   At the end, rule 4 of the property statement for the per-slice reference itself. *)
From Coq Require Import List Arith ZArith Bool Lia.
Require Import ListFacts Result Tensor Num C10_Tensor C10_Masked C10_TensorLemmas C10_Aligned C10_RefBase.
Import ListNotations.

Lemma norm_dim_lt z n d : norm_dim z n = Ok d -> d < n.
Proof. unfold norm_dim. destruct ((- Z.of_nat n <=? z)%Z && (z <? Z.of_nat n)%Z) eqn:E; [|discriminate].
  intros [= <-]. apply andb_prop in E. destruct E as [E1 E2]. apply Z.leb_le in E1. apply Z.ltb_lt in E2.
  destruct (z <? 0)%Z eqn:E3; [apply Z.ltb_lt in E3 | apply Z.ltb_ge in E3]; lia. Qed.
Definition dim_ok (d : option nat) (s : list nat) : Prop := match d with Some d' => d' < length s | None => True end.
Lemma le1_keep d s : dim_ok d s -> Forall2 le1 s (keep_shape d s).
Proof. destruct d; cbn; intros H; [now apply le1_replace | apply le1_ones]. Qed.
Lemma norm_opt_ok d n dd : norm_opt d n = Ok dd -> forall s, length s = n -> dim_ok dd s.
Proof. unfold norm_opt. destruct d as [z|]; [|intros [= <-]; cbn; trivial].
  destruct (norm_dim z n) as [x|] eqn:E; cbn; [|discriminate]. intros [= <-] s Hs. cbn. rewrite Hs. eapply norm_dim_lt; eauto. Qed.

Lemma slices_opt_shape {X} (dx : X) d t : shape (slices_opt dx d t) = red_shape d (shape t).
Proof. destruct d; reflexivity. Qed.
Lemma slices_opt_wf {X} (dx : X) d t : wf (slices_opt dx d t).
Proof. destruct d; [apply tabulate_wf | reflexivity]. Qed.
Lemma slices_opt_tmap {X Y} (dx : X) (dy : Y) (h : X -> Y) d (P : tensor X) : wf P -> dim_ok d (shape P) ->
  slices_opt dy d (tmap h P) = tmap (map h) (slices_opt dx d P).
Proof. intros Hw Hd. destruct d as [d|]; [|reflexivity]. cbn [slices_opt dim_ok] in *.
  unfold slices. cbn [shape data tmap]. rewrite tmap_tabulate. apply tabulate_ext. intros k Hk.
  rewrite map_map. apply map_seq_ext. intros i Hi. apply nth_map_lt. rewrite Hw.
  apply ravel_lt, in_range_insert; [exact Hd | now apply unravel_in_range | lia]. Qed.
Lemma pair_data_image {X Y} (dv : X) (dm : Y) (v : tensor X) (m : tensor Y) : wf v -> wf m -> shape v = shape m ->
  forall Z (h : X * Y -> Z), tabulate (shape v) (fun p => h (nth p (data v) dv, nth p (data m) dm))
                           = tabulate (shape v) (fun p => h (nth p (data (tzip v m)) (dv, dm))).
Proof. intros Hv Hm Hs Z h. apply tabulate_ext. intros p _. f_equal. symmetry. apply nth_tzip. unfold wf in *. congruence. Qed.
Lemma reduce_data {X} (dx : X) keep d t : data (reduce dx keep d t) = data (slices_opt dx d t).
Proof. unfold reduce. now destruct keep. Qed.
Lemma reduce_wf {X} (dx : X) keep d t : dim_ok d (shape t) -> wf (reduce dx keep d t).
Proof. intros Hd. unfold wf. rewrite reduce_data, slices_opt_wf, slices_opt_shape, reduce_shape.
  destruct keep; [|reflexivity]. destruct d as [d|]; cbn; [now rewrite prod_keep | now rewrite prod_ones]. Qed.

Lemma map_as_seq {X Y} (h : X -> Y) (d : X) (l : list X) : map h l = map (fun p => h (nth p l d)) (seq 0 (length l)).
Proof. rewrite (list_as_map_nth d l) at 1. now rewrite map_map. Qed.
(* combining a tensor elementwise with a per-slice quantity [mu] that is kept along the reduced axis and broadcast back
   combines every slice with its own [mu] *)
Lemma slices_opt_bzip_keep {X Y Z} (dx : X) (dy : Y) (dz : Z) (g : X -> Y -> Z) (mu : list X -> Y) d (P : tensor X) (KT : tensor Y) :
  wf P -> dim_ok d (shape P) -> shape KT = keep_shape d (shape P) -> data KT = map mu (data (slices_opt dx d P)) ->
  slices_opt dz d (tabulate (shape P) (fun k => g (bget dx (shape P) P k) (bget dy (shape P) KT k)))
  = tmap (fun l => map (fun x => g x (mu l)) l) (slices_opt dx d P).
Proof. intros HPw Hdim Hks HKd. rewrite (tmap_as_tabulate _ [] _ (slices_opt_wf dx d P)), slices_opt_shape.
  destruct d as [d'|]; cbn [slices_opt red_shape keep_shape dim_ok] in *.
  - rewrite (slices_bzip_keep dx dy dz g d' P KT Hdim Hks). apply tabulate_ext. intros k' Hk'.
    rewrite HKd, (nth_map_lt _ _ k' [] dy) by (rewrite (slices_opt_wf dx (Some d') P); exact Hk'). reflexivity.
  - unfold tabulate; cbn [prod fold_right seq map data nth] in *. do 2 f_equal.
    rewrite (map_as_seq _ dx (data P)), HPw. apply map_seq_ext. intros p Hp.
    rewrite (bget_same dx P p), (bget_ones dy (shape P) KT p Hks), HKd by lia. reflexivity.
Qed.

Section Stats.
Variable O : ops.
Hypothesis add_0_r : forall x : T O, add O x (zero O) = x.
Notation A := (T O).
Notation mt := (mt O).
Notation pair_of := (pair_of O).
Notation dp := (dp O).
Notation z0 := (z0 O).
Notation ok := (ok O).
Notation fsum := (fsum O).
Notation mean_ref := (mean_ref O).

(* the cell functions of the reference's mean ([rexec] has them as lambdas; the proofs match by conversion): the
   zero-filled value, the validity indicator *)
Definition hz (a : A * bool) : A := if snd a then fst a else zero O.
Definition hi (a : A * bool) : A := ind O (snd a).
Lemma fold_valid (e : A -> A) (l : list (A * bool)) acc :
  fold_left (add O) (map (fun a : A * bool => if snd a then e (fst a) else zero O) l) acc = fold_left (add O) (map e (valid_values O l)) acc.
Proof. revert acc. induction l as [|[v b] l IH]; intros acc; cbn; [reflexivity|].
  destruct b; cbn [filter snd map fst fold_left]; [apply IH|]. rewrite add_0_r. apply IH. Qed.
Lemma fsum_zero_fill l : fsum (map hz l) = fsum (valid_values O l).
Proof. rewrite <- (map_id (valid_values O l)). apply (fold_valid (fun v => v)). Qed.
Lemma fsum_ind l : fsum (map hi l) = count O (valid_values O l).
Proof. apply (fold_valid (fun _ => one O)). Qed.
Lemma mean_slice l : (fix_nan O (div O (fsum (map hz l)) (fsum (map hi l))), nonzero O (fsum (map hi l))) = mean_ref l.
Proof. now rewrite fsum_zero_fill, fsum_ind. Qed.

(* [_nf]: the result of a masked operation written as an image of the pair tensor.  The mean: zero-filled values
   and validity indicators are both pointwise images of the pair tensor, so both reductions are images of its slices *)
Lemma zero_filled_nf m zf : ok m -> zero_filled O repaired m = Ok zf -> zf = tmap hz (pair_of m).
Proof. intros Hm. unfold zero_filled; cbn [zf_where repaired]. rewrite bzip_same by (symmetry; apply Hm).
  intros [= <-]. rewrite (tmap_as_tabulate hz dp) by now apply pair_wf. rewrite <- (ok_al _ _ Hm). apply tabulate_ext. intros p _.
  now rewrite pair_nth. Qed.
Lemma ind_nf m : ok m -> tmap (ind O) (snd m) = tmap hi (pair_of m).
Proof. intros Hm. unfold tmap, C10_Masked.pair_of, tzip; cbn [shape data]. rewrite <- (ok_al _ _ Hm). f_equal.
  rewrite <- (map_snd_combine (data (fst m)) (data (snd m))) at 1 by now apply ok_len. apply map_map. Qed.

Lemma mean_nf keep d m x : ok m -> mean_mt O repaired keep d m = Ok x ->
  exists dd, norm_opt d (length (shape (fst m))) = Ok dd /\
    pair_of x = tmap mean_ref (reduce dp keep dd (pair_of m)) /\ ok x.
Proof. intros Hok H. unfold mean_mt in H. binv H. apply (zero_filled_nf _ _ Hok) in E. subst x0.
  change (shape (tmap hz (pair_of m))) with (shape (fst m)) in H. rewrite <- (ok_al _ _ Hok), (ind_nf _ Hok) in H.
  binv H. rename x0 into dd. exists dd. pose proof (norm_opt_ok _ _ _ E _ eq_refl) as Hdim.
  split; [reflexivity|].
  pose proof (pair_wf _ _ Hok) as HP.
  set (S1 := tmap fsum (reduce z0 keep dd (tmap hz (pair_of m)))) in *.
  set (S2 := tmap fsum (reduce z0 keep dd (tmap hi (pair_of m)))) in *.
  assert (H1 : wf S1) by (apply tmap_wf, reduce_wf; exact Hdim).
  assert (H2 : wf S2) by (apply tmap_wf, reduce_wf; exact Hdim).
  assert (Hs : shape S1 = shape S2) by (unfold S1, S2; cbn [tmap shape]; now rewrite !reduce_shape).
  rewrite (bzip_same_zip _ _ _ _ _ H1 H2 Hs) in H. injection H as <-.
  assert (Hl : length (data S1) = length (data S2)) by (unfold wf in *; congruence).
  split.
  - apply tensor_eq; unfold C10_Masked.pair_of at 1, S1, S2; cbn [fst snd tmap tzip shape data].
    + now rewrite !reduce_shape.
    + rewrite !reduce_data, !(slices_opt_tmap dp) by assumption. cbn [tmap data]. rewrite !map_map, combine_map_same, map_map, combine_map_same.
      apply map_ext. intros l. apply mean_slice.
  - repeat split; cbn [fst snd]; [now apply tmap_wf, tmap_wf, tzip_wf | now apply tmap_wf | exact Hs].
Qed.

Hypothesis count_faithful : forall l : list A, nonzero O (count O l) = false -> l = [].
(* squared deviation from the slice's mean cell [mu]; invalid where the mean is *)
Definition dev (a mu : A * bool) : A * bool :=
  (mul O (sub O (fst a) (fst mu)) (sub O (fst a) (fst mu)), snd a && snd mu).
Lemma valid_dev l mu b :
  valid_values O (map (fun x => dev x (mu, b)) l)
  = if b then map (fun v => mul O (sub O v mu) (sub O v mu)) (valid_values O l) else [].
Proof. unfold valid_values. induction l as [|[v k] l IH]; cbn [map filter]; [now destruct b|].
  unfold dev at 1; cbn [fst snd]. destruct k, b; cbn [andb filter map fst snd]; rewrite ?IH; reflexivity. Qed.
(* a slice without a valid element has an invalid mean, so [dev] invalidates every cell and the outer mean runs over
   []; [count_faithful] says that this is the only way for the mean to be invalid, so [var_ref] sees [] too *)
Lemma var_slice l : mean_ref (map (fun x => dev x (mean_ref l)) l) = var_ref O l.
Proof. unfold C10_Masked.mean_ref, var_ref. set (vs := valid_values O l).
  destruct (mean_of O vs) as [mu b] eqn:E. rewrite valid_dev. cbn [fst].
  destruct b; [reflexivity|].
  assert (Hb : nonzero O (count O vs) = false) by (unfold mean_of in E; now injection E).
  rewrite (count_faithful _ Hb). reflexivity. Qed.

(* variance = mean (keepdims) ; broadcast back ; [dev] ; mean.  [mean_nf] twice, [slices_opt_bzip_keep] in between to
   see the broadcast mean as one constant per slice, then [var_slice] slice by slice *)
Lemma var_nf d m x : ok m -> var_mt O repaired d m = Ok x ->
  exists dd, norm_opt d (length (shape (fst m))) = Ok dd /\
    pair_of x = tmap (var_ref O) (slices_opt dp dd (pair_of m)) /\ ok x.
Proof. intros Hok H. unfold var_mt in H. cbn [var_keepdims repaired] in H. binv H. rename x0 into means.
  destruct (mean_nf _ _ _ _ Hok E) as [dd [Hdd [HK Hokm]]].
  exists dd. split; [exact Hdd|]. pose proof (norm_opt_ok _ _ _ Hdd _ eq_refl) as Hdim.
  set (P := pair_of m) in *. set (KT := pair_of means) in *. change (shape (fst m)) with (shape P) in *.
  pose proof (f_equal shape HK : shape (fst means) = keep_shape dd (shape P)) as Hks.
  assert (Hb : broadcast_shapes (shape P) (shape (fst means)) = Ok (shape P)) by (rewrite Hks; apply broadcast_le1, le1_keep; exact Hdim).
  binv H. rename x0 into dv. binv H. rename x0 into dk.
  destruct (bzip_and_nf O _ _ _ _ _ Hok Hokm E0 E1) as [ns [B [-> ->]]].
  change (shape (fst m)) with (shape P) in B. rewrite Hb in B. injection B as <-.
  rewrite tmap_tabulate in H.
  match type of H with mean_mt _ _ _ _ ?mm = _ => set (m2 := mm) in * end.
  destruct (mean_nf _ _ _ _ (ok_tabulate O _ _ _ : ok m2) H) as [dd2 [Hdd2 [Hpx Hokx]]].
  change (shape (fst m2)) with (shape P) in Hdd2. rewrite Hdd in Hdd2. injection Hdd2 as <-.
  split; [|exact Hokx]. rewrite Hpx.
  assert (Hp2 : pair_of m2 = tabulate (shape P) (fun k => dev (bget dp (shape P) P k) (bget dp (shape P) KT k))).
  { unfold m2. rewrite pair_tabulate. apply tabulate_ext. intros k _. unfold P, KT. now rewrite (bget_pair O _ _ _ Hok), (bget_pair O _ _ _ Hokm). }
  change (reduce dp false dd (pair_of m2)) with (slices_opt dp dd (pair_of m2)). rewrite Hp2.
  rewrite (slices_opt_bzip_keep dp dp dp dev mean_ref dd P KT (pair_wf _ _ Hok) Hdim Hks (f_equal data HK)).
  unfold tmap; cbn [shape data]. f_equal. rewrite map_map. apply map_ext. intros l. apply var_slice.
Qed.
End Stats.

Section Valid.
Variable O : ops.
Hypothesis count_faithful : forall l : list (T O), nonzero O (count O l) = false -> l = [].
Hypothesis eqb_zero : eqb O (zero O) (zero O) = true.
Lemma nonzero_count (l : list (T O)) : nonzero O (count O l) = true <-> l <> [].
Proof. split.
  - intros H ->. unfold nonzero, count, fsum in H; cbn in H. now rewrite eqb_zero in H.
  - intros H. destruct (nonzero O (count O l)) eqn:E; [reflexivity|]. now apply count_faithful in E. Qed.
Lemma valid_nonempty (l : list (T O * bool)) : valid_values O l <> [] <-> exists v, In (v, true) l.
Proof. unfold valid_values. split.
  - intros H. destruct (filter snd l) as [|[v b] r] eqn:E; [now elim H|]. exists v.
    assert (Hin : In (v, b) (filter snd l)) by (rewrite E; now left). apply filter_In in Hin. destruct Hin as [Hin Hb]. cbn in Hb. now subst b.
  - intros [v Hv] E. assert (Hin : In (v, true) (filter snd l)) by (apply filter_In; now split).
    destruct (filter snd l); [exact Hin | discriminate]. Qed.
Lemma count_map (g : T O -> T O) l : count O (map g l) = count O l.
Proof. unfold count. now rewrite map_map. Qed.
Theorem statistics_valid_iff_exists (l : list (T O * bool)) :
  (snd (mean_ref O l) = true <-> exists v, In (v, true) l) /\ (snd (var_ref O l) = true <-> exists v, In (v, true) l).
Proof. unfold mean_ref, var_ref, mean_of; cbn [fst snd]. split.
  - rewrite nonzero_count. apply valid_nonempty.
  - rewrite count_map, nonzero_count. apply valid_nonempty. Qed.
End Valid.
