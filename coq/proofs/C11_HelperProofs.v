(* C11 - the format helpers change only the points they name (value level). *)
From Coq Require Import List Arith Bool NArith ZArith Lia.
Require Import Result Tensor C11_Str C11_Select C11_Helpers C11_ListLemmas C11_TensorLemmas.
Import ListNotations.
Open Scope list_scope.

Lemma in_list_In k l : in_list k l = true <-> In k l.
Proof. unfold in_list. rewrite existsb_exists. split.
  - intros [y [Hy He]]. apply Nat.eqb_eq in He. now subst.
  - intros H. exists k. split; [exact H|apply Nat.eqb_refl]. Qed.

Lemma hide_indices_spec cs tbl k : In k (hide_indices cs tbl) <->
  exists c pts n, In (c, pts) tbl /\ In n pts /\ point_index cs c n = Ok k.
Proof. unfold hide_indices. rewrite in_flat_map. split.
  - intros [[c pts] [He Hk]]. cbn [fst snd] in Hk. apply in_flat_map in Hk. destruct Hk as [n [Hn Hk]].
    destruct (point_index cs c n) as [j|] eqn:E; [|destruct Hk]. destruct Hk as [<-|[]]. exists c, pts, n. auto.
  - intros [c [pts [n [He [Hn Hk]]]]]. exists (c, pts). split; [exact He|]. cbn [fst snd]. apply in_flat_map. exists n. split; [exact Hn|].
    rewrite Hk. now left. Qed.

Definition hidden_columns (idxs : list nat) (b b' : body) (F P N D : nat) : Prop :=
  body_shape b' F P N D /\ b_fps b' = b_fps b /\ b_backend b' = b_backend b /\
  forall f p k, f < F -> p < P -> k < N ->
    (In k idxs ->
       tget 0%Z (b_conf b') [f; p; k] = 0%Z /\
       forall e, e < D -> tget 0%Z (b_data b') [f; p; k; e] = 0%Z /\ tget false (b_mask b') [f; p; k; e] = false) /\
    (~ In k idxs ->
       tget 0%Z (b_conf b') [f; p; k] = tget 0%Z (b_conf b) [f; p; k] /\
       forall e, e < D -> tget 0%Z (b_data b') [f; p; k; e] = tget 0%Z (b_data b) [f; p; k; e] /\
                          tget false (b_mask b') [f; p; k; e] = tget false (b_mask b) [f; p; k; e]).
Lemma hide_cols_get {X} (d z : X) idxs t f p k r : in_range (shape t) (f :: p :: k :: r) ->
  tget d (hide_cols d z idxs t) (f :: p :: k :: r) = if in_list k idxs then z else tget d t (f :: p :: k :: r).
Proof. intros H. unfold hide_cols. now rewrite tget_tbuild. Qed.
Theorem hide_body_spec idxs b b' F P N D : body_shape b F P N D -> hide_body idxs b = Ok b' ->
  hidden_columns idxs b b' F P N D /\ Forall (fun k => k < N) idxs.
Proof. intros [Sd [Sm Sc]] H. unfold hide_body in H. destruct (b_backend b) eqn:Ebe; try discriminate.
  rewrite Sd, Sm, Sc in H. cbn [length Nat.eqb andb] in H.
  destruct (forallb (fun k => axis2_lt k [F; P; N; D] && axis2_lt k [F; P; N; D] && axis2_lt k [F; P; N]) idxs) eqn:Ef; [|discriminate].
  injection H as <-. split.
  - unfold hidden_columns, body_shape. cbn [b_data b_conf b_mask b_fps b_backend]. unfold hide_cols at 1 2 3. cbn [shape tbuild].
    split; [auto|]. split; [reflexivity|]. split; [auto|]. intros f p k Hf Hp Hk. split; intros Hi.
    + apply in_list_In in Hi. split.
      * rewrite hide_cols_get by (rewrite Sc; in_range_tac). now rewrite Hi.
      * intros e He. rewrite !hide_cols_get by (rewrite ?Sd, ?Sm; in_range_tac). now rewrite Hi.
    + assert (Hn : in_list k idxs = false) by (destruct (in_list k idxs) eqn:E; [apply in_list_In in E; contradiction|reflexivity]). split.
      * rewrite hide_cols_get by (rewrite Sc; in_range_tac). now rewrite Hn.
      * intros e He. rewrite !hide_cols_get by (rewrite ?Sd, ?Sm; in_range_tac). now rewrite Hn.
  - apply Forall_forall. intros k Hk. rewrite forallb_forall in Ef. specialize (Ef k Hk). unfold axis2_lt in Ef. cbn [nth] in Ef.
    apply andb_true_iff in Ef. destruct Ef as [_ Ef]. now apply Nat.ltb_lt. Qed.

Definition wrist_corrected (wi bi : nat) (b b' : body) (F P N D : nat) : Prop :=
  body_shape b' F P N D /\ b_fps b' = b_fps b /\ b_backend b' = b_backend b /\
  forall f p k, f < F -> p < P -> k < N ->
    let src := if Nat.eqb k bi then (if is_zero32 (tget 0%Z (b_conf b) [f; p; wi]) then bi else wi) else k in
    tget 0%Z (b_conf b') [f; p; k] = tget 0%Z (b_conf b) [f; p; src] /\
    forall e, e < D -> tget 0%Z (b_data b') [f; p; k; e] = tget 0%Z (b_data b) [f; p; src; e] /\
                       tget false (b_mask b') [f; p; k; e] = tget false (b_mask b) [f; p; src; e].
Lemma wrist_fix_get {X} (d : X) conf wi bi t f p k r : in_range (shape t) (f :: p :: k :: r) ->
  tget d (wrist_fix d conf wi bi t) (f :: p :: k :: r) =
  tget d t (f :: p :: (if Nat.eqb k bi then if is_zero32 (tget 0%Z conf [f; p; wi]) then bi else wi else k) :: r).
Proof. intros H. unfold wrist_fix. rewrite tget_tbuild by exact H. cbn [nth at_col].
  destruct (Nat.eqb_spec k bi) as [->|]; [|reflexivity]. now destruct (is_zero32 _). Qed.
Theorem correct_wrist_body_spec T cs b hand b' F P N D : body_shape b F P N D ->
  correct_wrist_body T cs b hand = Ok b' ->
  exists f hw bw wi bi, detect T (map c_name cs) = Ok f /\ wrist_entry T f hand = Ok (hw, bw) /\
    point_index cs (fst hw) (snd hw) = Ok wi /\ point_index cs (fst bw) (snd bw) = Ok bi /\ wi < N /\ bi < N /\
    wrist_corrected wi bi b b' F P N D.
Proof. intros [Sd [Sm Sc]] H. unfold correct_wrist_body in H.
  destruct (detect T (map c_name cs)) as [f|] eqn:Ef; cbn [rbind] in H; [|discriminate].
  destruct (wrist_entry T f hand) as [[[hc hp] [bc bp]]|] eqn:Ee; cbn [rbind] in H; [|discriminate].
  destruct (point_index cs hc hp) as [wi|] eqn:Ew; cbn [rbind] in H; [|discriminate].
  destruct (point_index cs bc bp) as [bi|] eqn:Eb; cbn [rbind] in H; [|discriminate].
  destruct (b_backend b) eqn:Ebe; try discriminate. rewrite Sd, Sm, Sc in H.
  match type of H with (if ?c then _ else _) = _ => destruct c eqn:Ec end; [|discriminate]. injection H as <-.
  (* the guard is a conjunction of [<?] tests, [wi <? N] and [bi <? N] among them: split it and turn each into [<] *)
  repeat (apply andb_true_iff in Ec; destruct Ec as [Ec ?]).
  repeat match goal with H : (_ <? _) = true |- _ => apply Nat.ltb_lt in H end.
  exists f, (hc, hp), (bc, bp), wi, bi. cbn [fst snd].
  split; [reflexivity|]. split; [exact Ee|]. split; [exact Ew|]. split; [exact Eb|]. split; [assumption|]. split; [assumption|].
  unfold wrist_corrected, body_shape. cbn [b_data b_conf b_mask b_fps b_backend].
  split; [unfold wrist_fix; cbn [shape tbuild]; auto|]. split; [reflexivity|]. split; [now rewrite Ebe|].
  intros f0 p k Hf Hp Hk. cbn zeta. split; [|intros e He; split].
  - apply wrist_fix_get. rewrite Sc. in_range_tac.
  - apply wrist_fix_get. rewrite Sd. in_range_tac.
  - apply wrist_fix_get. rewrite Sm. in_range_tac. Qed.

Theorem reduce_request_spec T cs names pd : reduce_request T cs = Ok (names, pd) ->
  exists bc, In bc cs /\ c_name bc = t_body_comp T /\
    names = filter (fun n => negb (str_eqb n (t_world_comp T))) (map c_name cs) /\
    pd = [(t_face_comp T, t_face_contours T);
          (t_body_comp T, filter (fun p => forallb (fun i => negb (substrb i p)) (t_ignore_names T)) (c_points bc))].
Proof. unfold reduce_request. destruct (find (fun c => str_eqb (c_name c) (t_body_comp T)) cs) as [bc|] eqn:Ef; [|discriminate].
  intros [= <- <-]. apply find_some in Ef. destruct Ef as [Hin He]. exists bc. split; [exact Hin|]. split; [|auto].
  destruct (str_eqb_spec (c_name bc) (t_body_comp T)); [assumption|discriminate]. Qed.
