(* Pose.read (pose.py:35-65) with the process-global header memo (pose_header.py:235-268,311-343).
   md5 is modelled as injective: the memo stores the hashed slice itself.  Definitions only. *)
From Coq Require Import ZArith NArith List Bool.
Require Import ListN Result Bytes Prog Codec.
Import ListNotations.
Open Scope N_scope.

Record memo := { m_start : N; m_end : N; m_slice : bytes; m_header : header }.
Fixpoint bytes_eqb (a b : bytes) : bool :=
  match a, b with
  | [], [] => true
  | x :: a', y :: b' => (x =? y) && bytes_eqb a' b'
  | _, _ => false
  end.
(* buffer[start_offset:end_offset] with Python slice clipping *)
Definition py_slice (s e : N) (b : bytes) : bytes := takeN (e - s) (dropN s b).
Definition check_cache (m : option memo) (buffer : bytes) : option memo :=
  match m with
  | None => None
  | Some c => if bytes_eqb (m_slice c) (py_slice (m_start c) (m_end c) buffer) then Some c else None
  end.
Definition prefetch_len (m : option memo) : N :=
  (match m with Some c => (if m_end c =? 0 then 10240 else m_end c) | None => 10240 end) + 100.

(* body decoder chosen by the header's version (pose_body.py:62-69); the v0.0 / v0.1 decoders are model/C04_Legacy.v *)
Definition read_body_with (legacy : vclass -> header -> rargs -> prog body) (h : header) (a : rargs) : prog body :=
  match version_class (h_version h) with
  | V02 => read_v0_2 h (a_sf a) (a_st a) (a_ef a) (a_et a)
  | VUnknown => Fail NotImplemented
  | v => legacy v h a
  end.
Definition no_legacy (v : vclass) (h : header) (a : rargs) : prog body := Fail NotImplemented.

Section WithLegacy.
Variable legacy : vclass -> header -> rargs -> prog body.
Definition read_body := read_body_with legacy.

(* Pose.read on a bytes object *)
Definition read_bytes (m : option memo) (buffer : bytes) (a : rargs) : result pose * option memo :=
  match check_cache m buffer with
  | Some c =>
      (rmap (fun br => {| p_header := m_header c; p_body := fst br |})
            (run_plain (read_body (m_header c) a) {| pbuf := buffer; poff := m_end c |}), m)
  | None =>
      match run_plain rd_header {| pbuf := buffer; poff := 0 |} with
      | Err e => (Err e, m)
      | Ok (h, r) =>
          let m' := Some {| m_start := 0; m_end := poff r; m_slice := py_slice 0 (poff r) buffer; m_header := h |} in
          (rmap (fun br => {| p_header := h; p_body := fst br |}) (run_plain (read_body h a) r), m')
      end
  end.

Definition any_arg (a : rargs) : bool :=
  match a_sf a, a_st a, a_ef a, a_et a with None, None, None, None => false | _, _, _, _ => true end.
(* Pose.read on a seekable stream positioned at 0; third component: bytes pulled from the stream *)
Definition read_stream (m : option memo) (file : bytes) (a : rargs) : result pose * option memo * N :=
  if negb (any_arg a) then
    let '(r, m') := read_bytes m file a in (r, m', lenN file)
  else
    let r0 := {| buf := []; off := 0; skipped := 0; pulled := 0 |} in
    match expect file (prefetch_len m) r0 with
    | Err e => (Err e, m, 0)
    | Ok r1 =>
      match check_cache m (buf r1) with
      | Some c =>
          let r2 := {| buf := buf r1; off := m_end c; skipped := skipped r1; pulled := pulled r1 |} in
          match run_stream file (read_body (m_header c) a) r2 with
          | Ok (b, r3) => (Ok {| p_header := m_header c; p_body := b |}, m, pulled r3)
          | Err e => (Err e, m, 0)
          end
      | None =>
          match run_stream file rd_header r1 with
          | Err e => (Err e, m, 0)
          | Ok (h, r2) =>
              let m' := Some {| m_start := 0; m_end := off r2; m_slice := py_slice 0 (off r2) (buf r2); m_header := h |} in
              match run_stream file (read_body h a) r2 with
              | Ok (b, r3) => (Ok {| p_header := h; p_body := b |}, m', pulled r3)
              | Err e => (Err e, m', 0)
              end
          end
      end
    end.
End WithLegacy.
