(* C08 - outside the common domain: matmul with the rebuilt mask at any width, out-of-range index lists
   ([out_of]); then the example content and the witnesses that props/C08.v evaluates. *)
From Coq Require Import ZArith NArith List Bool Lia.
Require Import Result F32 Codec C08_Body C08_Read C08_Spec C08_Lemmas C08_Ctor C08_Ops C08_Main C08_Run.
Import ListNotations.
Local Open Scope nat_scope.

(* with the mask rebuilt from the rows ([MmAllExpand], DESIGN F16a): every non-empty width *)
Lemma matmul_agree_after_F16a (dot : list N -> list N -> N) eo b k m :
  kD k <> 0 -> ok_for b (k_pts k) -> rows_ok k -> m_rows m = kD k -> m_cols m <> 0 ->
  rmap (fun y => visible (observe b y)) (matmul dot (cfgR MmAllExpand eo) b m (rep b k)) = Ok (visible (obs_core (ref_matmul dot m k))).
Proof. intros HD Hok Hrows Hr Hc. apply matmul_visible; try assumption. intros _ [=]. Qed.

(* an out-of-range position makes every backend raise, unless the body has no elements *)
Lemma rmapM_err {A B} (f : A -> result B) (l : list A) :
  (forall a e, f a = Err e -> e = Index) -> Exists (fun a => f a = Err Index) l -> rmapM f l = Err Index.
Proof. intros Hk H. induction H as [a l He|a l _ IH]; cbn [rmapM]; [now rewrite He|].
  destruct (f a) as [y|e] eqn:E; cbn [rbind]; [now rewrite IH|now rewrite (Hk _ _ E)]. Qed.
Definition out_of (n : nat) (i : Z) : Prop := (i < - Z.of_nat n \/ Z.of_nat n <= i)%Z.
Lemma norm_gather_err n i e : norm_gather n i = Err e -> e = Index.
Proof. unfold norm_gather. destruct (_ && _); [discriminate|]. now intros [= <-]. Qed.
Lemma norm_wrap_err n i e : norm_wrap n i = Err e -> e = Index.
Proof. unfold norm_wrap. destruct (_ && _); [discriminate|]. destruct (_ && _); [discriminate|]. now intros [= <-]. Qed.
Lemma norm_gather_out n i : out_of n i -> norm_gather n i = Err Index.
Proof. intros H. unfold norm_gather, out_of in *. destruct (Z.leb_spec 0 i), (Z.ltb_spec i (Z.of_nat n)); cbn [andb]; try reflexivity; lia. Qed.
Lemma ix_list_out b eo n inner idx : inner <> 0 -> Exists (out_of n) idx -> ix_list b eo n inner idx = Err Index.
Proof. intros Hi H. apply Nat.eqb_neq in Hi.
  assert (Hall : forall f : Z -> result nat, (forall i e, f i = Err e -> e = Index) -> (forall i, out_of n i -> f i = Err Index) -> rmapM f idx = Err Index).
  { intros f He Ho. apply rmapM_err; [exact He|]. eapply Exists_impl; [exact Ho|exact H]. }
  destruct b; cbn [ix_list]; rewrite ?Hi; cbn [andb].
  - apply Hall; [apply norm_wrap_err|apply norm_wrap_out].
  - apply Hall; [apply norm_wrap_err|apply norm_wrap_out].
  - destruct idx; [inversion H|]. apply Hall; [apply norm_gather_err|apply norm_gather_out]. Qed.

(* example content: 2 frames, 1 person, 2 points, 3 dims; confidences 1, 0, -1, NaN *)
Definition w1 : N := 1065353216%N.   Definition wm1 : N := 3212836864%N.   Definition wnan : N := 2143289344%N.
Definition k_ex : core :=
  {| k_fps := 4629137466983448576%N; kF := 2; kP := 1; kT := 2; kD := 3;
     k_pts := [ [ [ (w1, [w1; 1073741824; 1077936128]%N); (0%N, [1082130432; 1084227584; 1086324736]%N) ] ];
                [ [ (wm1, [1088421888; 1090519040; 1091567616]%N); (wnan, [1092616192; 1093664768; 1094713344]%N) ] ] ] |}.
Definition file_ex : list N :=
  [205; 204; 76; 62; 128; 2; 224; 1; 0; 0; 1; 0; 1; 0; 99; 4; 0; 88; 89; 90; 67; 2; 0; 0; 0; 0; 0; 1; 0; 97; 1; 0; 98; 0; 0; 240; 65; 2; 0; 0; 0; 1; 0;
   0; 0; 128; 63; 0; 0; 0; 64; 0; 0; 64; 64; 0; 0; 128; 64; 0; 0; 160; 64; 0; 0; 192; 64; 0; 0; 224; 64; 0; 0; 0; 65; 0; 0; 16; 65; 0; 0; 32; 65;
   0; 0; 48; 65; 0; 0; 64; 65; 0; 0; 128; 63; 0; 0; 0; 0; 0; 0; 128; 191; 0; 0; 192; 127]%N.
Definition m_ex : matrix := {| m_rows := 3; m_cols := 3; m_el := [[w1; 0; 0]; [0; w1; 0]; [0; 0; w1]]%N |}.

Definition raw_ex : raw :=
  {| r_fps := 1106247680%N; r_F := 1; r_P := 1; r_T := 2; r_D := 3;
     r_data := [w1; w1; w1; w1; w1; w1]%N; r_conf := [wm1; wnan]%N |}.
Definition res_shape (r : result body) : option (list nat * option (list nat)) :=
  match r with Ok x => Some (o_shape (observe Np x), option_map fst (o_valid (observe Np x))) | Err _ => None end.
Definition m_32 : matrix := {| m_rows := 3; m_cols := 2; m_el := [[w1; 0]; [0; w1]; [0; 0]]%N |}.
