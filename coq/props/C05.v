(* C05 - the JavaScript reader (src/js/pose_format/src/parser.ts) and the Python reader agree on every file.
   The long proofs stand in proofs/C05_*.v; short ones (examples read off the parse theorems, ties by computation) are given
   here.  Each theorem is followed by Print Assumptions.

   [parse_pose] is the Gallina model of parsePose running against binary-parser (model/C05_JsParser.v); [full_read_prog] /
   [rd_header] are the Python reader of C01 (model/Codec.v, proofs/CodecRT.v: Pose.read of written bytes returns [canon p]).
   Hypotheses that are the property's own quantifier: the file was written by Pose.write ([write_pose p = Ok bs], arrays
   as large as their shapes, at least one coordinate dimension) or by the reference encoders.
   Hypotheses that RESTRICT the claim (each with a witness below showing the readers really differ outside it):
     - [wcomp_plain]: no component / format / point name starts with U+FEFF (binary-parser decodes strings with
       TextDecoder, which drops a leading byte-order mark - C05_js_bom_refuted), format letters are in the BMP;
     - access by name: the component's name is not reused by a later component, the letter not by a later position of
       the format (an object keeps one value per key - C05_js_duplicate_names_example);
     - the coordinate letter at position d of a format names Python's coordinate number [coord_index format d] (the number
       of coordinate letters before it): the JavaScript counter advances on coordinate letters only (parser.ts), so this
       holds for every letter order (C05_js_format_cxy_example); it must index an existing coordinate
       ([coord_index format d < D], D = max format length - 1, relevant for mixed-length formats only). *)
From Coq Require Import ZArith NArith List String Lia.
Require Import ListN Result Bytes Prog Tensor Codec CodecRT
  C05_JsParser C05_Spec C05_View C05_Header C05_HeaderView C05_Body C05_Index C05_Cells C05_Main C05_V01 C05_V00
  C05_GenTie C05_Examples C01_Examples.
Require Import CodecGenTie.
Import ListNotations.
Open Scope list_scope.
Open Scope nat_scope.

(* Header: version, dimensions, every component's name / format / point names / limbs / colours, header length.
   On the bytes [h] of any header Pose.write produces (whatever follows them), the Python header reader returns [hd] and
   stops at offset |h|; the JavaScript header object read field by field ([header_view]) is that same [hd], and its
   headerLength is |h|. *)
Theorem C05_js_header_eq :
  forall dims comps h r, write_header dims comps = Ok h -> Forall wcomp_no_bom comps ->
  exists hd,
    run_plain rd_header {| pbuf := h ++ r; poff := 0 |} = Ok (hd, {| pbuf := h ++ r; poff := lenN h |}) /\
    exists o, parse header_schema (h ++ r) = Some o /\ header_view o = Some (hd, lenN h).
Proof. exact js_header_eq. Qed.
Print Assumptions C05_js_header_eq.
(* the same for a header carrying any version float (v0.0 / v0.1 files): the complete JavaScript object *)
Theorem C05_js_header_any_version :
  forall v dims comps h r, (v < 4294967296)%N -> write_header dims comps = Ok h ->
  parse header_schema (with_version v h ++ r) = Some (js_header_obj (header_of_v v dims comps) (lenN h)) /\
  lenN (with_version v h) = lenN h.
Proof. exact js_header_obj_eq_v. Qed.
Print Assumptions C05_js_header_any_version.

(* v0.2 body metadata: fps, frame count, people count *)
Theorem C05_js_body_info_eq :
  forall p bs, write_pose p = Ok bs -> wf_arrays p -> (1 <= nth 3 (w_shape p) 0)%N -> Forall wcomp_plain (w_comps p) ->
  exists py jp,
    run_plain full_read_prog {| pbuf := bs; poff := 0 |} = Ok (py, {| pbuf := bs; poff := lenN bs |}) /\
    parse_pose bs = Some jp /\
    forall F P T D, b_shape (p_body py) = [F; P; T; D]%N ->
      info_view_v02 (jp_info jp) = Some (b_fps (p_body py), F, P) /\ jp_nframes jp = Z.of_N F.
Proof.
  intros p bs H Hwf HD Hplain.
  destruct (write_pose_ok _ _ H) as [F0 [P0 [T0 [D0 [_ [_ [Hs _]]]]]]].
  destruct (js_parse_v02 p bs F0 P0 T0 D0 H Hwf Hs (plain_formats _ Hplain)) as [h [_ Hparse]].
  exists (canon p). eexists. split; [exact (py_read p bs H Hwf HD)|]. split; [exact Hparse|].
  cbn [jp_info jp_nframes p_body canon canon_body b_shape b_fps].
  intros F P T D Hshape. rewrite Hs in Hshape. injection Hshape as <- <- <- <-.
  split; [|reflexivity]. unfold info_view_v02, info_obj_v02. kred. now rewrite !vnum_of_N.
Qed.
Print Assumptions C05_js_body_info_eq.

(* v0.2: every frame, person, component, point: coordinates and confidence.
   frames[i].people[j][name of component n][l] : "C" is Python's confidence[i][j][offset n + l]; the coordinate letter at
   position d of the component's format is Python's data[i][j][offset n + l][coord_index format d] (row-major cells of the
   tensors Pose.read returns); for the usual formats ("XYC", "XYZC": no "C" before position d) coord_index format d = d. *)
Theorem C05_js_index_eq :
  forall p bs, write_pose p = Ok bs -> wf_arrays p -> (1 <= nth 3 (w_shape p) 0)%N -> Forall wcomp_plain (w_comps p) ->
  exists py jp,
    run_plain full_read_prog {| pbuf := bs; poff := 0 |} = Ok (py, {| pbuf := bs; poff := lenN bs |}) /\
    parse_pose bs = Some jp /\
    forall F P T D, nat_shape (p_body py) = [F; P; T; D] ->
    forall i j n l c, i < F -> j < P -> nth_error (h_comps (p_header py)) n = Some c -> l < List.length (c_points c) ->
      ~ In (c_name c) (map c_name (skipn (S n) (h_comps (p_header py)))) ->
      let t := point_offset (h_comps (p_header py)) n + l in
      js_cell (jp_frame jp (Z.of_nat i)) j (c_name c) l 67 = Some (VF32 (tget 0%N (py_conf (p_body py)) [i; j; t])) /\
      forall d x, nth_error (c_format c) d = Some x -> x <> 67%N -> coord_index (c_format c) d < D -> ~ In x (skipn (S d) (c_format c)) ->
        js_cell (jp_frame jp (Z.of_nat i)) j (c_name c) l x = Some (VF32 (tget 0%N (py_data (p_body py)) [i; j; t; coord_index (c_format c) d])).
Proof. exact js_index_eq. Qed.
Print Assumptions C05_js_index_eq.
Theorem C05_coord_index_plain_formats :
  forall fmt d, ~ In 67%N (firstn d fmt) -> d <= List.length fmt -> coord_index fmt d = d.
Proof.
  intros fmt. induction fmt as [|y fmt IH]; intros [|d] Hn Hd; cbn [firstn List.length] in *; try reflexivity; try lia.
  unfold coord_index in *. cbn [firstn filter]. destruct (N.eqb_spec y 67) as [->|]; [exfalso; apply Hn; now left|].
  cbn [negb List.length]. f_equal. apply IH; [intros H; apply Hn; now right|lia].
Qed.
Print Assumptions C05_coord_index_plain_formats.
(* the index arithmetic on its own: parser.ts:151-156 is the row-major position *)
Theorem C05_js_stride_is_row_major :
  forall F P T D i j k l d : nat,
  js_data_index (js_place (js_offset (Z.of_nat i) (Z.of_nat P) (Z.of_nat T) (Z.of_nat j)) (Z.of_nat k) (Z.of_nat l)) (Z.of_nat D) (Z.of_nat d)
    = Z.of_nat (ravel [F; P; T; D] [i; j; k + l; d]) /\
  js_place (js_offset (Z.of_nat i) (Z.of_nat P) (Z.of_nat T) (Z.of_nat j)) (Z.of_nat k) (Z.of_nat l)
    = Z.of_nat (ravel [F; P; T] [i; j; k + l]).
Proof. intros. rewrite (js_place_ravel F). split; [apply js_data_index_cell|reflexivity]. Qed.
Print Assumptions C05_js_stride_is_row_major.

(* v0.1 (reference encoder of docs/specs/v0.1.md, frame counts that fit the 16-bit field):
   parsePose reports the header, (fps, frames, people) and every cell of the two tensors the file was encoded from.
   That Pose.read returns the same content for these files is C04 (C04_v01_decodes_bytes / _stream). *)
Theorem C05_js_v01_eq :
  forall q bs, spec_v01 q = Ok bs -> wf_lpose q -> Forall wcomp_plain (l_comps q) ->
  exists h jp, write_header (l_dims q) (l_comps q) = Ok h /\ parse_pose bs = Some jp /\
    header_view (jp_header jp) = Some (header_of_v v01_word (l_dims q) (l_comps q), lenN h) /\
    info_view_v01 (jp_info jp) = Some (l_fps q, l_F q, l_P q) /\ jp_nframes jp = Z.of_N (l_F q) /\
    let F := N.to_nat (l_F q) in let P := N.to_nat (l_P q) in let T := N.to_nat (l_T q) in let D := N.to_nat (l_D q) in
    forall i j n l c, i < F -> j < P -> nth_error (lcomps q) n = Some c -> l < List.length (c_points c) ->
      ~ In (c_name c) (map c_name (skipn (S n) (lcomps q))) ->
      let t := point_offset (lcomps q) n + l in
      js_cell (jp_frame jp (Z.of_nat i)) j (c_name c) l 67 = Some (VF32 (tget 0%N (mkT [F; P; T] (l_conf q)) [i; j; t])) /\
      forall d x, nth_error (c_format c) d = Some x -> x <> 67%N -> coord_index (c_format c) d < D -> ~ In x (skipn (S d) (c_format c)) ->
        js_cell (jp_frame jp (Z.of_nat i)) j (c_name c) l x = Some (VF32 (tget 0%N (mkT [F; P; T; D] (l_data q)) [i; j; t; coord_index (c_format c) d])).
Proof. exact js_v01_eq. Qed.
Print Assumptions C05_js_v01_eq.

(* v0.0 (reference encoder of docs/specs/v0.0.md): header, fps, frame count, and every person of every
   frame - in particular the first, which is all Pose.read keeps (C04_v00_decodes_bytes / _stream).
   frames[i].people[j][component][l][letter at position d of the format] is the d-th float stored for that point
   (Python reads floats 0 .. len-2 as coordinates and the last one as confidence). *)
Theorem C05_js_v00_eq :
  forall q bs, spec_v00 q = Ok bs -> wf_lpose0 q -> Forall wcomp_plain (z_comps q) ->
  exists h jp, write_header (z_dims q) (z_comps q) = Ok h /\ parse_pose bs = Some jp /\
    header_view (jp_header jp) = Some (header_of_v 0 (z_dims q) (z_comps q), lenN h) /\
    vnum (obj_get (jp_info jp) k_fps) = Some (z_fps q) /\ jp_nframes jp = Z.of_nat (List.length (z_frames q)) /\
    forall i people j p, nth_error (z_frames q) i = Some people -> nth_error people j = Some p ->
      forall n c l d x, nth_error (zcomps q) n = Some c -> ~ In (c_name c) (map c_name (skipn (S n) (zcomps q))) ->
        l < List.length (c_points c) -> nth_error (c_format c) d = Some x -> ~ In x (skipn (S d) (c_format c)) ->
        js_cell (jp_frame jp (Z.of_nat i)) j (c_name c) l x = Some (VF32 (nth d (nth l (nth n (snd p) []) []) 0%N)).
Proof. exact js_v00_eq. Qed.
Print Assumptions C05_js_v00_eq.

(* version switch: the version floats that are ever written take the branch Python takes:
   +0.0, -0.0, float32(0.1), float32(0.2).  (Other floats inside the 3-decimal tolerance are sampled by the correspondence
   check, not proved; JavaScript also treats 0 < |v| < 0.0005 as version 0 where Python refuses - no written file has it.) *)
Theorem C05_js_dispatch_eq :
  js_version_class 0 = V00 /\ js_version_class 2147483648 = V00 /\ js_version_class v01_word = V01 /\
  js_version_class version_word = V02 /\
  version_class 0 = V00 /\ version_class 2147483648 = V00 /\ version_class v01_word = V01 /\ version_class version_word = V02.
Proof. exact js_dispatch_words. Qed.
Print Assumptions C05_js_dispatch_eq.

(* where the readers differ (what parsePose returns is known from the parse theorems, the cells of these inputs are
   computed; each is replayed on node / CPython by the check) *)
(* format "CXY" written by Pose.write: Python: point a = (1.0, 2.0), confidence 0.5.  JavaScript: a.X = 1.0,
   a.Y = 2.0, a.C = 0.5 - the hypotheses of C05_js_index_eq are satisfiable by a format whose "C" comes first. *)
Theorem C05_js_format_cxy_example :
  exists p bs py jp c,
  write_pose p = Ok bs /\ wf_arrays p /\ (1 <= nth 3 (w_shape p) 0)%N /\ Forall wcomp_plain (w_comps p) /\
  run_plain full_read_prog {| pbuf := bs; poff := 0 |} = Ok (py, {| pbuf := bs; poff := lenN bs |}) /\
  parse_pose bs = Some jp /\ nth_error (h_comps (p_header py)) 0 = Some c /\
  c_format c = [67; 88; 89]%N /\ coord_index (c_format c) 1 = 0 /\ coord_index (c_format c) 2 = 1 /\
  tget 0%N (py_data (p_body py)) [0; 0; 0; 0] = 1065353216%N /\ tget 0%N (py_data (p_body py)) [0; 0; 0; 1] = 1073741824%N /\
  js_cell (jp_frame jp 0%Z) 0 (c_name c) 0 67 = Some (VF32 1056964608) /\
  js_cell (jp_frame jp 0%Z) 0 (c_name c) 0 88 = Some (VF32 1065353216) /\
  js_cell (jp_frame jp 0%Z) 0 (c_name c) 0 89 = Some (VF32 1073741824) /\
  js_cell (jp_frame jp 0%Z) 0 (c_name c) 1 88 = Some (VF32 (tget 0%N (py_data (p_body py)) [0; 0; 1; 0])) /\
  js_cell (jp_frame jp 0%Z) 0 (c_name c) 1 67 = Some (VF32 1048576000).
Proof.
  destruct ex_cxy_hyps as [[bs Hw] [Hwf [HD Hplain]]].
  destruct (js_parse_v02 ex_cxy bs 1 1 2 2 Hw Hwf eq_refl (plain_formats _ Hplain)) as [h [_ Hp]].
  exists ex_cxy, bs, (canon ex_cxy). eexists. eexists.
  split; [exact Hw|]. split; [exact Hwf|]. split; [exact HD|]. split; [exact Hplain|].
  split; [exact (py_read _ _ Hw Hwf HD)|]. split; [exact Hp|]. split; [reflexivity|].
  cbn [jp_frame]. vm_compute. repeat split; reflexivity.
Qed.
Print Assumptions C05_js_format_cxy_example.
(* a component name starting with U+FEFF: Python keeps it, the JavaScript header has the name without it *)
Theorem C05_js_bom_refuted :
  exists p bs py jp hd hl c,
  write_pose p = Ok bs /\ run_plain full_read_prog {| pbuf := bs; poff := 0 |} = Ok (py, {| pbuf := bs; poff := lenN bs |}) /\
  parse_pose bs = Some jp /\ header_view (jp_header jp) = Some (hd, hl) /\
  nth_error (h_comps (p_header py)) 0 = Some c /\ c_name c = [65279; 97]%N /\
  map c_name (h_comps hd) = [[97]]%N.
Proof.
  destruct ex_bom_hyps as [[bs Hw] [Hwf [HD Hfmt]]].
  destruct (js_parse_v02 ex_bom bs 1 1 1 1 Hw Hwf eq_refl Hfmt) as [h [_ Hp]].
  exists ex_bom, bs, (canon ex_bom). eexists. eexists. eexists. eexists.
  split; [exact Hw|]. split; [exact (py_read _ _ Hw Hwf HD)|]. split; [exact Hp|]. cbn [jp_header].
  split.
  - unfold header_view, js_header_obj. cbn [canon_header ex_bom w_dims h_dims]. kred. rewrite !vnum_of_N. vm_compute. reflexivity.
  - vm_compute. repeat split; reflexivity.
Qed.
Print Assumptions C05_js_bom_refuted.
(* two components named "a": the person object keeps the second one's points under that name *)
Theorem C05_js_duplicate_names_example :
  exists bs jp, write_pose ex_dup = Ok bs /\ parse_pose bs = Some jp /\
  js_cell (jp_frame jp 0%Z) 0 [97]%N 0 88 = Some (VF32 1073741824).
Proof.
  destruct ex_dup_hyps as [[bs Hw] [Hwf Hfmt]].
  destruct (js_parse_v02 ex_dup bs 1 1 2 1 Hw Hwf eq_refl Hfmt) as [h [_ Hp]].
  exists bs. eexists. split; [exact Hw|]. split; [exact Hp|]. vm_compute. reflexivity.
Qed.
Print Assumptions C05_js_duplicate_names_example.

Example C05_example_v02_hypotheses :
  (exists bs, write_pose ex_pose = Ok bs) /\ wf_arrays ex_pose /\ (1 <= nth 3 (w_shape ex_pose) 0)%N /\ Forall wcomp_plain (w_comps ex_pose).
Proof.
  split; [destruct ex_pose_written as [bs [H _]]; eauto|]. split; [exact (proj1 ex_pose_wf)|]. split; [exact (proj2 ex_pose_wf)|exact ex_pose_plain].
Qed.
Print Assumptions C05_example_v02_hypotheses.
(* second person, second component (its name is the empty string), its only point: X is data[0][1][2][0] = 0.0 (word 0),
   C is confidence[0][1][2] = 1.0 *)
Example C05_example_v02_cell :
  exists bs jp, write_pose ex_pose = Ok bs /\ parse_pose bs = Some jp /\
  js_cell (jp_frame jp 0%Z) 1 [] 0 88 = Some (VF32 0) /\ js_cell (jp_frame jp 0%Z) 1 [] 0 67 = Some (VF32 1065353216) /\
  jp_nframes jp = 1%Z.
Proof.
  destruct ex_pose_written as [bs [Hw _]].
  destruct (js_parse_v02 ex_pose bs 1 2 3 2 Hw (proj1 ex_pose_wf) eq_refl (plain_formats _ ex_pose_plain)) as [h [_ Hp]].
  exists bs. eexists. split; [exact Hw|]. split; [exact Hp|]. vm_compute. repeat split; reflexivity.
Qed.
Print Assumptions C05_example_v02_cell.
Example C05_example_v01_hypotheses : (exists bs, spec_v01 ex_v01 = Ok bs) /\ wf_lpose ex_v01 /\ Forall wcomp_plain (l_comps ex_v01).
Proof. exact ex_v01_hyps. Qed.
Print Assumptions C05_example_v01_hypotheses.
(* frame 1, point q: Y = 8.0, C = 0.25 *)
Example C05_example_v01_cell :
  exists bs jp, spec_v01 ex_v01 = Ok bs /\ parse_pose bs = Some jp /\
  js_cell (jp_frame jp 1%Z) 0 [97; 98]%N 1 89 = Some (VF32 1090519040) /\ js_cell (jp_frame jp 1%Z) 0 [97; 98]%N 1 67 = Some (VF32 1048576000).
Proof.
  destruct ex_v01_hyps as [[bs Hw] [Hwf Hplain]]. destruct (js_parse_v01 ex_v01 bs Hw Hwf Hplain) as [h [_ Hp]].
  exists bs. eexists. split; [exact Hw|]. split; [exact Hp|]. vm_compute. split; reflexivity.
Qed.
Print Assumptions C05_example_v01_cell.
Example C05_example_v00_hypotheses : (exists bs, spec_v00 ex_v00 = Ok bs) /\ wf_lpose0 ex_v00 /\ Forall wcomp_plain (z_comps ex_v00).
Proof. exact ex_v00_hyps. Qed.
Print Assumptions C05_example_v00_hypotheses.
(* frame 0, first person, point q: X = 3.0, C = 0.0; second person, point p: Y = 6.0 *)
Example C05_example_v00_cell :
  exists bs jp, spec_v00 ex_v00 = Ok bs /\ parse_pose bs = Some jp /\
  js_cell (jp_frame jp 0%Z) 0 [97; 98]%N 1 88 = Some (VF32 1077936128) /\ js_cell (jp_frame jp 0%Z) 0 [97; 98]%N 1 67 = Some (VF32 0) /\
  js_cell (jp_frame jp 0%Z) 1 [97; 98]%N 0 89 = Some (VF32 1086324736) /\ jp_nframes jp = 2%Z.
Proof.
  destruct ex_v00_hyps as [[bs Hw] [Hwf Hplain]]. destruct (js_parse_v00 ex_v00 bs Hw Hwf Hplain) as [h [_ Hp]].
  exists bs. eexists. split; [exact Hw|]. split; [exact Hp|]. vm_compute. repeat split; reflexivity.
Qed.
Print Assumptions C05_example_v00_cell.

(* ties to the current parser.ts (coq/gen/Gen_C05.v is regenerated on every run) *)
Theorem C05_tie_little_endian : Gen_C05.js_little = C05_JsParser.js_little.
Proof. reflexivity. Qed.
Print Assumptions C05_tie_little_endian.
Theorem C05_tie_header_schema :
  Gen_C05.js_limb = limb_schema /\ Gen_C05.js_color = color_schema /\ Gen_C05.js_str = str_schema /\
  Gen_C05.js_component = component_schema /\ Gen_C05.js_header = header_schema.
Proof. repeat split; reflexivity. Qed.
Print Assumptions C05_tie_header_schema.
Theorem C05_tie_info_schema :
  (forall hl, Gen_C05.js_info_v01 hl = info_v01_schema hl) /\ (forall hl, Gen_C05.js_info_v02 hl = info_v02_schema hl) /\
  Gen_C05.js_info_size_v01 = info_size_v01 /\ Gen_C05.js_info_size_v02 = info_size_v02.
Proof. repeat split; reflexivity. Qed.
Print Assumptions C05_tie_info_schema.
Theorem C05_tie_index_expressions :
  (forall f p t d, Gen_C05.js_data_len f p t d = C05_JsParser.js_data_len f p t d) /\
  (forall f p t, Gen_C05.js_conf_len f p t = C05_JsParser.js_conf_len f p t) /\
  (forall h s, Gen_C05.js_data_start h s = C05_JsParser.js_data_start h s) /\
  (forall i p t j, Gen_C05.js_offset i p t j = C05_JsParser.js_offset i p t j) /\
  (forall o k l, Gen_C05.js_place o k l = C05_JsParser.js_place o k l) /\
  (forall pl d x, Gen_C05.js_data_index pl d x = C05_JsParser.js_data_index pl d x).
Proof. repeat split; reflexivity. Qed.
Print Assumptions C05_tie_index_expressions.
Theorem C05_tie_version_switch :
  Gen_C05.js_round_mul = 1000%Z /\ Gen_C05.js_round_div = 1000%Z /\
  Gen_C05.js_switch = [ ("0", "parseBodyV0_0 ( header , buffer )"); ("0.1", "parseBodyV0_1 ( header , buffer , version )");
                        ("0.2", "parseBodyV0_1 ( header , buffer , version )"); ("default", "throw") ]%string.
Proof. repeat split; reflexivity. Qed.
Print Assumptions C05_tie_version_switch.
(* the function bodies the hand-written parts of the model were transcribed from are unchanged (literals in proofs/C05_GenTie.v) *)
Theorem C05_tie_function_texts :
  Gen_C05.src_newParser = C05_GenTie.txt_newParser /\ Gen_C05.src_componentHeaderParser = C05_GenTie.txt_componentHeaderParser /\
  Gen_C05.src_getHeaderParser = C05_GenTie.txt_getHeaderParser /\ Gen_C05.src_getBodyParserV0_0 = C05_GenTie.txt_getBodyParserV0_0 /\
  Gen_C05.src_parseBodyV0_0 = C05_GenTie.txt_parseBodyV0_0 /\ Gen_C05.src_parseBodyV0_1 = C05_GenTie.txt_parseBodyV0_1 /\
  Gen_C05.src_parsePose = C05_GenTie.txt_parsePose.
Proof.
  exact (conj src_newParser_tie (conj src_componentHeaderParser_tie (conj src_getHeaderParser_tie (conj src_getBodyParserV0_0_tie
        (conj src_parseBodyV0_0_tie (conj src_parseBodyV0_1_tie src_parsePose_tie)))))).
Qed.
Print Assumptions C05_tie_function_texts.
(* types.d.ts: the typed view of the result (the translator also checks that every declared header field is produced by
   the corresponding schema) *)
Theorem C05_tie_types : Gen_C05.types_fields =
  [ ("RGBColor", ["R"; "G"; "B"]); ("PoseLimb", ["from"; "to"]);
    ("PoseHeaderComponentModel", ["name"; "format"; "_points"; "_limbs"; "_colors"; "points"; "limbs"; "colors"]);
    ("PoseHeaderModel", ["version"; "width"; "height"; "depth"; "_components"; "components"; "headerLength"]);
    ("PosePointModel", ["X"; "Y"; "Z?"; "C?"]); ("PoseBodyFramePersonModel", ["[]"]);
    ("PoseBodyFrameModel", ["_people"; "people"]); ("PoseBodyModel", ["fps"; "_frames"; "frames"]);
    ("PoseModel", ["header"; "body"]) ]%string.
Proof. reflexivity. Qed.
Print Assumptions C05_tie_types.

(* the Python side of the comparison: the reader functions whose result parsePose is compared with (tied statement by
   statement, as in C01 / C06 / C07: an edit of the Python reader re-opens this property too) *)
Theorem C05_tie_py_header_read : Gen_Codec.header_read = exp_header_read.
Proof. exact header_read_tie. Qed.
Print Assumptions C05_tie_py_header_read.
Theorem C05_tie_py_component_read : Gen_Codec.component_read = exp_component_read.
Proof. exact component_read_tie. Qed.
Print Assumptions C05_tie_py_component_read.
Theorem C05_tie_py_dimensions_read : Gen_Codec.dimensions_read = exp_dimensions_read.
Proof. exact dimensions_read_tie. Qed.
Print Assumptions C05_tie_py_dimensions_read.
Theorem C05_tie_py_body_read_dispatch : Gen_Codec.body_read_dispatch = exp_body_read_dispatch.
Proof. exact body_read_dispatch_tie. Qed.
Print Assumptions C05_tie_py_body_read_dispatch.
Theorem C05_tie_py_body_read_v0_2 : Gen_Codec.body_read_v0_2 = exp_body_read_v0_2.
Proof. exact body_read_v0_2_tie. Qed.
Print Assumptions C05_tie_py_body_read_v0_2.
Theorem C05_tie_py_body_read_frames : Gen_Codec.body_read_frames = exp_body_read_frames.
Proof. exact body_read_frames_tie. Qed.
Print Assumptions C05_tie_py_body_read_frames.
Theorem C05_tie_py_pose_read : Gen_Codec.pose_read = exp_pose_read.
Proof. exact pose_read_tie. Qed.
Print Assumptions C05_tie_py_pose_read.
Theorem C05_tie_py_reader_unpack_str : Gen_Codec.reader_unpack_str = exp_reader_unpack_str.
Proof. exact reader_unpack_str_tie. Qed.
Print Assumptions C05_tie_py_reader_unpack_str.
Theorem C05_tie_py_reader_unpack_numpy : Gen_Codec.reader_unpack_numpy = exp_reader_unpack_numpy.
Proof. exact reader_unpack_numpy_tie. Qed.
Print Assumptions C05_tie_py_reader_unpack_numpy.
