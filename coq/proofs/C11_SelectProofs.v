(* C11 - get_components and _get_point_index at the value level. *)
From Coq Require Import List Arith Bool NArith ZArith Lia.
Require Import ListFacts Result ResultFacts Tensor C11_Str C11_Select C11_ListLemmas C11_TensorLemmas.
Import ListNotations.
Open Scope str_scope.
Open Scope list_scope.

Lemma flat_names_cons c r : flat_names (c :: r) = map (pair (c_name c)) (c_points c) ++ flat_names r.
Proof. reflexivity. Qed.
Lemma flat_names_app a b : flat_names (a ++ b) = flat_names a ++ flat_names b.
Proof. unfold flat_names. apply flat_map_app. Qed.
Lemma total_points_cons c r : total_points (c :: r) = length (c_points c) + total_points r.
Proof. unfold total_points. rewrite flat_names_cons, app_length, map_length. reflexivity. Qed.
Lemma total_points_app a b : total_points (a ++ b) = total_points a + total_points b.
Proof. unfold total_points. now rewrite flat_names_app, app_length. Qed.

Lemma names_unique_spec cs : names_unique cs = true -> NoDup (map c_name cs) /\ forall c, In c cs -> NoDup (c_points c).
Proof. unfold names_unique. rewrite andb_true_iff, nodupb_NoDup, forallb_forall. intros [H1 H2]. split; [exact H1|].
  intros c Hc. apply nodupb_NoDup. now apply H2. Qed.
Lemma point_index_from_sound cs c p : forall idx k, point_index_from cs c p idx = Ok k ->
  idx <= k /\ nth_error (flat_names cs) (k - idx) = Some (c, p).
Proof. induction cs as [|x r IH]; intros idx k; cbn [point_index_from]; [discriminate|].
  destruct (str_eqb_spec (c_name x) c) as [E|E].
  - destruct (index_of p (c_points x)) as [j|] eqn:Ej; [|discriminate]. intros [= <-]. split; [lia|].
    replace (idx + j - idx) with j by lia. rewrite flat_names_cons.
    rewrite nth_error_app1 by (rewrite map_length; eapply index_of_lt; eassumption).
    rewrite nth_error_map, (index_of_Some _ _ _ Ej), E. reflexivity.
  - intros H. apply IH in H. destruct H as [Hle Hn]. split; [lia|].
    rewrite flat_names_cons, nth_error_app2 by (rewrite map_length; lia). rewrite map_length.
    replace (k - idx - length (c_points x)) with (k - (idx + length (c_points x))) by lia. exact Hn. Qed.
(* position k falls either among the points of the first component, whose name then matches and whose point list has
   no second occurrence, or after them, in a component with another name *)
Lemma point_index_from_complete c p : forall cs idx k,
  NoDup (map c_name cs) -> (forall x, In x cs -> NoDup (c_points x)) ->
  nth_error (flat_names cs) k = Some (c, p) -> point_index_from cs c p idx = Ok (idx + k).
Proof. induction cs as [|x r IH]; intros idx k Hn Hp Hk; [destruct k; discriminate|].
  cbn [map] in Hn. inversion Hn as [|? ? Hx Hr]; subst. rewrite flat_names_cons in Hk. cbn [point_index_from].
  destruct (Nat.lt_ge_cases k (length (c_points x))) as [Hlt|Hge].
  - rewrite nth_error_app1, nth_error_map in Hk by (now rewrite map_length).
    destruct (nth_error (c_points x) k) as [q|] eqn:Eq; [|discriminate]. injection Hk as <- <-.
    now rewrite str_eqb_refl, (index_of_nodup _ _ _ (Hp x (or_introl eq_refl)) Eq).
  - rewrite nth_error_app2, map_length in Hk by (now rewrite map_length). rewrite str_eqb_neq.
    + rewrite (IH _ _ Hr (fun y Hy => Hp y (or_intror Hy)) Hk). f_equal. lia.
    + intros E. apply Hx. apply nth_error_In, in_flat_map in Hk. destruct Hk as [y [Hy Hk]].
      apply in_map_iff in Hk. destruct Hk as [q [[= <- _] _]]. rewrite E. now apply in_map. Qed.
Theorem point_index_spec cs c p k : point_index cs c p = Ok k ->
  k < total_points cs /\ nth_error (flat_names cs) k = Some (c, p).
Proof. unfold point_index. intros H. apply point_index_from_sound in H. destruct H as [_ H]. rewrite Nat.sub_0_r in H.
  split; [|exact H]. unfold total_points. apply nth_error_Some. congruence. Qed.
Theorem point_index_unique cs c p k : names_unique cs = true ->
  nth_error (flat_names cs) k = Some (c, p) -> point_index cs c p = Ok k.
Proof. intros Hu Hk. destruct (names_unique_spec _ Hu) as [Hn Hp]. exact (point_index_from_complete c p cs 0 k Hn Hp Hk). Qed.
Lemma flat_names_nodup cs : names_unique cs = true -> NoDup (flat_names cs).
Proof. intros Hu. apply NoDup_nth_error. intros i j Hi E.
  destruct (nth_error (flat_names cs) i) as [[c p]|] eqn:Ei; [|apply nth_error_None in Ei; lia].
  symmetry in E. apply (point_index_unique _ _ _ _ Hu) in Ei, E. congruence. Qed.
Lemma flat_names_nth pre c post j p : nth_error (c_points c) j = Some p ->
  nth_error (flat_names (pre ++ c :: post)) (total_points pre + j) = Some (c_name c, p).
Proof. intros H. unfold total_points. rewrite flat_names_app, nth_error_app2 by lia.
  replace (length (flat_names pre) + j - length (flat_names pre)) with j by lia.
  rewrite flat_names_cons, nth_error_app1 by (rewrite map_length; apply nth_error_Some; congruence).
  now rewrite nth_error_map, H. Qed.


Definition ixs_ok (old : list str) (off : nat) (pts : list str) (ixs : list nat) : Prop :=
  Forall2 (fun p k => exists j, index_of p old = Some j /\ k = off + j) pts ixs.
Lemma flat_indexes_spec old idx : forall new ixs, flat_indexes old new idx = Ok ixs -> ixs_ok old idx new ixs.
Proof. induction new as [|p r IH]; intros ixs; cbn [flat_indexes]; [intros [= <-]; constructor|].
  destruct (index_of p old) as [k|] eqn:Ek; [|discriminate].
  destruct (flat_indexes old r idx) as [l|]; cbn [rbind]; [|discriminate]. intros [= <-].
  constructor; [eauto|now apply IH]. Qed.
Lemma flat_indexes_ok old idx : forall new, (forall p, In p new -> In p old) -> exists ixs, flat_indexes old new idx = Ok ixs.
Proof. induction new as [|p r IH]; intros H; cbn [flat_indexes]; [eexists; reflexivity|].
  destruct (index_of_In p old (H p (or_introl eq_refl))) as [k ->].
  destruct IH as [l ->]; [intros; apply H; now right|]. cbn [rbind]. eexists; reflexivity. Qed.
Lemma seq_ixs_ok pts off : NoDup pts -> ixs_ok pts off pts (seq off (length pts)).
Proof. intros Hn. apply Forall2_nth_intro; [now rewrite seq_length|].
  intros i a k Ha Hk. apply nth_error_seq in Hk. destruct Hk as [-> _]. exists i. split; [|reflexivity].
  now apply index_of_nodup. Qed.

Lemma index_mapping_ok old : forall new i, (forall p, In p new -> In p old) -> exists m, index_mapping old new i = Ok m.
Proof. induction new as [|p r IH]; intros i H; cbn [index_mapping]; [eexists; reflexivity|].
  destruct (index_of_In p old (H p (or_introl eq_refl))) as [k ->].
  destruct (IH (S i)) as [m ->]; [intros; apply H; now right|]. cbn [rbind]. eexists; reflexivity. Qed.

Definition kept (pts : list str) (ab : str * str) : bool := mem (fst ab) pts && mem (snd ab) pts.
Definition limb_name (pts : list str) (l : nat * nat) : str * str := (nth (fst l) pts "", nth (snd l) pts "").

(* the dict of pose.py:274-276 read at an old position l: where the point old[l] stands in [new], if it was selected *)
Lemma index_mapping_lookup old l : NoDup old -> l < length old -> forall new i m, index_mapping old new i = Ok m ->
  match nat_assoc_last l m with
  | Some a => i <= a /\ nth (a - i) new "" = nth l old "" /\ mem (nth l old "") new = true
  | None => mem (nth l old "") new = false
  end.
Proof. intros Hn Hl. induction new as [|p r IH]; intros i m; cbn [index_mapping]; [intros [= <-]; reflexivity|].
  destruct (index_of p old) as [kp|] eqn:Ek; [|discriminate].
  destruct (index_mapping old r (S i)) as [m'|] eqn:Em; cbn [rbind]; [|discriminate]. intros [= <-].
  specialize (IH (S i) m' Em). cbn [nat_assoc_last]. unfold mem in *. cbn [existsb].
  destruct (nat_assoc_last l m') as [a|].
  - destruct IH as [Hle [Ha ->]]. split; [lia|]. replace (a - i) with (S (a - S i)) by lia. split; [exact Ha|apply orb_true_r].
  - rewrite IH, orb_false_r. destruct (Nat.eqb_spec kp l) as [->|Hne].
    + rewrite Nat.sub_diag, (index_of_nth_default _ _ _ "" Ek), str_eqb_refl. auto.
    + apply str_eqb_neq. intros E. apply Hne.
      rewrite <- E, (index_of_nodup old l _ Hn (nth_error_nth' old "" Hl)) in Ek. congruence. Qed.

Lemma relimb_names old np m : NoDup old -> index_mapping old np 0 = Ok m ->
  forall limbs, forallb (fun l => (fst l <? length old) && (snd l <? length old)) limbs = true ->
  map (limb_name np) (relimb m limbs) = filter (kept np) (map (limb_name old) limbs).
Proof. intros Hn Hm. induction limbs as [|[l1 l2] r IH]; intros Hr; [reflexivity|].
  cbn [forallb fst snd] in Hr. apply andb_true_iff in Hr. destruct Hr as [Hh Hr]. apply andb_true_iff in Hh. destruct Hh as [H1 H2].
  apply Nat.ltb_lt in H1. apply Nat.ltb_lt in H2.
  pose proof (index_mapping_lookup old l1 Hn H1 np 0 m Hm) as L1. pose proof (index_mapping_lookup old l2 Hn H2 np 0 m Hm) as L2.
  unfold relimb in *. cbn [flat_map map fst snd]. rewrite map_app, (IH Hr). cbn [filter].
  change (kept np (limb_name old (l1, l2))) with (mem (nth l1 old "") np && mem (nth l2 old "") np).
  destruct (nat_assoc_last l1 m) as [a|]; [|rewrite L1; reflexivity]. destruct L1 as [_ [Na ->]].
  destruct (nat_assoc_last l2 m) as [b|]; [|rewrite L2; reflexivity]. destruct L2 as [_ [Nb ->]].
  rewrite Nat.sub_0_r in Na, Nb. cbn [andb map app]. unfold limb_name. cbn [fst snd]. now rewrite Na, Nb. Qed.

Lemma sel_component_spec c off pts c' ixs : NoDup (c_points c) -> sel_component c off pts = Ok (c', ixs) ->
  c_name c' = c_name c /\ c_colors c' = c_colors c /\ c_format c' = c_format c /\
  c_points c' = match pts with Some np => np | None => c_points c end /\
  ixs_ok (c_points c) off (c_points c') ixs.
Proof. intros Hn. unfold sel_component. destruct pts as [np|].
  - destruct (index_mapping (c_points c) np 0) as [m|]; cbn [rbind]; [|discriminate].
    destruct (flat_indexes (c_points c) np off) as [l|] eqn:El; cbn [rbind]; [|discriminate].
    intros [= <- <-]. cbn [c_name c_colors c_format c_points]. repeat split. now apply flat_indexes_spec.
  - intros [= <- <-]. repeat split. now apply seq_ixs_ok. Qed.
Lemma sel_component_limbs c off pts c' ixs : NoDup (c_points c) -> limbs_in_range c = true ->
  sel_component c off pts = Ok (c', ixs) -> limb_names c' = filter (kept (c_points c')) (limb_names c).
Proof. intros Hn Hr. unfold sel_component. destruct pts as [np|].
  - destruct (index_mapping (c_points c) np 0) as [m|] eqn:Em; cbn [rbind]; [|discriminate].
    destruct (flat_indexes (c_points c) np off) as [l|]; cbn [rbind]; [|discriminate].
    intros [= <- <-]. unfold limb_names. cbn [c_points c_limbs]. apply (relimb_names _ _ _ Hn Em). exact Hr.
  - intros [= <- <-]. symmetry. apply filter_all. intros ab Hab. unfold limb_names in Hab. apply in_map_iff in Hab.
    destruct Hab as [[l1 l2] [<- Hl]]. unfold limbs_in_range in Hr. rewrite forallb_forall in Hr. specialize (Hr _ Hl).
    cbn [fst snd] in Hr. apply andb_true_iff in Hr. destruct Hr as [H1 H2]. apply Nat.ltb_lt in H1. apply Nat.ltb_lt in H2.
    unfold kept. cbn [fst snd]. apply andb_true_iff. split; apply mem_In, nth_In; assumption. Qed.
Lemma sel_component_ok c off pts : (forall np, pts = Some np -> forall p, In p np -> In p (c_points c)) ->
  exists x, sel_component c off pts = Ok x.
Proof. intros H. unfold sel_component. destruct pts as [np|]; [|eexists; reflexivity].
  destruct (index_mapping_ok (c_points c) np 0 (H np eq_refl)) as [m ->].
  destruct (flat_indexes_ok (c_points c) off np (H np eq_refl)) as [l ->]. cbn [rbind]. eexists; reflexivity. Qed.

Lemma walk_cons c r idx sel pts table : walk (c :: r) idx sel pts = Ok table ->
  exists here rest, walk r (idx + length (c_points c)) sel pts = Ok rest /\ table = here ++ rest /\
    if mem (c_name c) sel
    then exists x, sel_component c idx (pts_lookup pts (c_name c)) = Ok x /\ here = [(c_name c, x)]
    else here = [].
Proof. cbn [walk]. destruct (mem (c_name c) sel).
  - destruct (sel_component c idx (pts_lookup pts (c_name c))) as [x|]; cbn [rbind]; [|discriminate].
    destruct (walk r (idx + length (c_points c)) sel pts) as [rest|]; cbn [rbind]; [|discriminate].
    intros [= <-]. exists [(c_name c, x)], rest. eauto.
  - cbn [rbind]. destruct (walk r (idx + length (c_points c)) sel pts) as [rest|]; cbn [rbind]; [|discriminate].
    intros [= <-]. exists [], rest. auto. Qed.

Lemma walk_In : forall comps idx sel pts table name x,
  walk comps idx sel pts = Ok table -> In (name, x) table ->
  exists pre c post, comps = pre ++ c :: post /\ c_name c = name /\ mem name sel = true /\
    sel_component c (idx + total_points pre) (pts_lookup pts name) = Ok x.
Proof. induction comps as [|c r IH]; intros idx sel pts table name x H Hi; [injection H as <-; destruct Hi|].
  apply walk_cons in H. destruct H as [here [rest [Hr [-> Hh]]]]. apply in_app_or in Hi. destruct Hi as [Hi|Hi].
  - destruct (mem (c_name c) sel) eqn:Em; [|subst here; destruct Hi]. destruct Hh as [y [Hs ->]].
    destruct Hi as [[= <- <-]|[]]. exists [], c, r. replace (idx + total_points []) with idx by apply plus_n_O. auto.
  - destruct (IH _ _ _ _ _ _ Hr Hi) as [pre [c2 [post [-> [Hn [Hm Hs]]]]]].
    exists (c :: pre), c2, post. rewrite total_points_cons, Nat.add_assoc. auto. Qed.
Lemma walk_keys : forall comps idx sel pts table, walk comps idx sel pts = Ok table ->
  map fst table = filter (fun n => mem n sel) (map c_name comps).
Proof. induction comps as [|c r IH]; intros idx sel pts table H; [injection H as <-; reflexivity|].
  apply walk_cons in H. destruct H as [here [rest [Hr [-> Hh]]]]. rewrite map_app, (IH _ _ _ _ Hr). cbn [map filter].
  destruct (mem (c_name c) sel); [destruct Hh as [y [_ ->]]|subst here]; reflexivity. Qed.
Lemma walk_complete : forall comps idx sel pts table pre c post,
  walk comps idx sel pts = Ok table -> comps = pre ++ c :: post -> mem (c_name c) sel = true ->
  exists x, sel_component c (idx + total_points pre) (pts_lookup pts (c_name c)) = Ok x /\ In (c_name c, x) table.
Proof. induction comps as [|c0 r IH]; intros idx sel pts table pre c post Hw Hc Hm; [destruct pre; discriminate|].
  apply walk_cons in Hw. destruct Hw as [here [rest [Hr [-> Hh]]]]. destruct pre as [|p0 pre]; cbn [app] in Hc; injection Hc as -> ->.
  - rewrite Hm in Hh. destruct Hh as [y [Hs ->]]. exists y. replace (idx + total_points []) with idx by apply plus_n_O. split; [exact Hs|now left].
  - destruct (IH _ _ _ _ _ _ _ Hr eq_refl Hm) as [x [Hs Hi]].
    exists x. rewrite total_points_cons, Nat.add_assoc. split; [exact Hs|]. apply in_or_app. now right. Qed.
Lemma walk_ok : forall comps idx sel pts,
  (forall c, In c comps -> mem (c_name c) sel = true -> forall off, exists x, sel_component c off (pts_lookup pts (c_name c)) = Ok x) ->
  exists table, walk comps idx sel pts = Ok table.
Proof. induction comps as [|c r IH]; intros idx sel pts H; cbn [walk]; [eexists; reflexivity|].
  destruct (IH (idx + length (c_points c)) sel pts) as [rest Er]; [intros c2 Hc2; apply H; now right|].
  destruct (mem (c_name c) sel) eqn:Em.
  - destruct (H c (or_introl eq_refl) Em idx) as [x ->]. cbn [rbind]. rewrite Er. cbn [rbind]. eexists; reflexivity.
  - cbn [rbind]. rewrite Er. cbn [rbind]. eexists; reflexivity. Qed.

Definition picked_from (cs : list component) (pts : points_dict) (name : str) (x : component * list nat) : Prop :=
  exists pre c post, cs = pre ++ c :: post /\ c_name c = name /\
    sel_component c (total_points pre) (pts_lookup pts name) = Ok x.
Lemma pick_walk cs sel pts table picked : walk cs 0 sel pts = Ok table -> pick table sel = Ok picked ->
  Forall2 (picked_from cs pts) sel picked.
Proof. intros Ew Ep. unfold pick in Ep. apply rmapM_Forall2 in Ep. eapply Forall2_impl_In; [|exact Ep].
  intros name x _ H. cbn beta in H. destruct (assoc_last name table) as [y|] eqn:Ea; [|discriminate]. injection H as ->.
  apply assoc_last_In in Ea. destruct (walk_In _ _ _ _ _ _ _ Ew Ea) as [pre [c [post [-> [Hn [_ Hs]]]]]].
  exists pre, c, post. cbn [Nat.add] in Hs. auto. Qed.
Lemma get_components_inv tfe cs b sel pts cs' b' : get_components_v tfe cs b sel pts = Ok (cs', b') ->
  exists picked, cs' = map fst picked /\ get_points tfe (concat (map snd picked)) b = Ok b' /\
    Forall2 (picked_from cs pts) sel picked.
Proof. unfold get_components_v. destruct (walk cs 0 sel pts) as [table|] eqn:Ew; cbn [rbind]; [|discriminate].
  destruct (pick table sel) as [picked|] eqn:Ep; cbn [rbind]; [|discriminate].
  destruct (get_points tfe (concat (map snd picked)) b) as [nb|] eqn:Eg; cbn [rbind]; [|discriminate].
  intros [= <- <-]. exists picked. split; [reflexivity|]. split; [exact Eg|]. eapply pick_walk; eassumption. Qed.

Lemma picked_from_index cs pts name x : names_unique cs = true -> picked_from cs pts name x ->
  c_name (fst x) = name /\ length (snd x) = length (c_points (fst x)) /\
  Forall2 (fun p k => point_index cs name p = Ok k) (c_points (fst x)) (snd x).
Proof. intros Hu [pre [c [post [-> [Hn Hs]]]]]. destruct x as [c' ixs]. cbn [fst snd].
  pose proof (names_unique_spec _ Hu) as [Hnd Hp].
  assert (Hc : NoDup (c_points c)) by (apply Hp, in_or_app; right; now left).
  destruct (sel_component_spec _ _ _ _ _ Hc Hs) as [N1 [_ [_ [_ Hix]]]].
  split; [congruence|]. split; [symmetry; eapply Forall2_length; exact Hix|].
  eapply Forall2_impl_In; [|exact Hix]. intros p k _ [j [Hj ->]]. apply (point_index_unique _ _ _ _ Hu).
  rewrite <- Hn. apply flat_names_nth. now apply index_of_Some. Qed.

Lemma picked_from_component cs pts name x : names_unique cs = true -> picked_from cs pts name x ->
  exists c, In c cs /\ c_name c = name /\ c_name (fst x) = name /\ c_colors (fst x) = c_colors c /\ c_format (fst x) = c_format c /\
    c_points (fst x) = match pts_lookup pts name with Some np => np | None => c_points c end /\
    (limbs_in_range c = true -> limb_names (fst x) = filter (kept (c_points (fst x))) (limb_names c)).
Proof. intros Hu [pre [c [post [-> [Hn Hs]]]]]. destruct x as [c' ixs]. cbn [fst].
  assert (Hin : In c (pre ++ c :: post)) by (apply in_or_app; right; now left).
  assert (Hc : NoDup (c_points c)) by (apply (names_unique_spec _ Hu), Hin).
  destruct (sel_component_spec _ _ _ _ _ Hc Hs) as [N1 [N2 [N3 [N4 _]]]].
  exists c. repeat split; try assumption; try congruence. intros Hr. eapply sel_component_limbs; eassumption. Qed.


Lemma picked_flat cs pts sel picked : names_unique cs = true -> Forall2 (picked_from cs pts) sel picked ->
  Forall2 (fun cn k => point_index cs (fst cn) (snd cn) = Ok k) (flat_names (map fst picked)) (concat (map snd picked)).
Proof. intros Hu H. unfold flat_names. rewrite flat_map_concat_map, map_map. apply Forall2_flat.
  induction H as [|name x sel picked Hx H IH]; cbn [map]; constructor; [|exact IH].
  destruct (picked_from_index _ _ _ _ Hu Hx) as [Hn [_ Hf]]. apply Forall2_map_l. cbn [fst snd]. now rewrite Hn. Qed.

Definition same_column (b b' : body) (F P D i k : nat) : Prop :=
  forall f p, f < F -> p < P ->
    tget 0%Z (b_conf b') [f; p; i] = tget 0%Z (b_conf b) [f; p; k] /\
    forall e, e < D -> tget 0%Z (b_data b') [f; p; i; e] = tget 0%Z (b_data b) [f; p; k; e] /\
                       tget false (b_mask b') [f; p; i; e] = tget false (b_mask b) [f; p; k; e].

Theorem select_points_v tfe cs b sel pts cs' b' F P D :
  names_unique cs = true -> body_shape b F P (total_points cs) D ->
  get_components_v tfe cs b sel pts = Ok (cs', b') ->
  body_shape b' F P (total_points cs') D /\ b_fps b' = b_fps b /\ b_backend b' = b_backend b /\
  forall i c n, nth_error (flat_names cs') i = Some (c, n) ->
    exists k, point_index cs c n = Ok k /\ nth_error (flat_names cs) k = Some (c, n) /\ same_column b b' F P D i k.
Proof. intros Hu Hb H. destruct (get_components_inv _ _ _ _ _ _ _ H) as [picked [-> [Hg Hp]]].
  pose proof (picked_flat _ _ _ _ Hu Hp) as Hf.
  destruct (get_points_spec _ _ _ _ _ _ _ _ Hb Hg) as [[Hs [_ [_ [_ [Hfps [Hbe Hcol]]]]]] _].
  assert (Hlen : length (concat (map snd picked)) = total_points (map fst picked))
    by (unfold total_points; symmetry; eapply Forall2_length; exact Hf).
  rewrite Hlen in Hs. split; [exact Hs|]. split; [exact Hfps|]. split; [exact Hbe|].
  intros i c n Hi. destruct (Forall2_nth_error _ _ _ Hf _ _ Hi) as [k [Hk Hpi]]. cbn [fst snd] in Hpi.
  exists k. split; [exact Hpi|]. split; [apply (point_index_spec _ _ _ _ Hpi)|].
  assert (Hil : i < length (concat (map snd picked))) by (apply nth_error_Some; congruence).
  intros f p Hf' Hp'. destruct (Hcol f p i Hf' Hp' Hil) as [Hc Hd]. rewrite (nth_error_nth _ _ 0 Hk) in Hc, Hd.
  split; [exact Hc|exact Hd]. Qed.

Definition selected_component (cs : list component) (pts : points_dict) (name : str) (c' : component) : Prop :=
  exists c, In c cs /\ c_name c = name /\ c_name c' = name /\ c_colors c' = c_colors c /\ c_format c' = c_format c /\
    c_points c' = match pts_lookup pts name with Some np => np | None => c_points c end /\
    limb_names c' = filter (kept (c_points c')) (limb_names c).
Theorem select_limbs_v tfe cs b sel pts cs' b' : header_wf cs = true ->
  get_components_v tfe cs b sel pts = Ok (cs', b') -> Forall2 (selected_component cs pts) sel cs'.
Proof. unfold header_wf. rewrite andb_true_iff, forallb_forall. intros [Hu Hr] H.
  destruct (get_components_inv _ _ _ _ _ _ _ H) as [picked [-> [_ Hp]]].
  apply Forall2_map_r. eapply Forall2_impl_In; [|exact Hp]. intros name x _ Hx.
  destruct (picked_from_component _ _ _ _ Hu Hx) as [c [Hin [N1 [N2 [N3 [N4 [N5 L]]]]]]].
  exists c. repeat split; try assumption. apply L, Hr, Hin. Qed.

Theorem select_defined_v tfe cs b sel pts F P D :
  names_unique cs = true -> body_shape b F P (total_points cs) D ->
  (forall s, In s sel -> In s (map c_name cs)) ->
  (forall c np, In c cs -> In (c_name c) sel -> pts_lookup pts (c_name c) = Some np -> forall p, In p np -> In p (c_points c)) ->
  (tfe = false \/ b_backend b <> TF) ->
  exists r, get_components_v tfe cs b sel pts = Ok r.
Proof. intros Hu Hb Hsel Hpts Htf. unfold get_components_v.
  destruct (walk_ok cs 0 sel pts) as [table Ew].
  { intros c Hc Hm off. apply sel_component_ok. intros np Hnp. apply (Hpts c np Hc); [now apply mem_In|exact Hnp]. }
  rewrite Ew. cbn [rbind].
  assert (Hpick : exists picked, pick table sel = Ok picked).
  { unfold pick. apply rmapM_ok. intros s Hs. destruct (assoc_last_some_key s table) as [v ->]; [|eauto].
    rewrite (walk_keys _ _ _ _ _ Ew). apply filter_In. split; [now apply Hsel|now apply mem_In]. }
  destruct Hpick as [picked Ep]. rewrite Ep. cbn [rbind].
  pose proof (picked_flat _ _ _ _ Hu (pick_walk _ _ _ _ _ Ew Ep)) as Hf.
  assert (Hidx : Forall (fun k => k < total_points cs) (concat (map snd picked))).
  { eapply Forall2_Forall_r; [|exact Hf]. intros cn k Hpi. apply (point_index_spec _ _ _ _ Hpi). }
  destruct (get_points_ok tfe _ _ _ _ _ _ Hb Hidx) as [nb ->]; [destruct Htf; auto|]. cbn [rbind]. eexists; reflexivity. Qed.
