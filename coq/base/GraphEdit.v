(* Object graphs, structural edits: an edit of ONE node reached from an owner by following pointer fields - its payload, and its
   pointer fields re-pointed to a sub-list of its old children and / or to freshly allocated trees (attribute assignment
   `obj.field = NewObject(...)`, `list.pop()`, ...).  The owner's tree changes at exactly that node; its footprint loses the
   cells of the children that were dropped and gains only fresh cells; every tree whose footprint does not contain the node is
   untouched (frame).  Generic in the payload. *)
From Coq Require Import List Arith Lia Bool.
Require Import Graph.
Import ListNotations.

Section GraphEdit.
Context {P : Type}.
Notation vtree := (vtree P).
Notation heap := (heap P).

(* h' is h with the cell at x replaced and possibly new cells appended *)
Definition agrees_except (h h' : heap) (x : nat) : Prop :=
  forall y, y < length h -> y <> x -> nth_error h' y = nth_error h y.
(* the footprint S' after an edit of h: cells of the footprint S before it, or cells appended to h *)
Definition fresh_or_old (h : heap) (S S' : list nat) : Prop := forall y, In y S' -> In y S \/ length h <= y.

Lemma owns_frame_except h h' x a (t : vtree) S : agrees_except h h' x -> Owns h a t S -> ~ In x S -> Owns h' a t S.
Proof.
  intros Hag HO Hx. apply (proj1 (owns_agree h h') a t S HO). intros y Hy.
  apply Hag; [exact (proj1 (owns_lt h) a t S HO y Hy)|intros ->; contradiction].
Qed.
Lemma ownsL_frame_except h h' x ptrs (kids : list vtree) fps :
  agrees_except h h' x -> OwnsL h ptrs kids fps -> ~ In x (concat fps) -> OwnsL h' ptrs kids fps.
Proof.
  intros Hag HO Hx. apply (proj2 (owns_agree h h') ptrs kids fps HO). intros y Hy.
  apply Hag; [exact (proj2 (owns_lt h) ptrs kids fps HO y Hy)|intros ->; contradiction].
Qed.

Lemma NoDup_concat_upd (h : heap) (Ss : list (list nat)) : NoDup (concat Ss) -> (forall y, In y (concat Ss) -> y < length h) ->
  forall i S S', nth_error Ss i = Some S -> NoDup S' -> fresh_or_old h S S' ->
  NoDup (concat (upd i (fun _ => S') Ss)) /\ fresh_or_old h (concat Ss) (concat (upd i (fun _ => S') Ss)).
Proof.
  induction Ss as [|S0 Ss IH]; intros ND Hlt i S S' Hi ND' Hfo; [destruct i; discriminate|].
  cbn [concat] in ND, Hlt. apply NoDup_app_iff in ND as [ND0 [NDr D]].
  destruct i as [|i]; cbn in Hi; cbn [upd concat].
  - injection Hi as ->. split.
    + apply NoDup_app_iff. split; [exact ND'|split; [exact NDr|]]. intros y Hy Hin. destruct (Hfo y Hy) as [H|H].
      * exact (D y H Hin).
      * specialize (Hlt y (in_or_app _ _ _ (or_intror Hin))). lia.
    + intros y Hy. rewrite in_app_iff in Hy |- *. specialize (Hfo y). tauto.
  - destruct (IH NDr (fun y Hy => Hlt y (in_or_app _ _ _ (or_intror Hy))) i S S' Hi ND' Hfo) as [N1 F1]. split.
    + apply NoDup_app_iff. split; [exact ND0|split; [exact N1|]]. intros y Hy Hin. destruct (F1 y Hin) as [H|H].
      * exact (D y Hy H).
      * specialize (Hlt y (in_or_app _ _ _ (or_introl Hy))). lia.
    + intros y Hy. rewrite in_app_iff in Hy |- *. specialize (F1 y). tauto.
Qed.

Lemma concat_disjoint {X} (Ss : list (list X)) : NoDup (concat Ss) ->
  forall i j A B x, nth_error Ss i = Some A -> nth_error Ss j = Some B -> i <> j -> In x A -> ~ In x B.
Proof.
  induction Ss as [|S0 Ss IH]; intros ND i j A B x Hi Hj Hne HA HB; [destruct i; discriminate|].
  cbn [concat] in ND. destruct i as [|i], j as [|j]; cbn in Hi, Hj; try congruence.
  - injection Hi as ->. exact (notin_app_r x A (concat Ss) ND HA (in_concat_nth Ss j B x Hj HB)).
  - injection Hj as ->. exact (notin_app_l x B (concat Ss) ND (in_concat_nth Ss i A x Hi HA) HB).
  - apply NoDup_app_r in ND. eapply (IH ND i j); eauto.
Qed.

Lemma upd_const_eq {X} (f : X -> X) (l : list X) : forall i t, nth_error l i = Some t -> upd i (fun _ => f t) l = upd i f l.
Proof. induction l as [|y l IH]; intros [|i] t H; cbn in H; try discriminate; cbn [upd]; [injection H as ->; reflexivity|]. f_equal. apply IH. exact H. Qed.

Lemma upd_beyond {X} (f : X -> X) (l : list X) : forall i, nth_error l i = None -> upd i f l = l.
Proof. induction l as [|y l IH]; intros [|i] H; cbn in H; try discriminate; try reflexivity. cbn [upd]. f_equal. exact (IH i H). Qed.

Lemma nth_error_ownsL_fp h ptrs (kids : list vtree) fps : OwnsL h ptrs kids fps -> forall i b, nth_error ptrs i = Some b ->
  exists t S, nth_error kids i = Some t /\ nth_error fps i = Some S /\ Owns h b t S.
Proof. intros HL i b Hi. exact (ownsL_nth h ptrs kids fps HL i b Hi). Qed.

Lemma ownsL_upd h ptrs (kids : list vtree) fps : OwnsL h ptrs kids fps -> forall i b, nth_error ptrs i = Some b ->
  forall t' S', Owns h b t' S' -> OwnsL h ptrs (upd i (fun _ => t') kids) (upd i (fun _ => S') fps).
Proof.
  induction 1 as [|a0 t0 S0 ptrs kids fps HO HL IH]; intros i b Hi t' S' HO'; [destruct i; discriminate|].
  destruct i as [|i]; cbn in Hi; cbn [upd].
  - injection Hi as ->. constructor; assumption.
  - constructor; [exact HO|]. eapply IH; eauto.
Qed.

(* one member of a disjoint family of owned trees is replaced by a tree owned, in the new heap, on its own and fresh cells;
   the heaps agree everywhere else below length h except at a cell x of that member: the other members are untouched *)
Lemma ownsL_edit_child h h' x ptrs (kids : list vtree) fps :
  agrees_except h h' x -> OwnsL h ptrs kids fps -> NoDup (concat fps) ->
  forall i b Sc t' Sc', nth_error ptrs i = Some b -> nth_error fps i = Some Sc -> In x Sc ->
  Owns h' b t' Sc' -> NoDup Sc' -> fresh_or_old h Sc Sc' ->
  OwnsL h' ptrs (upd i (fun _ => t') kids) (upd i (fun _ => Sc') fps) /\
  NoDup (concat (upd i (fun _ => Sc') fps)) /\ fresh_or_old h (concat fps) (concat (upd i (fun _ => Sc') fps)).
Proof.
  intros Hag HLs NDf i b Sc t' Sc' Eb HSc Hxc HOc' NDc' Hfoc.
  split; [|exact (NoDup_concat_upd h fps NDf (proj2 (owns_lt h) ptrs kids fps HLs) i Sc Sc' HSc NDc' Hfoc)].
  clear NDc' Hfoc. revert NDf i Eb HSc.
  induction HLs as [|a0 t0 S0 ptrs0 kids0 fps0 H0 HL0 IHL]; intros ND [|i] Eb HSc; try discriminate;
    cbn in Eb, HSc; cbn [concat] in ND; cbn [upd]; constructor.
  - injection Eb as ->. exact HOc'.
  - injection HSc as ->. apply (ownsL_frame_except h h' x); [exact Hag|exact HL0|]. exact (notin_app_r x Sc _ ND Hxc).
  - apply (owns_frame_except h h' x); [exact Hag|exact H0|]. exact (notin_app_l x S0 _ ND (in_concat_nth fps0 i Sc x HSc Hxc)).
  - exact (IHL (NoDup_app_r _ _ ND) i Eb HSc).
Qed.

Section NodeEdit.
Variables (h h' : heap) (x : nat) (p' : P) (F : list vtree -> list vtree).
Hypothesis Hag : agrees_except h h' x.
Hypothesis Hlen : length h <= length h'.
(* what the edit does at the node itself: new payload p', new children; the new children are owned in h' on cells that are
   the old children's or fresh, and form the list F kids *)
Hypothesis Hnode : forall p ptrs kids fps, nth_error h x = Some {| c_pay := p; c_ptrs := ptrs |} -> OwnsL h ptrs kids fps ->
  NoDup (x :: concat fps) ->
  exists ptrs' fps', nth_error h' x = Some {| c_pay := p'; c_ptrs := ptrs' |} /\ OwnsL h' ptrs' (F kids) fps' /\
                     NoDup (concat fps') /\ fresh_or_old h (concat fps) (concat fps').

Definition node_edit (t : vtree) : vtree := match t with VNode _ kids => VNode p' (F kids) end.

Lemma owns_node_edit : forall path a t S, Owns h a t S -> NoDup S -> addr_at h a path = Some x ->
  exists S', Owns h' a (tmap_at path node_edit t) S' /\ NoDup S' /\ fresh_or_old h S S'.
Proof using Hag Hlen Hnode.
  induction path as [|i r IH]; intros a t S HO ND Hp.
  - cbn in Hp. injection Hp as Hax. subst a. inversion HO as [a' p ptrs kids fps Hcell HLs]; subst. cbn [tmap_at node_edit].
    destruct (Hnode p ptrs kids fps Hcell HLs ND) as [ptrs' [fps' [Hc' [HL' [ND' Hfo]]]]].
    exists (x :: concat fps'). split; [apply Owns_node with (ptrs := ptrs'); assumption|]. split.
    + constructor; [|exact ND']. intros Hin. destruct (Hfo x Hin) as [H1|H1].
      * inversion ND; contradiction.
      * assert (x < length h) by (apply nth_error_Some; rewrite Hcell; discriminate). lia.
    + intros y [<-|Hy]; [left; left; reflexivity|]. destruct (Hfo y Hy) as [H1|H1]; [left; right; exact H1|right; exact H1].
  - inversion HO as [a' p ptrs kids fps Hcell HLs]; subst. cbn [addr_at] in Hp. rewrite Hcell in Hp. cbn [c_ptrs] in Hp.
    destruct (nth_error ptrs i) as [b|] eqn:Eb; [|discriminate]. cbn [tmap_at].
    inversion ND as [|? ? Hna NDf]; subst.
    destruct (ownsL_nth h ptrs kids fps HLs i b Eb) as [tc [Sc [Htc [HSc HOc]]]].
    destruct (IH b tc Sc HOc (NoDup_concat_nth fps NDf i Sc HSc) Hp) as [Sc' [HOc' [NDc' Hfoc]]].
    assert (Hxin : In x (concat fps)) by (eapply path_in_concat; eauto).
    assert (Hxa : x <> a) by (intros ->; contradiction).
    assert (Halt : a < length h) by (apply nth_error_Some; rewrite Hcell; discriminate).
    assert (Hxc : In x Sc) by (eapply path_in_footprint; eauto).
    destruct (ownsL_edit_child h h' x ptrs kids fps Hag HLs NDf i b Sc _ Sc' Eb HSc Hxc HOc' NDc' Hfoc) as [HL' [N1 F1]].
    exists (a :: concat (upd i (fun _ => Sc') fps)). split; [|split].
    + apply Owns_node with (ptrs := ptrs); [rewrite (Hag a Halt (not_eq_sym Hxa)); exact Hcell|].
      rewrite <- (upd_const_eq (tmap_at r node_edit) kids i tc Htc). exact HL'.
    + constructor; [|exact N1]. intros Hin. destruct (F1 a Hin) as [H1|H1]; [contradiction|lia].
    + intros y [<-|Hy]; [left; left; reflexivity|]. destruct (F1 y Hy) as [H1|H1]; [left; right; exact H1|right; exact H1].
Qed.
End NodeEdit.

Definition set_ptrs (x : nat) (g : list nat -> list nat) (h : heap) : heap :=
  upd x (fun c => {| c_pay := c_pay c; c_ptrs := g (c_ptrs c) |}) h.
Lemma length_set_ptrs x g h : length (set_ptrs x g h) = length h.
Proof. apply length_upd. Qed.
Lemma nth_error_set_ptrs x g (h : heap) p ptrs : nth_error h x = Some {| c_pay := p; c_ptrs := ptrs |} ->
  nth_error (set_ptrs x g h) x = Some {| c_pay := p; c_ptrs := g ptrs |}.
Proof. intros H. unfold set_ptrs. rewrite (nth_error_upd_same _ _ _ _ H). reflexivity. Qed.
Lemma agrees_set_ptrs (h h1 : heap) x g : (forall y, y < length h -> nth_error h1 y = nth_error h y) ->
  agrees_except h (set_ptrs x g h1) x.
Proof.
  intros H y Hy Hne. unfold set_ptrs. rewrite nth_error_upd_other by (intros E; exact (Hne (eq_sym E))). exact (H y Hy).
Qed.

(* replacing child i in all three lists at once: pointer, tree and footprint *)
Lemma ownsL_upd3 h ptrs (kids : list vtree) fps : OwnsL h ptrs kids fps -> forall i b' t' S', Owns h b' t' S' ->
  OwnsL h (upd i (fun _ => b') ptrs) (upd i (fun _ => t') kids) (upd i (fun _ => S') fps).
Proof.
  induction 1 as [|a0 t0 S0 ptrs kids fps HO HL IH]; intros i b' t' S' HO'; [destruct i; constructor|].
  destruct i as [|i]; cbn [upd]; constructor; auto.
Qed.
Lemma ownsL_removelast h ptrs (kids : list vtree) fps : OwnsL h ptrs kids fps ->
  OwnsL h (removelast ptrs) (removelast kids) (removelast fps).
Proof.
  induction 1 as [|a0 t0 S0 ptrs kids fps HO HL IH]; [constructor|]. cbn [removelast].
  inversion HL; subst; [constructor|]. constructor; assumption.
Qed.
Lemma concat_removelast {X} (l : list (list X)) : exists S, concat l = concat (removelast l) ++ S.
Proof.
  destruct l as [|S0 l]; [exists []; reflexivity|]. exists (last (S0 :: l) []).
  rewrite <- concat_snoc, <- app_removelast_last by discriminate. reflexivity.
Qed.
Lemma in_concat_removelast {X} (l : list (list X)) y : In y (concat (removelast l)) -> In y (concat l).
Proof. destruct (concat_removelast l) as [S ->]. intros H. apply in_or_app. left. exact H. Qed.
Lemma NoDup_concat_removelast {X} (l : list (list X)) : NoDup (concat l) -> NoDup (concat (removelast l)).
Proof. destruct (concat_removelast l) as [S ->]. apply NoDup_app_l. Qed.

(* obj.field_i = <a newly built object>: the i-th pointer field of the cell x is re-pointed to a freshly allocated tree *)
Definition assign_child (x i : nat) (tnew : vtree) (h : heap) : heap :=
  let '(b, h1) := alloc_tree tnew h in set_ptrs x (upd i (fun _ => b)) h1.
Lemma owns_assign_child h x i tnew p0 ptrs0 :
  nth_error h x = Some {| c_pay := p0; c_ptrs := ptrs0 |} ->
  length h <= length (assign_child x i tnew h) /\ agrees_except h (assign_child x i tnew h) x /\
  forall path a t S, Owns h a t S -> NoDup S -> addr_at h a path = Some x ->
  exists S', Owns (assign_child x i tnew h) a (tmap_at path (node_edit p0 (upd i (fun _ => tnew))) t) S' /\ NoDup S' /\ fresh_or_old h S S'.
Proof.
  intros Hx. unfold assign_child. destruct (alloc_tree tnew h) as [b h1] eqn:Hal.
  destruct (alloc_owns tnew h b h1 Hal) as [e [Snew [-> [HOn [NDn FRn]]]]].
  assert (Hxlt : x < length h) by (apply nth_error_Some; rewrite Hx; discriminate).
  assert (Hlen : length h <= length (set_ptrs x (upd i (fun _ => b)) (h ++ e))) by (rewrite length_set_ptrs, app_length; lia).
  pose proof (agrees_set_ptrs h (h ++ e) x (upd i (fun _ => b)) (fun y Hy => nth_error_app1 h e Hy)) as Hag.
  split; [exact Hlen|]. split; [exact Hag|].
  apply (owns_node_edit h _ x p0 (upd i (fun _ => tnew)) Hag Hlen).
  intros p ptrs kids fps Hcell HLs ND. rewrite Hx in Hcell. injection Hcell as <- <-.
  inversion ND as [|? ? Hxn NDf]; subst.
  exists (upd i (fun _ => b) ptrs0), (upd i (fun _ => Snew) fps). split; [|split].
  - apply nth_error_set_ptrs. rewrite nth_error_app1 by exact Hxlt. exact Hx.
  - apply ownsL_upd3; [apply (ownsL_frame_except h _ x); assumption|].
    apply (owns_frame_except (h ++ e) _ x b tnew Snew (agrees_set_ptrs _ _ x _ (fun _ _ => eq_refl)) HOn).
    intros Hin. specialize (FRn x Hin). lia.
  - destruct (nth_error fps i) as [Si|] eqn:Ei.
    + apply (NoDup_concat_upd h fps NDf (proj2 (owns_lt h) ptrs0 kids fps HLs) i Si Snew Ei NDn).
      intros y Hy. right. exact (proj1 (FRn y Hy)).
    + rewrite (upd_beyond _ fps i Ei). split; [exact NDf|]. intros y Hy. left. exact Hy.
Qed.

(* list.pop(): the last pointer field of the cell x is dropped *)
Definition pop_child (x : nat) (h : heap) : heap := set_ptrs x (@removelast nat) h.
Lemma owns_pop_child h x p0 ptrs0 :
  nth_error h x = Some {| c_pay := p0; c_ptrs := ptrs0 |} ->
  length h <= length (pop_child x h) /\ agrees_except h (pop_child x h) x /\
  forall path a t S, Owns h a t S -> NoDup S -> addr_at h a path = Some x ->
  exists S', Owns (pop_child x h) a (tmap_at path (node_edit p0 (@removelast vtree)) t) S' /\ NoDup S' /\ fresh_or_old h S S'.
Proof.
  intros Hx. unfold pop_child.
  assert (Hlen : length h <= length (set_ptrs x (@removelast nat) h)) by (rewrite length_set_ptrs; lia).
  pose proof (agrees_set_ptrs h h x (@removelast nat) (fun _ _ => eq_refl)) as Hag.
  split; [exact Hlen|]. split; [exact Hag|].
  apply (owns_node_edit h _ x p0 (@removelast vtree) Hag Hlen).
  intros p ptrs kids fps Hcell HLs ND. rewrite Hx in Hcell. injection Hcell as <- <-.
  inversion ND as [|? ? Hxn NDf]; subst.
  exists (removelast ptrs0), (removelast fps). split; [|split; [|split]].
  - apply nth_error_set_ptrs. exact Hx.
  - apply ownsL_removelast. apply (ownsL_frame_except h _ x); assumption.
  - apply NoDup_concat_removelast. exact NDf.
  - intros y Hy. left. apply in_concat_removelast. exact Hy.
Qed.

Lemma depth_node_edit_le p' F : (forall kids, maxd (F kids) <= maxd kids) -> forall t : vtree, depth (node_edit p' F t) <= depth t.
Proof. intros HF [p kids]. exact (le_n_S _ _ (HF kids)). Qed.
Lemma maxd_upd_leaf i p (kids : list vtree) : maxd (upd i (fun _ => VNode p []) kids) <= maxd kids.
Proof. apply maxd_upd_le. intros [q ks]. apply le_n_S, Nat.le_0_l. Qed.
Lemma maxd_removelast (kids : list vtree) : maxd (removelast kids) <= maxd kids.
Proof.
  induction kids as [|k kids IH]; [apply Nat.le_refl|]. destruct kids as [|k2 kids]; [apply Nat.le_0_l|].
  change (Nat.max (depth k) (maxd (removelast (k2 :: kids))) <= Nat.max (depth k) (maxd (k2 :: kids))). lia.
Qed.
End GraphEdit.
