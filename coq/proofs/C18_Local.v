(* C18: what a reader thread's local computations guarantee, whatever it read from the memo at pose.py:60.
   [result_alone j] is the header of j's own file parsed from offset 0 and the offset after it. *)
From Coq Require Import NArith List Lia.
Require Import ListN Result Bytes Prog Codec PoseRead ProgLemmas PoseReadLemmas C18_Threads C18_Bytes.
Import ListNotations.
Open Scope N_scope.

(* a memo entry is sound when every buffer that hits it gets the header and offset of its own parse *)
Definition SoundKey (s e : N) (k : bytes) (h : header) : Prop :=
  forall b, py_slice s e b = k -> parse b = Some (h, e).

Lemma parse_ok b h r : run_plain rd_header {| pbuf := b; poff := 0 |} = Ok (h, r) -> parse b = Some (h, poff r).
Proof. unfold parse. now intros ->. Qed.
Lemma parse_some b h e : parse b = Some (h, e) ->
  run_plain rd_header {| pbuf := b; poff := 0 |} = Ok (h, {| pbuf := b; poff := e |}).
Proof.
  unfold parse. destruct (run_plain rd_header _) as [[h' [pb po]]|] eqn:E; [|discriminate].
  intros [= -> <-]. apply run_plain_buf in E. cbn [pbuf] in E. now subst pb.
Qed.

(* the key stored by a miss is sound: prefix determinism of the header decoder *)
Lemma key_sound file h e : parse file = Some (h, e) -> SoundKey 0 e (takeN e file) h.
Proof.
  intros Hp b Hb. rewrite py_slice_0 in Hb. unfold parse.
  now rewrite (run_plain_prefix rd_header noSkip_rd_header _ _ _ _ (parse_some _ _ _ Hp) b Hb).
Qed.

Lemma parse_prefix b file h e : b = takeN (lenN b) file -> parse b = Some (h, e) -> parse file = Some (h, e).
Proof.
  intros Hb Hp. apply parse_some in Hp.
  pose proof (run_plain_ext rd_header (noSkip_noBL _ noSkip_rd_header) b (dropN (lenN b) file) 0 h e Hp) as Hx.
  pose proof (take_drop_split (lenN b) file) as E. rewrite <- Hb in E. rewrite E in Hx. unfold parse. now rewrite Hx.
Qed.

Section Local.
Variable pf : option N -> N.

Lemma lookup_plain j er : uses_stream j = false -> lookup_buffer pf j er = Ok (j_file j).
Proof. unfold lookup_buffer. now intros ->. Qed.

Lemma lookup_spec j er :
  match lookup_buffer pf j er with
  | Ok b => b = takeN (lenN b) (j_file j)
  | Err _ => j_file j = []
  end.
Proof.
  unfold lookup_buffer. destruct (uses_stream j); [|symmetry; apply takeN_all; lia].
  pose proof (expect_fresh (j_file j) (pf er)) as H. now destruct (expect _ _ _).
Qed.

Lemma lookup_err j er e : lookup_buffer pf j er = Err e -> result_alone j = RFail.
Proof. intros H. pose proof (lookup_spec j er) as L. rewrite H in L. unfold result_alone, parse. now rewrite L, parse_nil. Qed.

Lemma lookup_parse j er b h e : lookup_buffer pf j er = Ok b -> parse b = Some (h, e) -> result_alone j = ROk h e.
Proof.
  intros H Hp. pose proof (lookup_spec j er) as L. rewrite H in L.
  unfold result_alone. now rewrite (parse_prefix _ _ _ _ L Hp).
Qed.

(* the miss path parses the thread's own file; what it hands to set_cache is a sound entry *)
Lemma own_parse j er b : lookup_buffer pf j er = Ok b ->
  match parse_own j b with
  | Ok (h, e, b') => result_alone j = ROk h e /\ SoundKey 0 e (py_slice 0 e b') h
  | Err _ => result_alone j = RFail
  end.
Proof.
  intros H. unfold parse_own. destruct (uses_stream j) eqn:U.
  - pose proof (lookup_spec j er) as L. rewrite H in L.
    pose proof (run_stream_plain rd_header (j_file j) {| buf := b; off := 0; skipped := 0; pulled := lenN b |}
                  noSkip_rd_header (conj (conj eq_refl L) (N.le_0_l _))) as S. cbn [off] in S.
    destruct (run_stream (j_file j) rd_header _) as [[h r2]|e].
    + destruct S as (Hp & (_ & Hb2) & Ho2). apply parse_ok in Hp. cbn [poff] in Hp.
      split; [unfold result_alone; now rewrite Hp|].
      rewrite py_slice_0, Hb2, takeN_takeN_le by exact Ho2. now apply key_sound.
    + destruct S as [e' He']. unfold result_alone, parse. now rewrite He'.
  - rewrite lookup_plain in H by exact U. injection H as <-.
    destruct (run_plain rd_header {| pbuf := j_file j; poff := 0 |}) as [[h r]|e] eqn:E.
    + apply parse_ok in E. split; [unfold result_alone; now rewrite E|].
      rewrite py_slice_0. now apply key_sound.
    + unfold result_alone, parse. now rewrite E.
Qed.
End Local.

Definition Good (m : gmemo) : Prop :=
  g_hash m = None \/
  exists s e k h, m = {| g_start := Some s; g_end := Some e; g_hash := Some k; g_header := Some h |} /\ SoundKey s e k h.
Lemma good_empty : Good g_empty.
Proof. left. reflexivity. Qed.
Lemma good_memo_after file : Good (memo_after file).
Proof.
  unfold memo_after. destruct (parse file) as [[h e]|] eqn:E; [|apply good_empty].
  right. exists 0, e, (py_slice 0 e file), h. split; [reflexivity|]. rewrite py_slice_0. now apply key_sound.
Qed.
