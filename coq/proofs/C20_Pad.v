(* C20 - the master lemma: on a well-formed homogeneous batch, pad_tensors (with any sound shortcut)
   returns exactly [spec_out]. *)
From Coq Require Import List ZArith Arith Bool Lia.
Require Import Result ResultFacts Tensor C20_Collate C20_Spec.
Import ListNotations.

Lemma nats_eqb_refl s : nats_eqb s s = true.
Proof. induction s as [|a s IH]; cbn [nats_eqb]; [reflexivity|]. now rewrite Nat.eqb_refl, IH. Qed.

Lemma dt_max_idem d : dt_max d d = d.
Proof. unfold dt_max. now rewrite Nat.ltb_irrefl. Qed.

Lemma tensor_eta {X} (t : tensor X) : t = mkT (shape t) (data t).
Proof. destruct t; reflexivity. Qed.

Lemma len_le_Lmax x batch : In x batch -> len_of x <= Lmax batch.
Proof.
  intros H. pose proof (proj1 (list_max_le (map len_of batch) (Lmax batch)) (le_n _)) as HF.
  rewrite Forall_forall in HF. apply HF. now apply in_map.
Qed.

Lemma list_max_attained l : l <> [] -> In (list_max l) l.
Proof.
  induction l as [|a l IH]; intros Hne; [congruence|]. cbn [list_max fold_right]. fold (list_max l).
  destruct l as [|b l'].
  - cbn [list_max fold_right]. rewrite Nat.max_0_r. left; reflexivity.
  - destruct (Nat.max_spec a (list_max (b :: l'))) as [[_ ->]|[_ ->]]; [right; apply IH; congruence|left; reflexivity].
Qed.
Lemma Lmax_attained batch : batch <> [] -> exists x, In x batch /\ len_of x = Lmax batch.
Proof.
  intros Hne. assert (Hm : map len_of batch <> []) by (destruct batch; cbn; congruence).
  apply list_max_attained, in_map_iff in Hm. destruct Hm as (x & Hx & Hin). exists x. split; assumption.
Qed.

Lemma good_len masked tail x : good masked tail x -> tl_len x = Ok (len_of x).
Proof. intros (_ & Hs & _). unfold tl_len. now rewrite Hs. Qed.

(* an example that needs no padding is its own padded form *)
Lemma padded_self masked tail pv L x : good masked tail x -> len_of x = L -> padded masked L tail pv x = x.
Proof.
  intros (Hk & Hs & _ & Hm) HL. unfold padded, row_of. rewrite HL, Nat.sub_diag. cbn [Nat.mul repeat].
  rewrite !app_nil_r. rewrite <- HL, <- Hs.
  destruct x as [dt t m|dt t]; cbn [is_masked tl_t tl_m tl_dt] in *; subst masked.
  - destruct (Hm eq_refl) as [Hsm _]. rewrite <- Hsm at 2. now rewrite <- !tensor_eta.
  - now rewrite <- tensor_eta.
Qed.

Lemma pad_one_ok masked tail pv L x :
  good masked tail x -> len_of x <= L -> pad_fits (tl_dt x) pv = true ->
  pad_one masked L pv x = Ok (padded masked L tail pv x).
Proof.
  intros G Hle Hfit. pose proof G as (Hk & Hs & _ & Hm).
  unfold pad_one. rewrite Hs.
  destruct (0 <? L - len_of x) eqn:Hlt.
  - apply Nat.ltb_lt in Hlt. unfold cast_pad. rewrite Hfit. cbn [rbind].
    assert (HL : len_of x + (L - len_of x) = L) by lia.
    destruct x as [dt t m|dt t]; cbn [is_masked tl_t tl_m tl_dt] in *; subst masked.
    + destruct (Hm eq_refl) as [Hsm _].
      unfold cat2, as_masked; cbn [fst snd]. unfold tcat0, tfull; cbn [shape data].
      rewrite Hsm, Hs, nats_eqb_refl. cbn [rbind]. rewrite dt_max_idem, HL.
      unfold padded, row_of, pad_mask_fill; cbn [tl_t tl_m tl_dt prod fold_right]. reflexivity.
    + unfold cat2, tcat0, tfull; cbn [shape data]. rewrite Hs, nats_eqb_refl. cbn [rbind].
      rewrite dt_max_idem, HL. unfold padded, row_of; cbn [tl_t tl_dt prod fold_right]. reflexivity.
  - apply Nat.ltb_ge in Hlt. f_equal. symmetry. apply (padded_self masked tail pv L x G). lia.
Qed.

Lemma tstack0_rows {A X} s (g : A -> list X) l :
  l <> [] -> tstack0 (map (fun x => mkT s (g x)) l) = Ok (mkT (length l :: s) (concat (map g l))).
Proof.
  destruct l as [|a l]; [congruence|]. intros _. unfold tstack0. cbn [map shape].
  rewrite (proj2 (forallb_forall _ _)).
  - cbn [length]. now rewrite map_length, map_map.
  - intros t Ht. change (In t (map (fun x => mkT s (g x)) (a :: l))) in Ht.
    apply in_map_iff in Ht. destruct Ht as (x & <- & _). apply nats_eqb_refl.
Qed.

(* on a batch of one kind both [stack]s read the parts off the examples *)
Lemma stack_kind masked xs : Forall (fun x => is_masked x = masked) xs ->
  stack masked xs =
  if masked then do t <- tstack0 (map tl_t xs); do m <- tstack0 (map tl_m xs); Ok (OMasked (dts (map tl_dt xs)) t m)
  else do t <- tstack0 (map tl_t xs); Ok (OPlain (dts (map tl_dt xs)) t).
Proof.
  intros Hk. rewrite Forall_forall in Hk. unfold stack. destruct masked.
  - rewrite (rmapM_map masked_parts (fun y => (tl_dt y, (tl_t y, tl_m y))))
      by (intros y Hy; specialize (Hk y Hy); destruct y; [reflexivity|discriminate Hk]).
    cbn [rbind]. now rewrite !map_map.
  - rewrite (rmapM_map plain_parts (fun y => (tl_dt y, tl_t y)))
      by (intros y Hy; specialize (Hk y Hy); destruct y; [discriminate Hk|reflexivity]).
    cbn [rbind]. now rewrite !map_map.
Qed.

Lemma stack_padded masked tail pv batch :
  batch <> [] ->
  stack masked (map (padded masked (Lmax batch) tail pv) batch) = Ok (spec_out masked tail pv batch).
Proof.
  intros Hne. rewrite stack_kind by (apply Forall_map, Forall_forall; intros x _; now destruct masked).
  unfold spec_out, padded. destruct masked; rewrite !map_map; cbn [tl_dt tl_t tl_m]; now rewrite !tstack0_rows by exact Hne.
Qed.

Lemma stack_unpadded masked tail pv batch :
  batch <> [] -> Forall (good masked tail) batch -> (forall x, In x batch -> len_of x = Lmax batch) ->
  stack masked batch = Ok (spec_out masked tail pv batch).
Proof.
  intros Hne HG Hall. rewrite Forall_forall in HG. rewrite <- (stack_padded masked tail pv batch Hne). f_equal.
  rewrite <- (map_id batch) at 1. apply map_ext_in. intros x Hx. symmetry. apply padded_self; [now apply HG|now apply Hall].
Qed.

(* whatever the shortcut: it only decides between stacking the batch as it is and stacking the padded examples *)
Lemma pad_tensors_with_good masked tail pv batch sc :
  good_batch masked tail pv batch ->
  pad_tensors_with sc batch pv =
  if sc (map len_of batch) (Lmax batch) then stack masked batch else Ok (spec_out masked tail pv batch).
Proof.
  intros (Hne & HG & HF). rewrite Forall_forall in HG, HF.
  unfold pad_tensors_with. destruct batch as [|x0 r] eqn:Eb; [congruence|]. rewrite <- Eb in *.
  assert (Hcls : is_masked x0 = masked) by (apply (HG x0); rewrite Eb; left; reflexivity).
  rewrite Hcls.
  rewrite (rmapM_map tl_len len_of) by (intros x Hx; apply (good_len masked tail); now apply HG).
  cbn [rbind]. fold (Lmax batch).
  destruct (sc (map len_of batch) (Lmax batch)); [reflexivity|].
  rewrite (rmapM_map (pad_one masked (Lmax batch) pv) (padded masked (Lmax batch) tail pv))
    by (intros x Hx; apply pad_one_ok; [now apply HG|now apply len_le_Lmax|now apply HF]).
  cbn [rbind]. now apply stack_padded.
Qed.

Theorem pad_tensors_master masked tail pv batch sc :
  sc_sound sc -> good_batch masked tail pv batch ->
  pad_tensors_with sc batch pv = Ok (spec_out masked tail pv batch).
Proof.
  intros Hsc G. rewrite (pad_tensors_with_good masked tail pv batch sc G).
  destruct (sc (map len_of batch) (Lmax batch)) eqn:Esc; [|reflexivity].
  apply Hsc in Esc. rewrite Forall_forall in Esc. destruct G as (Hne & HG & _).
  apply stack_unpadded; [exact Hne|exact HG|]. intros x Hx. apply Esc. now apply in_map.
Qed.

Lemma sc_repaired_sound : sc_sound sc_repaired.
Proof.
  intros lens mx H. unfold sc_repaired in H. rewrite forallb_forall in H.
  apply Forall_forall. intros n Hn. apply Nat.eqb_eq. now apply H.
Qed.
Lemma sc_none_sound : sc_sound sc_none.
Proof. intros lens mx H. discriminate H. Qed.
