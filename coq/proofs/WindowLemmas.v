(* C03: a window read of a written file equals the slice of the full read (plain reader); Pose.read on bytes as the
   header decoder followed by the body decoder. *)
From Coq Require Import ZArith NArith List Lia ZifyBool ZifyN ZifyNat Bool.
Require Import ListN Result Bytes F32 Prog Codec ProgLemmas CodecRT PoseRead.
Import ListNotations.
Open Scope N_scope.

(* the frames read are [start0 s, end0 e frames): a start that is absent or not positive counts as 0, an end is cut
   at the frame count *)
Definition start0 (s : option Z) : Z := match s with Some z => if (0 <? z)%Z then z else 0%Z | None => 0%Z end.
Definition end0 (e : option Z) (frames : Z) : Z := match e with Some z => Z.min z frames | None => frames end.

Definition skip_if {A} (c : bool) (n : N) (k : prog A) : prog A := if c then Skip n k else k.

(* read_v0_1_frames has one shape for all argument forms: skip [start0 s] frames if that is positive, read up to
   [end0 e frames], skip the rest if an end was given *)
Lemma read_frames_eq frames cells s e :
  read_frames frames cells s e =
  if (0 <? start0 s)%Z && (frames <=? start0 s)%Z then Fail Value else
  skip_if (0 <? start0 s)%Z (Z.to_N (4 * start0 s * cells))
    (dop t <- zblock (4 * (end0 e frames - start0 s) * cells)
                (fun b => Ret (words32 (Z.to_nat ((end0 e frames - start0 s) * cells)) b));
     skip_if (if e then true else false) (Z.to_N (4 * (frames - end0 e frames) * cells))
       (Ret ((end0 e frames - start0 s)%Z, t))).
Proof.
  assert (Es : (match s with Some s' => (0 <? s')%Z | None => false end) = (0 <? start0 s)%Z /\
               (if (0 <? start0 s)%Z then match s with Some s' => s' | None => 0%Z end else 0%Z) = start0 s).
  { unfold start0. destruct s as [s'|]; [|split; reflexivity]. destruct (0 <? s')%Z eqn:E; [rewrite E|]; split; reflexivity. }
  destruct Es as [E1 E2].
  unfold read_frames. rewrite E1.
  destruct (0 <? start0 s)%Z eqn:E.
  - cbn [andb skip_if]. rewrite E2. destruct (frames <=? start0 s)%Z; [reflexivity|].
    destruct e as [e'|]; cbn [end0 skip_if].
    + replace (frames - start0 s - (frames - Z.min e' frames))%Z with (Z.min e' frames - start0 s)%Z by lia. reflexivity.
    + reflexivity.
  - cbn [andb skip_if]. rewrite <- E2.
    destruct e as [e'|]; cbn [end0 skip_if].
    + replace (frames - (frames - Z.min e' frames))%Z with (Z.min e' frames - 0)%Z by lia. reflexivity.
    + replace (frames - 0)%Z with frames by lia. reflexivity.
Qed.

Lemma RTp_skip_if {A} (c : bool) n (k : prog A) e1 e2 a :
  lenN e1 = (if c then n else 0) -> RTp k e2 a -> RTp (skip_if c n k) (e1 ++ e2) a.
Proof.
  destruct c; cbn [skip_if]; intros Hn H; [now apply RTp_skip|].
  destruct e1; [exact H|]. unfold lenN in Hn. cbn [length] in Hn. lia.
Qed.

Lemma frames_window_rt ws frames cells s e :
  Forall (fun n => n < 4294967296) ws ->
  (0 <= frames)%Z -> (0 <= cells)%Z -> Z.of_N (lenN ws) = (frames * cells)%Z ->
  (start0 s = 0 \/ start0 s < frames)%Z -> (start0 s <= end0 e frames)%Z ->
  RTp (read_frames frames cells s e) (flat_map enc_u32 ws)
      ((end0 e frames - start0 s)%Z,
       takeN (Z.to_N ((end0 e frames - start0 s) * cells)) (dropN (Z.to_N (start0 s * cells)) ws)).
Proof.
  intros Hlt Hf Hc Hlen Hs Hse. rewrite read_frames_eq.
  assert (He0 : (end0 e frames <= frames)%Z) by (unfold end0; destruct e; lia).
  assert (Hs0 : (0 <= start0 s)%Z) by (unfold start0; destruct s as [z|]; [destruct (0 <? z)%Z eqn:E|]; lia).
  assert (Hx0 : (0 <? start0 s)%Z = false -> (start0 s * cells)%Z = 0%Z)
    by (intros E; replace (start0 s) with 0%Z by lia; reflexivity).
  assert (Hz0 : (if e then true else false) = false -> ((frames - end0 e frames) * cells)%Z = 0%Z)
    by (destruct e; [discriminate|intros _; cbn [end0]; lia]).
  set (s0 := start0 s) in *. set (e0 := end0 e frames) in *.
  assert (Hx : (0 <= s0 * cells)%Z) by (apply Z.mul_nonneg_nonneg; lia).
  assert (Hy : (0 <= (e0 - s0) * cells)%Z) by (apply Z.mul_nonneg_nonneg; lia).
  assert (Hz : (0 <= (frames - e0) * cells)%Z) by (apply Z.mul_nonneg_nonneg; lia).
  replace ((0 <? s0)%Z && (frames <=? s0)%Z) with false by lia.
  set (a := Z.to_N (s0 * cells)). set (b := Z.to_N ((e0 - s0) * cells)).
  rewrite (split3 a b ws) at 1. rewrite !flat_map_app.
  apply RTp_skip_if.
  { rewrite lenN_flat_enc_u32, lenN_takeN. destruct (0 <? s0)%Z eqn:E; [lia|specialize (Hx0 eq_refl); lia]. }
  apply RTp_bind with (a := takeN b (dropN a ws)).
  { apply words_block_rt; [apply Forall_takeN, Forall_dropN, Hlt|]. rewrite lenN_takeN, lenN_dropN. lia. }
  rewrite <- (app_nil_r (flat_map enc_u32 (dropN (a + b) ws))). apply RTp_skip_if; [|apply RTp_ret].
  rewrite lenN_flat_enc_u32, lenN_dropN. destruct (if e then true else false) eqn:E; [lia|specialize (Hz0 eq_refl); lia].
Qed.

Definition conflict (a b : option Z) : bool := match a, b with Some _, Some _ => true | _, _ => false end.
Definition resolve_start (fps : N) (sf st : option Z) : result (option Z) :=
  match st with Some ms => rmap Some (time_to_frame false ms fps) | None => Ok sf end.
Definition resolve_end (fps : N) (ef et : option Z) : result (option Z) :=
  match et with Some ms => rmap Some (time_to_frame true ms fps) | None => Ok ef end.
(* the v0.2 body decoder without an argument conflict: the three info fields, then the rest *)
Definition info3 : prog (N * N * N) := dop fps <- rd_u32; dop F <- rd_u32; dop P <- rd_u16; Ret (fps, F, P).
Definition body_rest (h : header) (sf st ef et : option Z) (x : N * N * N) : prog body :=
  let '(fps, F, P) := x in
  let T := total_points h in
  dop D <- plift (num_dims h);
  dop s <- plift (resolve_start fps sf st);
  dop e <- plift (resolve_end fps ef et);
  dop dat <- read_frames (Z.of_N F) (Z.of_N (P * T) * D) s e;
  dop cnf <- read_frames (Z.of_N F) (Z.of_N (P * T)) s e;
  plift (mk_body fps (Z.to_N (fst dat)) P T D (snd dat) (snd cnf)).
Definition body_prog (h : header) (sf st ef et : option Z) : prog body := pbind info3 (body_rest h sf st ef et).
Lemma read_v0_2_shape h sf st ef et :
  read_v0_2 h sf st ef et = if conflict sf st || conflict ef et then Fail Value else body_prog h sf st ef et.
Proof. destruct sf, st, ef, et; reflexivity. Qed.
Lemma info3_rt fw F P : fw < 4294967296 -> F < 4294967296 -> P < 65536 ->
  RTp info3 (enc_u32 fw ++ enc_u32 F ++ enc_u16 P) (fw, F, P).
Proof.
  intros H1 H2 H3. unfold info3. rewrite <- (app_nil_r (enc_u16 P)).
  apply RTp_bind with (a := fw); [now apply rd_u32_rt|].
  apply RTp_bind with (a := F); [now apply rd_u32_rt|].
  apply RTp_bind with (a := P); [now apply rd_u16_rt|]. apply RTp_ret.
Qed.

(* frames [s0, e0) of a body *)
Definition window_body (b : body) (s0 e0 : Z) : body :=
  match b_shape b with
  | [F; P; T; D] =>
      let cc := Z.of_N (P * T) in
      let dc := (cc * Z.of_N D)%Z in
      {| b_fps := b_fps b; b_shape := [Z.to_N (e0 - s0); P; T; D];
         b_data := takeN (Z.to_N ((e0 - s0) * dc)) (dropN (Z.to_N (s0 * dc)) (b_data b));
         b_conf := takeN (Z.to_N ((e0 - s0) * cc)) (dropN (Z.to_N (s0 * cc)) (b_conf b));
         b_mask := takeN (Z.to_N ((e0 - s0) * cc)) (dropN (Z.to_N (s0 * cc)) (b_mask b)) |}
  | _ => b
  end.

(* [b_fps (canon_body p)]; for a written pose the [None] arm is not reached (write_body_inv) *)
Definition fps_word (p : wpose) : N := match pack_f32 (w_fps p) with Some v => v | None => 0 end.

Theorem read_body_window_rt p e F P T D sf st ef et s e' :
  w_shape p = [F; P; T; D] -> w_cshape p = [F; P; T] -> wf_arrays p ->
  num_dims_of (map wc_format (w_comps p)) = Ok (Z.of_N D) -> total_points_w (w_comps p) = T -> 1 <= D ->
  write_body p = Ok e ->
  conflict sf st = false -> conflict ef et = false ->
  resolve_start (fps_word p) sf st = Ok s -> resolve_end (fps_word p) ef et = Ok e' ->
  (start0 s = 0 \/ start0 s < Z.of_N F)%Z -> (start0 s <= end0 e' (Z.of_N F))%Z ->
  RTp (read_v0_2 (canon_header p) sf st ef et) e (window_body (canon_body p) (start0 s) (end0 e' (Z.of_N F))).
Proof.
  intros Hs Hcs [Hld Hlc] Hnd Htp HD H Hc1 Hc2 Hrs Hre Hv1 Hv2.
  rewrite read_v0_2_shape, Hc1, Hc2. cbn [orb].
  destruct (write_body_inv p e F P T D Hs H) as [fw [Hfps [HF [HP ->]]]].
  unfold fps_word in Hrs, Hre. rewrite Hfps in Hrs, Hre.
  rewrite Hs in Hld. rewrite Hcs in Hlc. cbn [prodN fold_right] in Hld, Hlc.
  rewrite (app_assoc (enc_u32 F)), (app_assoc (enc_u32 fw)).
  apply RTp_bind with (a := (fw, F, P)); [exact (info3_rt fw F P (pack_f32_lt _ _ Hfps) HF HP)|].
  unfold body_rest. rewrite num_dims_canon, Hnd, total_points_canon, Htp, Hrs, Hre. cbn [plift pbind].
  set (s0 := start0 s) in *. set (e0 := end0 e' (Z.of_N F)) in *.
  eapply RTp_bind.
  { apply frames_window_rt; [apply words_lt|lia|lia| |exact Hv1|exact Hv2]. unfold lenN in *. rewrite map_length. lia. }
  rewrite <- (app_nil_r (flat_map enc_u32 (map f64_to_f32 (w_conf p)))).
  eapply RTp_bind.
  { apply frames_window_rt; [apply words_lt|lia|lia| |exact Hv1|exact Hv2]. unfold lenN in *. rewrite map_length. lia. }
  cbn [fst snd]. unfold mk_body. destruct (Z.leb_spec (Z.of_N D) 0) as [|_]; [lia|]. cbn [plift].
  unfold window_body, canon_body. cbn [b_shape b_fps b_data b_conf b_mask]. rewrite Hfps, Hs.
  replace (Z.to_N (Z.of_N D)) with D by lia.
  rewrite <- takeN_map, <- dropN_map.
  apply RTp_ret.
Qed.
