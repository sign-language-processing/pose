(* Facts about nth, seq, repeat, combine, forallb and Forall2 on lists that the 8.16 standard library lacks. *)
From Coq Require Import List Arith Bool Lia.
Import ListNotations.

Lemma nth_map_lt {X Y} (f : X -> Y) l k dx dy : k < length l -> nth k (map f l) dy = f (nth k l dx).
Proof. intros H. rewrite (nth_indep _ dy (f dx)) by now rewrite map_length. apply map_nth. Qed.
Lemma nth_map_seq {X} (c : nat -> X) n k d : k < n -> nth k (map c (seq 0 n)) d = c k.
Proof. intros H. rewrite (nth_map_lt c _ k 0) by now rewrite seq_length. now rewrite seq_nth. Qed.
Lemma nth_repeat_lt {X} (a d : X) m k : k < m -> nth k (repeat a m) d = a.
Proof. intros H. rewrite (nth_indep _ d a) by now rewrite repeat_length. apply nth_repeat. Qed.

Lemma map_fst_combine {X Y} (a : list X) (b : list Y) : length a = length b -> map fst (combine a b) = a.
Proof. revert b; induction a as [|x a IH]; intros [|y b] H; cbn in *; try discriminate; [reflexivity|]. f_equal. apply IH. lia. Qed.

Lemma forallb_ltb idx n : forallb (fun k => k <? n) idx = true <-> Forall (fun k => k < n) idx.
Proof. rewrite forallb_forall, Forall_forall. split; intros H k Hk; apply Nat.ltb_lt; now apply H. Qed.
Lemma forallb_repeat (b : bool) (n : nat) : n <> 0 -> forallb (fun z => z) (repeat b n) = b.
Proof. intros Hn. induction n as [|n IH]; [contradiction|]. cbn [repeat forallb].
  destruct n as [|n]; [cbn; now rewrite andb_true_r|]. rewrite IH by discriminate. now destruct b. Qed.

Lemma Forall_repeat {A} (Q : A -> Prop) x n : Q x -> Forall Q (repeat x n).
Proof. intros; induction n; cbn; constructor; assumption. Qed.
Lemma Forall_nth_error {A} (Q : A -> Prop) l i x : Forall Q l -> nth_error l i = Some x -> Q x.
Proof. intros HF Hn. rewrite Forall_forall in HF. apply HF. eapply nth_error_In; eassumption. Qed.

Lemma Forall2_length {A B} (R : A -> B -> Prop) l1 l2 : Forall2 R l1 l2 -> length l1 = length l2.
Proof. induction 1; cbn [length]; congruence. Qed.
Lemma Forall2_nth_error {A B} (R : A -> B -> Prop) l1 l2 : Forall2 R l1 l2 ->
  forall i a, nth_error l1 i = Some a -> exists b, nth_error l2 i = Some b /\ R a b.
Proof. induction 1 as [|x y l1 l2 Hxy H IH]; intros i a Hi; [destruct i; discriminate|].
  destruct i as [|i]; cbn [nth_error] in *; [injection Hi as <-; eauto|]. now apply IH. Qed.
Lemma Forall2_impl_In {A B} (R S : A -> B -> Prop) l1 l2 : (forall a b, In a l1 -> R a b -> S a b) -> Forall2 R l1 l2 -> Forall2 S l1 l2.
Proof. intros H F. induction F as [|x y l1 l2 Hxy F IH]; constructor.
  - apply H; [now left|exact Hxy].
  - apply IH. intros a b Ha. apply H. now right. Qed.
