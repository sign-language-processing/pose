(* Pose.read on a stream agrees with Pose.read on the bytes (C03 stream clause, C07 stream clause). *)
From Coq Require Import ZArith NArith List Lia ZifyBool ZifyN ZifyNat Bool.
Require Import ListN Result Bytes Prog Codec ProgLemmas PoseRead PoseReadLemmas StreamLemmas WindowLemmas.
Import ListNotations.
Open Scope N_scope.

Lemma v2prog_rd_header : v2prog rd_header.
Proof. exact (noSkip_v2prog _ noSkip_rd_header). Qed.
Lemma v2prog_skip_if {A} (c : bool) n (k : prog A) : v2prog k -> v2prog (skip_if c n k).
Proof. destruct c; auto. Qed.
Lemma v2prog_read_frames frames cells s e : v2prog (read_frames frames cells s e).
Proof.
  rewrite read_frames_eq. destruct (_ && _); [exact I|].
  apply v2prog_skip_if, v2prog_bind; [unfold zblock; destruct (_ <? 0)%Z; cbn; auto|].
  intros t. apply v2prog_skip_if. exact I.
Qed.
Lemma v2prog_info3 : v2prog info3.
Proof. cbn. auto. Qed.
Lemma v2prog_read_v0_2 h sf st ef et : v2prog (read_v0_2 h sf st ef et).
Proof.
  rewrite read_v0_2_shape. destruct (_ || _); [exact I|].
  apply v2prog_bind; [exact v2prog_info3|]. intros [[fps F] P]. unfold body_rest.
  apply v2prog_bind; [apply v2prog_plift|]. intros D.
  apply v2prog_bind; [apply v2prog_plift|]. intros s.
  apply v2prog_bind; [apply v2prog_plift|]. intros e.
  apply v2prog_bind; [apply v2prog_read_frames|]. intros dat.
  apply v2prog_bind; [apply v2prog_read_frames|]. intros cnf.
  apply v2prog_plift.
Qed.

(* before any skip the buffer is a prefix of the file; a skip-free run keeps it so *)
Definition Pre (q : bytes) (r : sreader) : Prop := skipped r = 0 /\ buf r = takeN (lenN (buf r)) q.
Lemma pre_expect q n r r1 : Pre q r -> expect q n r = Ok r1 -> Pre q r1.
Proof.
  intros [Hs Hb] H. unfold expect in H. destruct (_ <? _)%Z; [|injection H as <-; exact (conj Hs Hb)].
  apply read_chunk_ok in H. destruct H as [Hb1 [_ [Hs1 _]]]. unfold chunk in Hb1. rewrite Hs, N.add_0_l in Hb1.
  split; [lia|]. rewrite Hb in Hb1 at 1. rewrite takeN_app_takeN in Hb1. rewrite Hb1. apply pre_takeN.
Qed.
Lemma pre_run q {A} (p : prog A) : noSkip p -> forall r x r', Pre q r -> run_stream q p r = Ok (x, r') -> Pre q r'.
Proof.
  induction p as [x0|n k IH|n k IH|n k IH|k IH|e]; intros Hns r x r' HP Hr; cbn [run_stream noSkip] in *; try contradiction; try discriminate.
  - now injection Hr as _ <-.
  - destruct (expect q n r) as [ra|e] eqn:Hea; [|discriminate].
    destruct (off ra - skipped ra + n <=? lenN (buf ra)); [|discriminate].
    apply IH in Hr; [exact Hr|apply Hns|].
    destruct (pre_expect q n r ra HP Hea) as [Hsa Hba]. split; cbn [skipped buf]; assumption.
Qed.
Lemma pre_inv q r : Pre q r -> off r <= lenN (buf r) -> Inv q r.
Proof.
  intros [Hs Hb] Ho. unfold Inv. rewrite Hs. split; [lia|]. exists 0. split; [lia|]. split; [lia|].
  rewrite !dropN_0, N.sub_0_r. exact Hb.
Qed.
Lemma pre_sim q r : Pre q r -> off r <= lenN (buf r) -> Sim q [] {| pbuf := q; poff := off r |} r.
Proof. intros HP Ho. split; [now rewrite app_nil_r|]. split; [reflexivity|]. now apply pre_inv. Qed.
Lemma pre_fwd {A} q (p : prog A) sr o a pr' : v2prog p -> Pre q sr -> off sr = o -> o <= lenN (buf sr) ->
  run_plain p {| pbuf := q; poff := o |} = Ok (a, pr') ->
  exists sr', run_stream q p sr = Ok (a, sr') /\ Sim q [] pr' sr' /\
    pulled sr' + consumed sr <= pulled sr + consumed sr'.
Proof.
  intros Hv HP <- Hl Hrun. pose proof (sim_fwd q [] p Hv _ _ _ _ (pre_sim q sr HP Hl) Hrun) as H.
  destruct (run_stream q p sr) as [[b sr']|e]; [|now contradiction H].
  destruct H as [<- [HS [Hpc _]]]. exists sr'. auto.
Qed.
Lemma pre_slice q r n : Pre q r -> n <= lenN (buf r) -> py_slice 0 n (buf r) = py_slice 0 n q.
Proof. intros [_ Hb] Hn. rewrite !py_slice_0, Hb. now apply takeN_takeN_le. Qed.

(* the initial prefetch, expect_to_read((end_offset or 10240) + 100) on an empty reader, is one read from the
   start of the stream; EOFError iff the stream is empty *)
Lemma prefetch_len_ge m : 100 <= prefetch_len m.
Proof. unfold prefetch_len. lia. Qed.
Lemma expect_init q n : 0 < n ->
  expect q n {| buf := []; off := 0; skipped := 0; pulled := 0 |} =
  match takeN n q with
  | [] => Err EOF
  | b => Ok {| buf := b; off := 0; skipped := 0; pulled := lenN b |}
  end.
Proof.
  intros Hn. unfold expect, bytes_left, read_chunk. cbn [buf off skipped pulled app]. change (lenN []) with 0.
  destruct (Z.ltb_spec (Z.of_N 0 - Z.of_N 0 + Z.of_N 0) (Z.of_N n)) as [_|]; [|lia].
  replace (Z.to_N (Z.of_N n - (Z.of_N 0 - Z.of_N 0 + Z.of_N 0))) with n by lia.
  cbn [N.add]. rewrite dropN_0. destruct (takeN n q); reflexivity.
Qed.
Lemma takeN_nil_inv {X} n (l : list X) : 0 < n -> takeN n l = [] -> l = [].
Proof. intros Hn H. apply (f_equal lenN) in H. rewrite lenN_takeN in H. destruct l; [reflexivity|]. unfold lenN in H. cbn [length] in H. lia. Qed.

Lemma prefetch_pre q m r1 : expect q (prefetch_len m) {| buf := []; off := 0; skipped := 0; pulled := 0 |} = Ok r1 ->
  Pre q r1 /\ off r1 = 0 /\ buf r1 = takeN (prefetch_len m) q.
Proof.
  pose proof (prefetch_len_ge m) as Hpf. rewrite expect_init by lia.
  destruct (takeN (prefetch_len m) q) as [|x l] eqn:E; [discriminate|]. intros [= <-]. rewrite <- E. cbn [buf off].
  split; [split; [reflexivity|apply pre_takeN]|]. split; reflexivity.
Qed.

Lemma check_cache_prefetch m q : MemoOK m -> check_cache m (takeN (prefetch_len m) q) = check_cache m q.
Proof.
  unfold check_cache. destruct m as [c|]; [|reflexivity]. intros [Hs [Hl _]].
  unfold prefetch_len. rewrite Hs, !py_slice_0.
  rewrite takeN_takeN_le; [reflexivity|]. destruct (m_end c =? 0) eqn:E; lia.
Qed.
(* a hit means the hashed slice, hence the memoised end offset, lies inside the buffer *)
Lemma check_cache_hit_len m q c : MemoOK m -> check_cache m q = Some c -> m_end c <= lenN q.
Proof.
  unfold check_cache. destruct m as [c'|]; [|discriminate]. intros [Hs [Hl _]].
  destruct (bytes_eqb (m_slice c') (py_slice (m_start c') (m_end c') q)) eqn:E; [|discriminate]. intros [= <-].
  apply bytes_eqb_eq, (f_equal lenN) in E. unfold py_slice in E. rewrite Hl, Hs, lenN_takeN, lenN_dropN in E. lia.
Qed.

(* Pose.read on a stream up to the body decoder: the prefetch, the memo lookup in the prefetched bytes and, on a
   miss, the header parse.  Yields the header, the reader the body decoder starts from, and the memo left. *)
Definition stream_start (m : option memo) (q : bytes) : result (header * sreader * option memo) :=
  match expect q (prefetch_len m) {| buf := []; off := 0; skipped := 0; pulled := 0 |} with
  | Err e => Err e
  | Ok r1 =>
      match check_cache m (buf r1) with
      | Some c => Ok (m_header c, {| buf := buf r1; off := m_end c; skipped := skipped r1; pulled := pulled r1 |}, m)
      | None =>
          match run_stream q rd_header r1 with
          | Err e => Err e
          | Ok (h, r2) =>
              Ok (h, r2, Some {| m_start := 0; m_end := off r2; m_slice := py_slice 0 (off r2) (buf r2); m_header := h |})
          end
      end
  end.
(* ... and from there on, for a body decoder [run]: [run_stream] of the body program here, C04_Handoff.run_stream4 for
   the legacy hand-off *)
Definition read_from_start (m : option memo) (q : bytes) (run : header -> sreader -> result (body * sreader))
  : result pose * option memo * N :=
  match stream_start m q with
  | Err e => (Err e, m, 0)
  | Ok (h, sr, m') =>
      match run h sr with
      | Ok (b, r3) => (Ok {| p_header := h; p_body := b |}, m', pulled r3)
      | Err e => (Err e, m', 0)
      end
  end.

Lemma read_stream_start legacy m q a : any_arg a = true ->
  read_stream legacy m q a = read_from_start m q (fun h => run_stream q (read_body legacy h a)).
Proof.
  intros Ha. unfold read_stream, read_from_start, stream_start. rewrite Ha. cbn [negb].
  destruct (expect q (prefetch_len m) _) as [r1|e]; [|reflexivity].
  destruct (check_cache m (buf r1)) as [c|]; [reflexivity|].
  destruct (run_stream q rd_header r1) as [[h r2]|e]; reflexivity.
Qed.

Lemma stream_start_ok m q h o : MemoOK m ->
  run_plain rd_header {| pbuf := q; poff := 0 |} = Ok (h, {| pbuf := q; poff := o |}) ->
  exists sr, Pre q sr /\ off sr = o /\ o <= lenN (buf sr) /\ pulled sr <= prefetch_len m + o /\
    stream_start m q = Ok (h, sr, memo_after m q h o).
Proof.
  intros Hm Hh. unfold stream_start, memo_after.
  pose proof (prefetch_len_ge m) as Hpf. rewrite expect_init by lia.
  destruct (takeN (prefetch_len m) q) as [|x l] eqn:E.
  { apply takeN_nil_inv in E; [|lia]. subst q. cbn in Hh. discriminate. }
  rewrite <- E. cbn [buf skipped pulled]. rewrite (check_cache_prefetch m q Hm).
  assert (HP1 : Pre q {| buf := takeN (prefetch_len m) q; off := 0; skipped := 0; pulled := lenN (takeN (prefetch_len m) q) |})
    by (split; [reflexivity|apply pre_takeN]).
  destruct (check_cache m q) as [c|] eqn:Hc.
  - destruct (check_cache_hit m q c Hm Hc) as [-> Hhd]. rewrite Hh in Hhd. injection Hhd as -> ->.
    pose proof (check_cache_hit_len _ _ _ Hm Hc) as Hle.
    exists {| buf := takeN (prefetch_len (Some c)) q; off := m_end c; skipped := 0;
              pulled := lenN (takeN (prefetch_len (Some c)) q) |}.
    split; [exact HP1|]. split; [reflexivity|]. cbn [buf pulled]. rewrite lenN_takeN.
    split; [unfold prefetch_len in *; destruct (m_end c =? 0) eqn:E0; lia|]. split; [lia|reflexivity].
  - destruct (pre_fwd q rd_header _ 0 h _ v2prog_rd_header HP1 eq_refl (N.le_0_l _) Hh) as [r2 [Hrs [[_ [Ho2 HI2]] Hpc]]].
    rewrite Hrs. cbn [poff] in Ho2. subst o.
    pose proof (pre_run q _ noSkip_rd_header _ _ _ HP1 Hrs) as HP2.
    assert (Hl2 : off r2 <= lenN (buf r2)) by (destruct HP2 as [Hs2 _]; destruct HI2 as [_ [j [_ [Hi _]]]]; lia).
    exists r2. split; [exact HP2|]. split; [reflexivity|]. split; [exact Hl2|].
    split; [unfold consumed in Hpc; cbn [off skipped pulled] in Hpc; rewrite lenN_takeN in Hpc; lia|].
    now rewrite (pre_slice q r2 _ HP2 Hl2).
Qed.

(* ... and on a truncated stream [q] of a file [q ++ s] whose header parses: if the start succeeds at all, it found
   that header and stands where the plain reader of the whole file stands *)
Lemma stream_start_prefix m q s h o h' sr m' : MemoOK m ->
  run_plain rd_header {| pbuf := q ++ s; poff := 0 |} = Ok (h, {| pbuf := q ++ s; poff := o |}) ->
  stream_start m q = Ok (h', sr, m') -> h' = h /\ Sim q s {| pbuf := q ++ s; poff := o |} sr.
Proof.
  intros Hm Hh. unfold stream_start.
  destruct (expect q (prefetch_len m) _) as [r1|e] eqn:Hex; [|discriminate].
  destruct (prefetch_pre q m r1 Hex) as [HP [Ho Hbuf]].
  destruct (check_cache m (buf r1)) as [c|] eqn:Hc.
  - (* hit: the prefetched bytes start with the memoised slice, so does the whole file *)
    intros [= <- <- _]. destruct (check_cache_hit m (buf r1) c Hm Hc) as [_ Hrun].
    apply (run_plain_ext _ noBL_rd_header _ (dropN (prefetch_len m) q ++ s)) in Hrun.
    rewrite Hbuf, app_assoc, take_drop_split, Hh in Hrun. injection Hrun as -> ->.
    split; [reflexivity|]. split; [reflexivity|]. split; [reflexivity|].
    apply pre_inv; [exact HP|exact (check_cache_hit_len m (buf r1) c Hm Hc)].
  - assert (HS : Sim q s {| pbuf := q ++ s; poff := 0 |} r1)
      by (split; [reflexivity|split; [now rewrite Ho|apply pre_inv; [exact HP|lia]]]).
    pose proof (sim_fwd q s _ v2prog_rd_header _ _ _ _ HS Hh) as Hsim.
    destruct (run_stream q rd_header r1) as [[h2 r2]|e]; [|discriminate]. intros [= <- <- _].
    destruct Hsim as [-> [HS2 _]]. exact (conj eq_refl HS2).
Qed.

Section WithLegacy.
Variable legacy : vclass -> header -> rargs -> prog body.

Lemma stream_handoff m q a h o : MemoOK m -> any_arg a = true ->
  run_plain rd_header {| pbuf := q; poff := 0 |} = Ok (h, {| pbuf := q; poff := o |}) ->
  exists sr, Pre q sr /\ off sr = o /\ o <= lenN (buf sr) /\ pulled sr <= prefetch_len m + o /\
    read_stream legacy m q a =
      match run_stream q (read_body legacy h a) sr with
      | Ok (b, r3) => (Ok {| p_header := h; p_body := b |}, snd (read_bytes legacy m q a), pulled r3)
      | Err e => (Err e, snd (read_bytes legacy m q a), 0)
      end.
Proof.
  intros Hm Ha Hh. destruct (stream_start_ok m q h o Hm Hh) as [sr [HP [Ho [Hl [Hp E]]]]].
  exists sr. rewrite (read_bytes_at_header legacy m q a h o Hm Hh), (read_stream_start legacy m q a Ha).
  unfold read_from_start. rewrite E. auto.
Qed.

Theorem read_stream_as_bytes m q a pose :
  MemoOK m -> any_arg a = true ->
  (forall h r, run_plain rd_header {| pbuf := q; poff := 0 |} = Ok (h, r) -> v2prog (read_body legacy h a)) ->
  fst (read_bytes legacy m q a) = Ok pose ->
  fst (fst (read_stream legacy m q a)) = Ok pose /\ snd (fst (read_stream legacy m q a)) = snd (read_bytes legacy m q a).
Proof.
  intros Hm Ha Hv Hok.
  assert (Hh : exists h o, run_plain rd_header {| pbuf := q; poff := 0 |} = Ok (h, {| pbuf := q; poff := o |})).
  { unfold read_bytes in Hok. destruct (check_cache m q) as [c|] eqn:Hc.
    - destruct (check_cache_hit m q c Hm Hc) as [_ Hhd]. eauto.
    - destruct (run_plain rd_header {| pbuf := q; poff := 0 |}) as [[h [b o]]|e] eqn:Hh; [|discriminate].
      apply run_plain_buf in Hh as Hb. cbn [pbuf] in Hb. subst b. eauto. }
  destruct Hh as [h [o Hh]].
  destruct (stream_handoff m q a h o Hm Ha Hh) as [sr [HP [Ho [Hl [_ ->]]]]].
  rewrite (read_bytes_at_header legacy m q a h o Hm Hh) in Hok. cbn [fst] in Hok.
  destruct (run_plain (read_body legacy h a) _) as [[b pr']|e] eqn:Hb; [|discriminate]. injection Hok as <-.
  destruct (pre_fwd q _ sr o b pr' (Hv h _ Hh) HP Ho Hl Hb) as [sr' [-> _]]. split; reflexivity.
Qed.
End WithLegacy.
