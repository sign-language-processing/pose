(* C09 - non-interference, continued: normalisation on a TensorFlow body (model/C09_TfNorm.v).
   MaskedTensor.mean / variance / std read the stored values only through zero_filled() and the mask, so they are
   functions of the visible part; everything else is arithmetic whose result is missing wherever an operand is. *)
From Coq Require Import List Arith Bool Lia.
Require Import Tensor Num Result C09_Masked C09_Ops C09_TfNorm C09_Core C09_NI C09_NI2.
Import ListNotations.

Section NI3.
Variable O : ops.
Notation T := (Num.T O).
Notation cell := (cell O).
Notation vis1 := (vis1 O).
Notation rd := (rd O).
Notation rdT := (rdT O).
Notation dcell := (dcell O).
Notation agree := (agree O).
Notation agree_l := (agree_l O).
Notation body := (body O).

Lemma VC1_tffixnan : VC1 O (tffixnan O).
Proof. apply VC1_strict. intros a M. exact M. Qed.
(* mean: the sum runs over the zero-filled values, the count over the mask *)
Lemma VIL_tfmean : VIL O (tfmean O).
Proof. intros l l' H. unfold tfmean. now rewrite (map_VI1 O _ _ _ (VI1_tzero O) H), (VIL_count O _ _ H). Qed.
Lemma VIL_tfvariance : VIL O (tfvariance O).
Proof. intros l l' H. unfold tfvariance. rewrite (VIL_tfmean _ _ H). apply VIL_tfmean.
  apply agree_l_map; [apply VC1_tun|]. apply agree_l_map; [apply VC1_left, VC2_tbin|exact H]. Qed.
Lemma VIL_tfstd : VIL O (tfstd O).
Proof. intros l l' H. unfold tfstd. now rewrite (VIL_tfvariance _ _ H). Qed.
Hint Resolve VIL_tfmean VIL_tfstd : ni.
(* a statistic is missing exactly when its lane holds no valid cell *)
Lemma tfmean_missing l : snd (tfmean O l) = Nat.eqb (count O l) 0.
Proof. reflexivity. Qed.
Lemma count_deviations m l :
  count O (map (tun O (sqr O)) (map (fun c => tbin O (sub O) c m) l)) = if snd m then 0 else count O l.
Proof. unfold count. induction l as [|c l IH]; [now destruct (snd m)|]. cbn [map filter].
  change (snd (tun O (sqr O) (tbin O (sub O) c m))) with (snd c || snd m).
  destruct (snd c), (snd m); cbn [orb negb length] in *; now rewrite IH. Qed.
Lemma tfstd_missing l : snd (tfstd O l) = Nat.eqb (count O l) 0.
Proof. unfold tfstd, tfvariance, tun; cbn [snd]. rewrite tfmean_missing, count_deviations, tfmean_missing.
  destruct (Nat.eqb (count O l) 0) eqn:En; [reflexivity|exact En]. Qed.

Lemma tf_normalize_ni p1 p2 sf b b' : agree_body O b b' ->
  agree_body O (tf_normalize O p1 p2 sf b) (tf_normalize O p1 p2 sf b').
Proof. intros H. destruct (agree_body_inv O _ _ H) as (s0 & l & l' & c & -> & -> & Hl). unfold tf_normalize.
  cbn [bdat bconf]. set (a := mkT s0 l). set (a' := mkT s0 l'). change (shape a') with (shape a).
  assert (Hd : agree a a') by (apply agree_mkT, Hl). clearbody a a'. set (s := shape a). set (D := dimn s 3). set (PF := dimn s 1 * dimn s 0).
  (* the centre is a function of the visible part *)
  assert (Hcen : red_lead O PF D (tfmean O) (ew1 O (tun O (fun x => div O x (two O)))
                   (ew O (tbin O (add O)) (point_block O a p2) (point_block O a p1))) =
                 red_lead O PF D (tfmean O) (ew1 O (tun O (fun x => div O x (two O)))
                   (ew O (tbin O (add O)) (point_block O a' p2) (point_block O a' p1)))).
  { auto 6 with ni nocore. }
  rewrite <- Hcen. set (center := red_lead O PF D _ _).
  (* so is the mean distance *)
  assert (Hmd : tfmean O (ew1 O (tun O (sqrt O)) (red_last O PF D (tsum O)
                   (ew1 O (tun O (sqr O)) (ew O (tbin O (sub O)) (point_block O a p1) (point_block O a p2))))) =
                tfmean O (ew1 O (tun O (sqrt O)) (red_last O PF D (tsum O)
                   (ew1 O (tun O (sqr O)) (ew O (tbin O (sub O)) (point_block O a' p1) (point_block O a' p2)))))).
  { apply VIL_tfmean. auto with ni nocore. }
  rewrite <- Hmd. auto 6 with ni nocore. Qed.

Lemma tf_normalize_distribution_ni lead b b' : agree_body O b b' ->
  agree_body O (fst (tf_normalize_distribution O lead b)) (fst (tf_normalize_distribution O lead b')) /\
  snd (tf_normalize_distribution O lead b) = snd (tf_normalize_distribution O lead b').
Proof. intros H. destruct (agree_body_inv O _ _ H) as (s & l & l' & c & -> & -> & Hl).
  unfold tf_normalize_distribution; cbn [fst snd bdat bconf shape data].
  rewrite <- (red_lead_VIL O _ _ _ _ _ VIL_tfmean Hl), <- (red_lead_VIL O _ _ _ _ _ VIL_tfstd Hl).
  split; [auto 6 with ni nocore|reflexivity]. Qed.

Lemma t_unnormalize_distribution_ni mu sd b b' : agree_body O b b' ->
  agree_body O (t_unnormalize_distribution O mu sd b) (t_unnormalize_distribution O mu sd b').
Proof. intros H. destruct (agree_body_inv O _ _ H) as (s & l & l' & c & -> & -> & Hl).
  unfold t_unnormalize_distribution; cbn [bdat bconf shape data]. auto 6 with ni nocore. Qed.
(* masked operands: they may themselves carry garbage under their masks *)
Lemma t_unnormalize_distribution_masked_ni mu mu' sd sd' b b' : agree_l mu mu' -> agree_l sd sd' -> agree_body O b b' ->
  agree_body O (t_unnormalize_distribution_masked O mu sd b) (t_unnormalize_distribution_masked O mu' sd' b').
Proof. intros Hmu Hsd H. destruct (agree_body_inv O _ _ H) as (s & l & l' & c & -> & -> & Hl).
  unfold t_unnormalize_distribution_masked; cbn [bdat bconf shape data]. rewrite <- (agree_l_len O _ _ Hmu). auto 6 with ni nocore. Qed.

End NI3.
