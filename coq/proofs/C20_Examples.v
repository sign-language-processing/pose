(* C20 - the concrete values of the examples in props/C20.v: three masked examples of lengths 1, 0, 2 (the first
   two are the F15 witness), two plain ones, two nested dictionaries. *)
From Coq Require Import List ZArith Arith Bool.
Require Import Result Tensor C20_Collate C20_Spec.
Import ListNotations.
Local Open Scope Z_scope.

Definition ex_a : tl := TM DF32 (mkT [1;2]%nat [1;2]) (mkT [1;2]%nat [true;false]).
Definition ex_b : tl := TM DF32 (mkT [0;2]%nat []) (mkT [0;2]%nat []).
Definition ex_c : tl := TM DF32 (mkT [2;2]%nat [3;4;5;6]) (mkT [2;2]%nat [true;true;false;true]).
Definition ex_p1 : tl := TP DI64 (mkT [0]%nat []).
Definition ex_p2 : tl := TP DI64 (mkT [1]%nat [5]).

Lemma good_batch_f15 : good_batch true [2]%nat 0 [ex_a; ex_b].
Proof. split; [discriminate|]. split; repeat constructor. Qed.

(* dispatch: nested dictionaries, integers, strings *)
Definition k_a : key := [97]. Definition k_b : key := [98]. Definition k_n : key := [110]. Definition k_s : key := [115].
Definition v_of (x : tl) : value := match x with TM dt t m => VMasked dt t m | TP dt t => VPlain dt t end.
Definition ex_d1 : value := VDict [(k_a, VDict [(k_b, v_of ex_a)]); (k_n, VInt 5); (k_s, VStr [120])].
Definition ex_d2 : value := VDict [(k_a, VDict [(k_b, v_of ex_b)]); (k_n, VInt 6); (k_s, VStr [121])].
