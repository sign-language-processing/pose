(* C17 - the textbook definitions the representations are compared with (exact reals).
   Definitions only.  A point / vector is the list of its coordinates. *)
From Coq Require Import Reals List.
Require Import C17_Repr.
Import ListNotations.
Local Open Scope R_scope.

Definition vec := list R.
Definition dot (a b : vec) : R := fold_right Rplus 0 (map2 Rmult a b).
Definition vsub (a b : vec) : vec := map2 Rminus a b.
Definition vaxpy (t : R) (u w : vec) : vec := map2 (fun x y => x - t * y) u w.        (* u - t w *)
Definition norm (a : vec) : R := sqrt (dot a a).
(* Euclidean distance *)
Definition euclid (a b : vec) : R := norm (vsub a b).
(* angle between the X axis and the line through p1 and p2 (the arctangent of its slope) *)
(* [atan] / [acos] are parameters everywhere: the standard library's Ratan.atan / Ratan.acos depend on
   Classical_Prop.classic, which is outside the allowed axioms; the theorems state the properties of the two
   functions they use as hypotheses (range and inverse of tan / cos) *)
Definition xy_angle (atan : R -> R) (p1 p2 : vec) : R :=
  match p1, p2 with
  | x1 :: y1 :: _, x2 :: y2 :: _ => atan ((y2 - y1) / (x2 - x1))
  | _, _ => 0
  end.
(* angle at p2 of the triangle p1 p2 p3: arccosine of the normalised dot product *)
Definition inner_angle (acos : R -> R) (p1 p2 p3 : vec) : R :=
  acos (dot (vsub p1 p2) (vsub p3 p2) / (norm (vsub p1 p2) * norm (vsub p3 p2))).
(* distance from p1 to the line through p2 and p3: distance to the foot p2 + t (p3 - p2) of the
   perpendicular, t = <p1 - p2, p3 - p2> / <p3 - p2, p3 - p2> (theorem point_line_distance_is_least
   in props/C17.v, from pld_is_minimum and pld_perpendicular of proofs/C17_Real.v, shows this is the least distance to a
   point of the line) *)
Definition foot_param (p1 p2 p3 : vec) : R := dot (vsub p1 p2) (vsub p3 p2) / dot (vsub p3 p2) (vsub p3 p2).
Definition point_line_distance (p1 p2 p3 : vec) : R :=
  norm (vaxpy (foot_param p1 p2 p3) (vsub p1 p2) (vsub p3 p2)).
(* distance from p1 to the point p2 + t (p3 - p2) of the line *)
Definition dist_to_line_point (t : R) (p1 p2 p3 : vec) : R := norm (vaxpy t (vsub p1 p2) (vsub p3 p2)).

(* all-valid masked tensors *)
Definition vals {O : Num.ops} (l : list (Num.T O)) : list (mv O) := map (fun r => (r, true)) l.
Definition rvals (l : vec) : list (mv Num.R_ops) := @vals Num.R_ops l.
