(* C20 - vocabulary of the theorems: well-formed homogeneous batches, and what the property statement
   says the collated batch is ([spec_out]), written independently of the code path of the model. *)
From Coq Require Import List ZArith Arith Bool Lia.
Require Import Result Tensor C20_Collate.
Import ListNotations.

(* the total form of [tl_len]: 0 for a tensor without axes *)
Definition len_of (x : tl) : nat := hd 0 (shape (tl_t x)).
(* one example's tensor for a field: kind [masked], trailing shape [tail], values (and validity) well-formed *)
Definition good (masked : bool) (tail : list nat) (x : tl) : Prop :=
  is_masked x = masked /\ shape (tl_t x) = len_of x :: tail /\ wf (tl_t x) /\
  (masked = true -> shape (tl_m x) = shape (tl_t x) /\ wf (tl_m x)).
Definition good_batch (masked : bool) (tail : list nat) (pv : Z) (batch : list tl) : Prop :=
  batch <> [] /\ Forall (good masked tail) batch /\ Forall (fun x => pad_fits (tl_dt x) pv = true) batch.
Definition Lmax (batch : list tl) : nat := list_max (map len_of batch).

Definition out_masked (o : out) : bool := match o with OMasked _ _ _ => true | _ => false end.
Definition out_dt (o : out) : dtype := match o with OMasked dt _ _ => dt | OPlain dt _ => dt | _ => DBool end.
Definition out_t (o : out) : tensor Z := match o with OMasked _ t _ => t | OPlain _ t => t | _ => mkT [] [] end.
Definition out_m (o : out) : tensor bool := match o with OMasked _ _ m => m | _ => mkT [] [] end.

(* row of example x in the collated batch: its cells, then padding cells up to L * prod tail *)
Definition row_of {X} (L P : nat) (n : nat) (cells : list X) (fill : X) : list X := cells ++ repeat fill ((L - n) * P).
Definition padded (masked : bool) (L : nat) (tail : list nat) (pv : Z) (x : tl) : tl :=
  let t := mkT (L :: tail) (row_of L (prod tail) (len_of x) (data (tl_t x)) (pad_val (tl_dt x) pv)) in
  if masked then TM (tl_dt x) t (mkT (L :: tail) (row_of L (prod tail) (len_of x) (data (tl_m x)) false))
  else TP (tl_dt x) t.
Definition spec_out (masked : bool) (tail : list nat) (pv : Z) (batch : list tl) : out :=
  let L := Lmax batch in
  let sh := length batch :: L :: tail in
  let dt := dts (map tl_dt batch) in
  let vals := concat (map (fun x => row_of L (prod tail) (len_of x) (data (tl_t x)) (pad_val (tl_dt x) pv)) batch) in
  if masked
  then OMasked dt (mkT sh vals)
         (mkT sh (concat (map (fun x => row_of L (prod tail) (len_of x) (data (tl_m x)) false) batch)))
  else OPlain dt (mkT sh vals).

(* a shortcut is sound when it is only taken if there is nothing to pad *)
Definition sc_sound (sc : list nat -> nat -> bool) : Prop :=
  forall lens mx, sc lens mx = true -> Forall (fun n => n = mx) lens.

(* fields reached through dictionaries nested in dictionaries *)
Fixpoint get_path (p : list key) (v : value) : option value :=
  match p with
  | [] => Some v
  | k :: p' => match v with
               | VDict kvs => match assoc k kvs with Some x => get_path p' x | None => None end
               | _ => None
               end
  end.
Fixpoint out_path (p : list key) (o : out) : option out :=
  match p with
  | [] => Some o
  | k :: p' => match o with
               | ODict kvs => match assoc k kvs with Some x => out_path p' x | None => None end
               | _ => None
               end
  end.
