(* C12 - tabulated tensors: cells, shapes, bounded quantifiers. *)
From Coq Require Import List Arith Bool Lia.
Require Import ListFacts Result ResultFacts Tensor C12_Model.
Import ListNotations.

Lemma tab_shape {X} ns (g : list nat -> X) : shape (tab ns g) = ns.
Proof. reflexivity. Qed.
Lemma tab_wf {X} ns (g : list nat -> X) : wf (tab ns g).
Proof. unfold wf, tab; cbn. now rewrite map_length, seq_length. Qed.
Lemma tget_tab {X} (d : X) ns g ix : in_range ns ix -> tget d (tab ns g) ix = g ix.
Proof. exact (tget_unravel d ns g ix). Qed.

Lemma get4_tab4 F P T D g f p t d : f < F -> p < P -> t < T -> d < D -> get4 (tab4 F P T D g) f p t d = g f p t d.
Proof. intros. unfold get4, tab4. rewrite tget_tab by (repeat constructor; assumption). reflexivity. Qed.
Lemma get3_tab3 F P T g f p t : f < F -> p < P -> t < T -> get3 (tab3 F P T g) f p t = g f p t.
Proof. intros. unfold get3, tab3. rewrite tget_tab by (repeat constructor; assumption). reflexivity. Qed.
Lemma tab4_shape F P T D g : shape (tab4 F P T D g) = [F; P; T; D]. Proof. reflexivity. Qed.
Lemma tab3_shape F P T g : shape (tab3 F P T g) = [F; P; T]. Proof. reflexivity. Qed.
Lemma tab4_wf F P T D g : wf (tab4 F P T D g). Proof. apply tab_wf. Qed.
Lemma tab3_wf F P T g : wf (tab3 F P T g). Proof. apply tab_wf. Qed.

Lemma all_lt_spec n g : all_lt n g = true <-> (forall i, i < n -> g i = true).
Proof.
  unfold all_lt. rewrite forallb_forall. split.
  - intros H i Hi. apply H. apply in_seq. lia.
  - intros H i Hi. apply in_seq in Hi. apply H. lia.
Qed.
Lemma all_lt_false n g i : i < n -> g i = false -> all_lt n g = false.
Proof.
  intros Hi Hg. destruct (all_lt n g) eqn:E; [|reflexivity].
  rewrite all_lt_spec in E. rewrite (E i Hi) in Hg. discriminate.
Qed.
Lemma all_lt_const n g b : 0 < n -> (forall i, i < n -> g i = b) -> all_lt n g = b.
Proof.
  intros Hn H. destruct b.
  - apply all_lt_spec. exact H.
  - apply (all_lt_false n g 0 Hn). apply H. exact Hn.
Qed.
Lemma forallb_seq_ext (g h : nat -> bool) o n : (forall i, o <= i < o + n -> g i = h i) -> forallb g (seq o n) = forallb h (seq o n).
Proof.
  revert o. induction n as [|n IH]; intros o H; [reflexivity|]. cbn [seq forallb].
  rewrite H by lia. f_equal. apply IH. intros i Hi. apply H. lia.
Qed.
Lemma all_lt_ext n g h : (forall i, i < n -> g i = h i) -> all_lt n g = all_lt n h.
Proof. intros H. apply forallb_seq_ext. intros i Hi. apply H. lia. Qed.
Lemma ex_lt_spec n g : ex_lt n g = true <-> (exists i, i < n /\ g i = true).
Proof.
  unfold ex_lt. rewrite existsb_exists. split.
  - intros [i [Hi Hg]]. apply in_seq in Hi. exists i. split; [lia|exact Hg].
  - intros [i [Hi Hg]]. exists i. split; [apply in_seq; lia|exact Hg].
Qed.
Lemma ex_lt_none n g : (forall i, i < n -> g i = false) -> ex_lt n g = false.
Proof.
  intros H. destruct (ex_lt n g) eqn:E; [|reflexivity].
  apply ex_lt_spec in E. destruct E as [i [Hi Hg]]. rewrite (H i Hi) in Hg. discriminate.
Qed.
