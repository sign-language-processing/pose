(* C13 - reference point lookup by pose format (utils/generic.py:28-54 detect_known_pose_format,
   :115-130 pose_shoulders, :149-151 pose_normalization_info, :154-169 hands_components,
   :172-184 normalize_component_3d; pose_header.py:377-421 _get_point_index / normalization_info).
   Definitions only.  The name tables below are literals; coq/gen/Gen_C13.v regenerates them from the
   source on every run and the *_tie theorems of props/C13.v state that the two are equal. *)
From Coq Require Import List String Ascii NArith Bool Arith.
Require Import Result.
Import ListNotations.
Open Scope string_scope.

Definition name := list N.                                   (* code points *)
Definition of_string (s : string) : name := map N_of_ascii (list_ascii_of_string s).
Fixpoint name_eqb (a b : name) : bool :=
  match a, b with
  | [], [] => true
  | x :: a', y :: b' => N.eqb x y && name_eqb a' b'
  | _, _ => false
  end.
Definition mem (n : name) (l : list name) : bool := existsb (name_eqb n) l.
(* tables are written as strings and converted at definition time ([Eval compute]), so that the extracted
   model contains code point lists only *)
Definition n2 (x : string * string) : name * name := (of_string (fst x), of_string (snd x)).
Definition n3 (x : string * string * string) : name * name * name :=
  (of_string (fst (fst x)), of_string (snd (fst x)), of_string (snd x)).
Record hcomp := { hc_name : name; hc_points : list name }.

(* ---- tables (tied to the source by the *_components_tie / detect_order_tie theorems of props/C13.v) ---- *)
Definition mediapipe_components : list name := Eval compute in map of_string
  ["POSE_LANDMARKS"; "FACE_LANDMARKS"; "LEFT_HAND_LANDMARKS"; "RIGHT_HAND_LANDMARKS"; "POSE_WORLD_LANDMARKS"].
Definition openpose_components : list name := Eval compute in map of_string
  ["pose_keypoints_2d"; "face_keypoints_2d"; "hand_left_keypoints_2d"; "hand_right_keypoints_2d"].
Definition openpose_135_components : list name := Eval compute in map of_string ["BODY_135"].
Inductive fmt := Holistic | OpenPose | OpenPose135.
Definition fmt_name (f : fmt) : string :=
  match f with Holistic => "holistic" | OpenPose => "openpose" | OpenPose135 => "openpose_135" end.
(* the order in which detect_known_pose_format tests one component name *)
Definition detect_order : list (string * fmt) :=
  [("mediapipe_components", Holistic); ("openpose_components", OpenPose); ("openpose_135_components", OpenPose135)].
(* pose_shoulders: format -> ((component, point), (component, point)) *)
Definition shoulders_s (f : fmt) : (string * string) * (string * string) :=
  match f with
  | Holistic => (("POSE_LANDMARKS", "RIGHT_SHOULDER"), ("POSE_LANDMARKS", "LEFT_SHOULDER"))
  | OpenPose135 => (("BODY_135", "RShoulder"), ("BODY_135", "LShoulder"))
  | OpenPose => (("pose_keypoints_2d", "RShoulder"), ("pose_keypoints_2d", "LShoulder"))
  end.
Definition shoulders (f : fmt) : (name * name) * (name * name) := Eval compute in
  match f with
  | Holistic => (n2 (fst (shoulders_s Holistic)), n2 (snd (shoulders_s Holistic)))
  | OpenPose => (n2 (fst (shoulders_s OpenPose)), n2 (snd (shoulders_s OpenPose)))
  | OpenPose135 => (n2 (fst (shoulders_s OpenPose135)), n2 (snd (shoulders_s OpenPose135)))
  end.
(* hands_components: format -> ((left, right) components, plane point names, line point names) *)
Definition hands_s (f : fmt) : option ((string * string) * (string * string * string) * (string * string)) :=
  match f with
  | Holistic => Some (("LEFT_HAND_LANDMARKS", "RIGHT_HAND_LANDMARKS"),
                      ("WRIST", "PINKY_MCP", "INDEX_FINGER_MCP"), ("WRIST", "MIDDLE_FINGER_MCP"))
  | OpenPose => Some (("hand_left_keypoints_2d", "hand_right_keypoints_2d"), ("BASE", "P_CMC", "I_CMC"), ("BASE", "M_CMC"))
  | OpenPose135 => None
  end.
Definition conv_hands (o : option ((string * string) * (string * string * string) * (string * string)))
  : result ((name * name) * (name * name * name) * (name * name)) :=
  match o with
  | Some (lr, plane, line) => Ok (n2 lr, n3 plane, n2 line)
  | None => Err NotImplemented
  end.
Definition hands (f : fmt) : result ((name * name) * (name * name * name) * (name * name)) := Eval compute in
  match f with
  | Holistic => conv_hands (hands_s Holistic)
  | OpenPose => conv_hands (hands_s OpenPose)
  | OpenPose135 => conv_hands (hands_s OpenPose135)
  end.

(* ---- detect_known_pose_format (generic.py:28-54): first component whose name is in one of the lists ---- *)
Definition classify (n : name) : option fmt :=
  if mem n mediapipe_components then Some Holistic
  else if mem n openpose_components then Some OpenPose
  else if mem n openpose_135_components then Some OpenPose135
  else None.
Fixpoint detect (names : list name) : result fmt :=
  match names with
  | [] => Err Value
  | n :: r => match classify n with Some f => Ok f | None => detect r end
  end.
(* list.index *)
Fixpoint index_of (p : name) (l : list name) : option nat :=
  match l with
  | [] => None
  | x :: r => if name_eqb x p then Some 0 else option_map S (index_of p r)
  end.
(* PoseHeader._get_point_index (pose_header.py:377-386) *)
Fixpoint get_point_index (h : list hcomp) (c p : name) (idx : nat) : result nat :=
  match h with
  | [] => Err Value
  | x :: r =>
      if name_eqb (hc_name x) c then
        match index_of p (hc_points x) with Some k => Ok (idx + k) | None => Err Value end
      else get_point_index r c p (idx + List.length (hc_points x))
  end.
Definition gpi (h : list hcomp) (cp : name * name) : result nat :=
  get_point_index h (fst cp) (snd cp) 0.
(* pose_normalization_info (generic.py:149-151) *)
Definition pose_normalization_info (h : list hcomp) : result (nat * nat) :=
  do f <- detect (map hc_name h);
  let s := shoulders f in
  do i <- gpi h (fst s);
  do j <- gpi h (snd s);
  Ok (i, j).
(* normalize_hands_3d / normalize_component_3d (generic.py:172-197): indices are looked up in the header of
   pose.get_components([component]) - the components of that name only *)
Definition component_3d_info (h : list hcomp) (cname : name) (plane : name * name * name) (line : name * name)
  : result ((nat * nat * nat) * (nat * nat)) :=
  let sub := filter (fun c => name_eqb (hc_name c) cname) h in
  do a <- gpi sub (cname, fst (fst plane));
  do b <- gpi sub (cname, snd (fst plane));
  do c <- gpi sub (cname, snd plane);
  do d <- gpi sub (cname, fst line);
  do e <- gpi sub (cname, snd line);
  Ok ((a, b, c), (d, e)).
Definition hands_3d_info (h : list hcomp) : result (((nat * nat * nat) * (nat * nat)) * ((nat * nat * nat) * (nat * nat))) :=
  do f <- detect (map hc_name h);
  do t <- hands f;
  let '(lr, plane, line) := t in
  do l <- component_3d_info h (fst lr) plane line;
  do r <- component_3d_info h (snd lr) plane line;
  Ok (l, r).
(* flat list of (component name, point name) in body order: what a point index refers to *)
Definition flat_points (h : list hcomp) : list (name * name) :=
  flat_map (fun c => map (fun p => (hc_name c, p)) (hc_points c)) h.
