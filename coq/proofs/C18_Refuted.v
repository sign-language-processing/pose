(* C18: without the lock the statement is false - witnesses that switch threads only at line boundaries;
   line-level runs are runs; the reference [result_alone] is what the thread model itself returns when it
   runs alone, and for plain readers the pose built from it is Pose.read of PoseRead.v; non-vacuity examples. *)
From Coq Require Import ZArith NArith List Lia Bool.
Require Import ListN Result Bytes Prog Codec PoseRead ProgLemmas StreamIndep C18_Threads C18_Bytes C18_Local C18_Inv.
Import ListNotations.
Open Scope N_scope.

(* three tiny files: version 0.2, dimensions, component count [, one empty component] - headers only *)
Definition fileA : bytes := [205; 204; 76; 62;  1; 0; 1; 0; 0; 0;  0; 0].
Definition fileB : bytes := [205; 204; 76; 62;  2; 0; 1; 0; 0; 0;  0; 0].
Definition fileC : bytes := [205; 204; 76; 62;  1; 0; 1; 0; 0; 0;  1; 0;  0; 0; 0; 0; 0; 0; 0; 0; 0; 0].
Definition jb (f : bytes) : job := {| j_stream := false; j_file := f; j_args := no_args |}.
Definition pf0 := prefetch 10240 100.

(* thread 0 (file A, memo warm with A) passes the hash comparison (pose_header.py:248/241); thread 1 reads
   file B completely, storing B's header; thread 0 resumes at line 249 and returns B's header *)
Definition sched_foreign_header : list nat := [0; 0; 0; 0;  1; 1; 1; 1; 1; 1; 1; 1; 1;  0; 0]%nat.
(* ... or thread 0 is resumed at line 323 after thread 1 stored C's end offset: own header, C's offset *)
Definition sched_foreign_offset : list nat := [0; 0; 0; 0; 0;  1; 1; 1; 1; 1; 1; 1; 1; 1;  0]%nat.

Lemma refuted_foreign_header :
  let st := lrun pf0 false [jb fileA; jb fileB] sched_foreign_header (init [jb fileA; jb fileB] (memo_after fileA)) in
  complete st = true /\ result_of st 0 <> Some (result_alone (jb fileA)) /\
  result_of st 0 = Some (result_alone (jb fileB)).
Proof. vm_compute. split; [reflexivity|]. split; [intros H; discriminate H|reflexivity]. Qed.

Example locked_same_schedules :
  let st1 := lrun pf0 true [jb fileA; jb fileB] (sched_foreign_header ++ [0; 1; 0; 1; 1; 1; 1; 1; 1; 1; 1; 1; 1; 1; 1; 1]%nat)
               (init [jb fileA; jb fileB] (memo_after fileA)) in
  complete st1 = true /\ result_of st1 0 = Some (result_alone (jb fileA)) /\ result_of st1 1 = Some (result_alone (jb fileB)).
Proof. vm_compute. repeat split. Qed.

Section LineLevel.
Variable pf : option N -> N.
Variable locked : bool.
Variable jobs : list job.

Lemma run_app s1 s2 st : run pf locked jobs (s1 ++ s2) st = run pf locked jobs s2 (run pf locked jobs s1 st).
Proof. unfold run. apply fold_left_app. Qed.

Lemma to_line_run t fuel : forall st, exists k, to_line pf locked fuel jobs t st = run pf locked jobs (repeat t k) st.
Proof.
  induction fuel as [|f IH]; intros st; cbn [to_line]; [exists 0%nat; reflexivity|].
  destruct (nth_error (st_pcs st) t) as [p|]; [|exists 0%nat; reflexivity].
  destruct (line_start p); [exists 0%nat; reflexivity|].
  destruct (IH (step pf locked jobs t st)) as [k Hk]. exists (S k). rewrite Hk. reflexivity.
Qed.

Lemma lrun_is_run lsched : forall st, exists sched, lrun pf locked jobs lsched st = run pf locked jobs sched st.
Proof.
  induction lsched as [|t r IH]; intros st; [exists []; reflexivity|].
  unfold lrun. cbn [fold_left]. fold (lrun pf locked jobs r (lstep pf locked jobs t st)).
  destruct (IH (lstep pf locked jobs t st)) as [s' Hs']. rewrite Hs'.
  unfold lstep. destruct (to_line_run t 3 (step pf locked jobs t st)) as [k Hk]. rewrite Hk.
  exists ((t :: repeat t k) ++ s'). rewrite run_app. reflexivity.
Qed.
End LineLevel.

Lemma run_solo pf j sched s p :
  run pf true [j] (0%nat :: sched) {| st_sh := s; st_pcs := [p] |} =
  run pf true [j] sched {| st_sh := fst (tstep pf true j 0 p s); st_pcs := [snd (tstep pf true j 0 p s)] |}.
Proof. unfold run, step. cbn [fold_left nth_error st_pcs st_sh]. now destruct (tstep pf true j 0 p s). Qed.

(* the thirteen steps of a miss on an empty memo, one at a time; the run is cut short where the prefetch or the parse fails *)
Theorem alone_run pf j :
  let st := run pf true [j] (repeat 0%nat 13) (init [j] g_empty) in
  complete st = true /\ result_of st 0 = Some (result_alone j).
Proof.
  assert (Hc : complete (run pf true [j] (repeat 0%nat 13) (init [j] g_empty)) = true).
  { unfold init. cbn [repeat map].
    rewrite run_solo. cbn [tstep fst snd sh_memo g_end g_empty].
    destruct (lookup_buffer pf j None) as [b|e]; [|reflexivity].
    do 3 (rewrite run_solo; cbn [tstep fst snd sh_memo sh_lock g_hash g_empty with_lock miss]).
    unfold after_miss. destruct (parse_own j b) as [[[h e] b']|e]; [|reflexivity].
    do 9 (rewrite run_solo; cbn [tstep fst snd sh_lock with_lock with_memo]).
    reflexivity. }
  split; [exact Hc|].
  exact (isolated_locked pf [j] g_empty (repeat 0%nat 13) good_empty Hc 0%nat j eq_refl).
Qed.

(* results up to the class of the exception *)
Definition req {A} (a b : result A) : Prop :=
  match a, b with Ok x, Ok y => x = y | Err _, Err _ => True | _, _ => False end.

Lemma pose_from_alone j :
  req (pose_from j (result_alone j)) (fst (read_bytes no_legacy None (j_file j) (j_args j))).
Proof.
  unfold result_alone, read_bytes. cbn [check_cache]. destruct (parse (j_file j)) as [[h e]|] eqn:E.
  - rewrite (parse_some _ _ _ E). apply same_outcome_refl.
  - unfold parse in E. destruct (run_plain rd_header _) as [[h r]|e]; [discriminate|exact I].
Qed.

Example good_nonempty : Good (memo_after fileA) /\ g_hash (memo_after fileA) <> None.
Proof. split; [apply good_memo_after|]. vm_compute. discriminate. Qed.
Example alone_distinct : result_alone (jb fileA) <> result_alone (jb fileB) /\ result_alone (jb fileA) <> RFail.
Proof. vm_compute. split; intros H; discriminate H. Qed.
(* three threads (a hit, two misses with different header lengths), an interleaved complete schedule *)
Example isolated_nonvacuous :
  let jobs := [jb fileA; jb fileC; jb fileB] in
  let sched := concat (repeat [0; 1; 2; 2; 1; 0; 1] 20)%nat in
  complete (run pf0 true jobs sched (init jobs (memo_after fileA))) = true.
Proof. vm_compute. reflexivity. Qed.
