(* C05: stepping lemmas for binary-parser schemas over a buffer  pre ++ encoding ++ post . *)
From Coq Require Import ZArith NArith List Lia ZifyBool ZifyN ZifyNat Bool.
Require Import ListN Result Bytes Utf8 Utf8S F32 Prog Codec ProgLemmas CodecRT C05_JsParser.
Import ListNotations.
Open Scope N_scope.

Lemma lenN_app3 {X} (a b c : list X) : lenN (a ++ b ++ c) = lenN a + lenN b + lenN c.
Proof. rewrite !lenN_app. lia. Qed.

(* DataView.getX(offset, true) at the end of [pre]: size of the field and the value decoded from the bytes that follow *)
Definition fld_size (k : fkind) : N := match k with KU16 | KI16 => 2 | KU32 | KF32 => 4 end.
Definition fld_val (k : fkind) (b : bytes) : value :=
  match k with
  | KU16 => VNum (Z.of_N (dec_u16 b)) | KI16 => VNum (dec_i16 b)
  | KU32 => VNum (Z.of_N (dec_u32 b)) | KF32 => VF32 (dec_u32 b)
  end.
Lemma run_fld k name rest vars pre e post : lenN e = fld_size k ->
  run true (Fld k name rest) vars (pre ++ e ++ post) (lenN pre)
  = run true rest (obj_set vars name (fld_val k (e ++ post))) ((pre ++ e) ++ post) (lenN (pre ++ e)).
Proof.
  intros He. cbn [run]. unfold rd_field. cbv zeta. change (match k with KU16 | KI16 => 2 | _ => 4 end) with (fld_size k).
  destruct (N.leb_spec (lenN pre + fld_size k) (lenN (pre ++ e ++ post))) as [_|H]; [|rewrite lenN_app3 in H; lia].
  rewrite drop_pre, lenN_app, He, <- app_assoc. destruct k; reflexivity.
Qed.
Lemma run_u16 k rest vars pre n post : n < 65536 ->
  run true (Fld KU16 k rest) vars (pre ++ enc_u16 n ++ post) (lenN pre)
  = run true rest (obj_set vars k (VNum (Z.of_N n))) ((pre ++ enc_u16 n) ++ post) (lenN (pre ++ enc_u16 n)).
Proof. intros Hn. rewrite (run_fld KU16) by apply enc_u16_len. cbn [fld_val]. now rewrite u16_rt. Qed.
Lemma run_u32 k rest vars pre n post : n < 4294967296 ->
  run true (Fld KU32 k rest) vars (pre ++ enc_u32 n ++ post) (lenN pre)
  = run true rest (obj_set vars k (VNum (Z.of_N n))) ((pre ++ enc_u32 n) ++ post) (lenN (pre ++ enc_u32 n)).
Proof. intros Hn. rewrite (run_fld KU32) by apply enc_u32_len. cbn [fld_val]. now rewrite u32_rt. Qed.
Lemma run_f32 k rest vars pre n post : n < 4294967296 ->
  run true (Fld KF32 k rest) vars (pre ++ enc_u32 n ++ post) (lenN pre)
  = run true rest (obj_set vars k (VF32 n)) ((pre ++ enc_u32 n) ++ post) (lenN (pre ++ enc_u32 n)).
Proof. intros Hn. rewrite (run_fld KF32) by apply enc_u32_len. cbn [fld_val]. now rewrite u32_rt. Qed.
Lemma eval_len_var vars lk n : get_num vars lk = Some (Z.of_N n) -> eval_len vars (LenVar lk) = Some n.
Proof. intros H. unfold eval_len. rewrite H. destruct (Z.ltb_spec (Z.of_N n) 0); [lia|]. f_equal. lia. Qed.
Lemma run_str k lk rest vars pre b post s :
  get_num vars lk = Some (Z.of_N (lenN b)) -> dec_utf8 b = Some s ->
  run true (Str k (LenVar lk) rest) vars (pre ++ b ++ post) (lenN pre)
  = run true rest (obj_set vars k (VStr (strip_bom s))) ((pre ++ b) ++ post) (lenN (pre ++ b)).
Proof.
  intros Hl Hd. cbn [run]. rewrite (eval_len_var _ _ _ Hl). rewrite take_mid, Hd.
  rewrite lenN_app, <- app_assoc. reflexivity.
Qed.
Lemma run_seek n rest vars buf off : run true (Seek n rest) vars buf off = run true rest vars buf (off + n).
Proof. reflexivity. Qed.

(* an element schema run on its encoding, anywhere in a buffer *)
Definition RS (s : schema) (e : bytes) (o : obj) : Prop :=
  forall pre post, run true s [] (pre ++ e ++ post) (lenN pre) = Some (o, lenN (pre ++ e)).
Lemma rep_RS elem es os : Forall2 (RS elem) es os -> forall pre post,
  rep (fun o => run true elem [] (pre ++ concat es ++ post) o) (length os) (lenN pre) = Some (os, lenN (pre ++ concat es)).
Proof.
  induction 1 as [|e o es os He _ IH]; intros pre post; cbn [rep length concat].
  - now rewrite app_nil_r.
  - rewrite <- app_assoc. rewrite (He pre (concat es ++ post)).
    specialize (IH (pre ++ e) post). rewrite <- !app_assoc in IH. rewrite IH. reflexivity.
Qed.
Lemma eval_len_const vars n : eval_len vars (LenConst (Z.of_N n)) = Some n.
Proof. cbn [eval_len]. destruct (Z.ltb_spec (Z.of_N n) 0); [lia|]. f_equal. lia. Qed.
Lemma run_arr k elem len f rest vars pre es os post :
  Forall2 (RS elem) es os -> eval_len vars len = Some (lenN os) ->
  run true (Arr k elem len f rest) vars (pre ++ concat es ++ post) (lenN pre)
  = run true rest (obj_set vars k (apply_fmt f os)) ((pre ++ concat es) ++ post) (lenN (pre ++ concat es)).
Proof.
  intros HF Hl. cbn [run]. rewrite Hl, to_nat_lenN.
  rewrite (rep_RS _ _ _ HF pre post). rewrite <- app_assoc. reflexivity.
Qed.
Lemma RS_all {A} (R : A -> bytes -> Prop) s (js : A -> obj) : (forall a e, R a e -> RS s e (js a)) ->
  forall l es, Forall2 R l es -> Forall2 (RS s) es (map js l).
Proof. intros H l es HF. induction HF as [|a e l es Ha _ IH]; cbn [map]; constructor; [now apply H|exact IH]. Qed.
Lemma RS_map {A} (P : A -> Prop) s (enc : A -> bytes) (js : A -> obj) : (forall a, P a -> RS s (enc a) (js a)) ->
  forall l, Forall P l -> Forall2 (RS s) (map enc l) (map js l).
Proof. intros H l HF. induction HF as [|a l Ha _ IH]; cbn [map]; constructor; [now apply H|exact IH]. Qed.
Lemma RS_done_intro s e o :
  (forall pre post, run true s [] (pre ++ e ++ post) (lenN pre) = Some (o, lenN (pre ++ e))) -> RS s e o.
Proof. exact (fun H => H). Qed.

Definition js_limb_obj (l : N * N) : obj := [(k_from, VNum (Z.of_N (fst l))); (k_to, VNum (Z.of_N (snd l)))].
Lemma RS_limb (l : Z * Z) e : pack_u16s [fst l; snd l] = Ok e -> RS limb_schema e (js_limb_obj (limbN l)).
Proof.
  intros H. apply pack_u16s_ok in H. destruct H as [HF ->].
  rewrite !Forall_cons_iff in HF. destruct HF as [Ha [Hb _]].
  intros pre post. unfold limb_schema. cbn [flat_map]. rewrite app_nil_r. rewrite <- !app_assoc.
  rewrite run_u16 by exact Ha. rewrite run_u16 by exact Hb.
  cbn [run]. rewrite <- !app_assoc. reflexivity.
Qed.
Definition js_color_obj (c : N * N * N) : obj :=
  [(k_R, VNum (Z.of_N (fst (fst c)))); (k_G, VNum (Z.of_N (snd (fst c)))); (k_B, VNum (Z.of_N (snd c)))].
Lemma RS_color (c : Z * Z * Z) e : pack_u16s [fst (fst c); snd (fst c); snd c] = Ok e -> RS color_schema e (js_color_obj (colorN c)).
Proof.
  intros H. apply pack_u16s_ok in H. destruct H as [HF ->].
  rewrite !Forall_cons_iff in HF. destruct HF as [Ha [Hb [Hc _]]].
  intros pre post. unfold color_schema. cbn [flat_map]. rewrite app_nil_r. rewrite <- !app_assoc.
  rewrite run_u16 by exact Ha. rewrite run_u16 by exact Hb. rewrite run_u16 by exact Hc.
  cbn [run]. rewrite <- !app_assoc. reflexivity.
Qed.
