(* C13 - normalize_distribution / unnormalize_distribution over the reals, for an arbitrary grouping [key] of the
   cells and any broadcast key that agrees with it at the positions of the cells (reducing over a leading
   block of axes: both are i mod G). *)
From Coq Require Import Reals List Lra Lia Arith Bool.
Require Import ListFacts Num RealFacts C13_Normalize C13_RBase.
Import ListNotations.
Open Scope R_scope.

Notation rcell := (C13_Normalize.cell R_ops).
Notation rgvals := (gvals R_ops).

Fixpoint iForall {A} (P : nat -> A -> Prop) (i : nat) (l : list A) : Prop :=
  match l with [] => True | a :: r => P i a /\ iForall P (S i) r end.
Lemma iForall_nth {A} (P : nat -> A -> Prop) l : forall i,
  (forall k a, nth_error l k = Some a -> P (i + k)%nat a) -> iForall P i l.
Proof. induction l as [|a l IH]; intros i H; [exact I|]. split.
  - specialize (H 0%nat a eq_refl). rewrite Nat.add_0_r in H. exact H.
  - apply IH. intros k x Hk. specialize (H (S k) x Hk). rewrite Nat.add_succ_r in H. exact H. Qed.
Lemma iForall_imp {A} (P Q : nat -> A -> Prop) l : forall i,
  (forall k a, P k a -> Q k a) -> iForall P i l -> iForall Q i l.
Proof. induction l as [|a l IH]; intros i H HP; [exact I|]. destruct HP as [H1 H2]. split; [apply H; exact H1|apply IH; assumption]. Qed.
Lemma imap_ext_i {A B} (f g : nat -> A -> B) l : forall i,
  iForall (fun k a => f k a = g k a) i l -> imap f i l = imap g i l.
Proof. induction l as [|a l IH]; intros i H; [reflexivity|]. destruct H as [H1 H2]. cbn [imap]. rewrite H1, (IH _ H2). reflexivity. Qed.
Lemma imap_imap {A B C} (f : nat -> B -> C) (g : nat -> A -> B) l : forall i,
  imap f i (imap g i l) = imap (fun k a => f k (g k a)) i l.
Proof. induction l as [|a l IH]; intros i; [reflexivity|]. cbn [imap]. rewrite IH. reflexivity. Qed.
Lemma map_imap {A B C} (f : B -> C) (g : nat -> A -> B) l : forall i, map f (imap g i l) = imap (fun k a => f (g k a)) i l.
Proof. induction l as [|a l IH]; intros i; [reflexivity|]. cbn [imap map]. rewrite IH. reflexivity. Qed.
Lemma map_as_imap {A B} (f : A -> B) l : forall i, map f l = imap (fun _ a => f a) i l.
Proof. induction l as [|a l IH]; intros i; [reflexivity|]. cbn [imap map]. rewrite (IH (S i)). reflexivity. Qed.

Section Key.
Variable key : nat -> nat.
Lemma gvals_in cs : forall i k (c : rcell), nth_error cs k = Some c -> cm c = false ->
  In (cv c) (rgvals key (key (i + k)%nat) i cs).
Proof. induction cs as [|a cs IH]; intros i k c Hk Hc; [destruct k; discriminate|]. destruct k as [|k].
  - injection Hk as ->. cbn [gvals]. rewrite Nat.add_0_r, Nat.eqb_refl, Hc. left. reflexivity.
  - cbn [nth_error] in Hk. cbn [gvals]. rewrite Nat.add_succ_r. change (S (i + k)) with (S i + k)%nat.
    destruct (Nat.eqb (key i) (key (S i + k)) && negb (cm a)); [right|]; apply IH; assumption. Qed.
Lemma gvals_imap (f : nat -> rcell -> rcell) (h : R -> R) g cs : forall i,
  iForall (fun k c => cm (f k c) = cm c /\ (key k = g -> cm c = false -> cv (f k c) = h (cv c))) i cs ->
  rgvals key g i (imap f i cs) = map h (rgvals key g i cs).
Proof. induction cs as [|a cs IH]; intros i H; [reflexivity|]. destruct H as [[Hm Hv] H]. cbn [imap gvals].
  rewrite Hm. destruct (Nat.eqb (key i) g) eqn:Ek, (cm a) eqn:Ea; cbn [andb negb map]; rewrite ?(IH _ H); try reflexivity.
  f_equal. apply Hv; [apply Nat.eqb_eq; exact Ek|reflexivity]. Qed.

Variable G : nat.
Hypothesis HG : forall i, (key i < G)%nat.
Variable cs : list rcell.
Let mu := fst (stats R_ops key G cs).
Let sd := snd (stats R_ops key G cs).
Definition observed (g : nat) : Prop := rgvals key g 0 cs <> [].
(* broadcasting pairs cell i with entry [bkey i] of the statistics: at the positions of the cells that is the
   entry of the cell's own group, and the group exists *)
Definition aligned_keys (bkey : nat -> nat) : Prop := forall i, (i < length cs)%nat -> (key i < G)%nat /\ bkey i = key i.
Lemma aligned_same : aligned_keys key.
Proof. intros i _. split; [apply HG|reflexivity]. Qed.

Lemma stat_mu g : (g < G)%nat -> stat R_ops mu g = @mkcell R_ops (Nat.eqb (gcount R_ops key cs g) 0) (gmean R_ops key cs g).
Proof. exact (nth_map_seq (fun g => @mkcell R_ops (Nat.eqb (gcount R_ops key cs g) 0) (gmean R_ops key cs g)) G g _). Qed.
Lemma stat_sd g : (g < G)%nat -> stat R_ops sd g = @mkcell R_ops (Nat.eqb (gcount R_ops key cs g) 0) (gstd R_ops key cs g).
Proof. exact (nth_map_seq (fun g => @mkcell R_ops (Nat.eqb (gcount R_ops key cs g) 0) (gstd R_ops key cs g)) G g _). Qed.
Lemma cell_observed k (c : rcell) : nth_error cs k = Some c -> cm c = false -> observed (key k).
Proof. intros Hk Hc E. pose proof (gvals_in cs 0 k c Hk Hc) as Hin. cbn [Nat.add] in Hin. rewrite E in Hin. destruct Hin. Qed.
Lemma cell_index k (c : rcell) : nth_error cs k = Some c -> (k < length cs)%nat.
Proof. intros Hk. apply nth_error_Some. congruence. Qed.
Lemma count_of_cell k (c : rcell) : nth_error cs k = Some c -> cm c = false -> Nat.eqb (gcount R_ops key cs (key k)) 0 = false.
Proof. intros Hk Hc. apply Nat.eqb_neq. intros E. apply length_zero_iff_nil in E. exact (cell_observed k c Hk Hc E). Qed.

(* the cells after (x - mu) / std, one by one *)
Definition norm_cell (k : nat) (c : rcell) : rcell :=
  if cm c then @mkcell R_ops true (cv c) else @mkcell R_ops false ((cv c - gmean R_ops key cs (key k)) / gstd R_ops key cs (key k)).
Lemma apply_stats_eq bkey : aligned_keys bkey -> apply_stats R_ops bkey mu sd cs = imap norm_cell 0 cs.
Proof. intros Hal. unfold apply_stats. apply imap_ext_i. apply iForall_nth. intros k c Hk. cbn [Nat.add].
  destruct (Hal k (cell_index k c Hk)) as [Hlt ->].
  unfold norm_cell. destruct (cm c) eqn:Ec; [reflexivity|]. rewrite stat_mu, stat_sd by exact Hlt. cbn [cm cv].
  rewrite (count_of_cell k c Hk Ec). reflexivity. Qed.
Lemma gvals_normalized g :
  rgvals key g 0 (imap norm_cell 0 cs) = map (fun v => (v - gmean R_ops key cs g) * / gstd R_ops key cs g) (rgvals key g 0 cs).
Proof. apply gvals_imap. apply iForall_nth. intros k c _. cbn [Nat.add]. unfold norm_cell. split.
  - destruct (cm c); reflexivity.
  - intros <- Hc. rewrite Hc. reflexivity. Qed.

Lemma var_nonneg g : 0 <= rmean (map (fun v => sq R_ops (sub R_ops v (gmean R_ops key cs g))) (rgvals key g 0 cs)).
Proof. rewrite rmean_eq. apply Rmult_le_pos.
  - apply rsum_nonneg. intros x Hx. apply in_map_iff in Hx. destruct Hx as [v [<- _]]. unfold sq. rsimp. apply Rle_0_sqr.
  - rewrite map_length. destruct (length (rgvals key g 0 cs)); [cbn [INR]; rewrite Rinv_0; lra|].
    left. apply Rinv_0_lt_compat. apply lt_0_INR. lia. Qed.

Lemma gstd_sq g : gstd R_ops key cs g * gstd R_ops key cs g
  = rmean (map (fun v => sq R_ops (sub R_ops v (gmean R_ops key cs g))) (rgvals key g 0 cs)).
Proof. unfold gstd. rsimp. apply sqrt_sqrt, var_nonneg. Qed.

(* the observed values of group g become (v - m) / s: their mean is (m - m) / s and their variance s^2 / s^2 *)
Theorem distribution_post_aligned bkey g : aligned_keys bkey -> observed g -> gstd R_ops key cs g <> 0 ->
  let out := fst (normalize_distribution R_ops key bkey G cs) in
  gmean R_ops key out g = 0 /\ gstd R_ops key out g = 1.
Proof. intros Hal Hobs Hsd out. unfold out, normalize_distribution. cbn [fst]. fold mu sd. rewrite apply_stats_eq by exact Hal.
  assert (Hm : gmean R_ops key (imap norm_cell 0 cs) g = 0).
  { unfold gmean at 1. rewrite gvals_normalized. rewrite rmean_map_affine by exact Hobs.
    rewrite map_id. unfold gmean. req. ring. }
  split; [exact Hm|]. unfold gstd at 1. rewrite Hm, gvals_normalized, map_map.
  set (m := gmean R_ops key cs g). set (s := gstd R_ops key cs g) in *.
  rewrite (rmean_map_ext _ (fun v => sq R_ops (sub R_ops v m) * (/ s * / s))) by (intros v _; unfold sq; rsimp; ring).
  rewrite rmean_map_scal. unfold m. rewrite <- gstd_sq. fold s. rsimp.
  replace (s * s * (/ s * / s)) with 1 by (field; exact Hsd). apply sqrt_1. Qed.

Theorem distribution_mask_unchanged_aligned bkey : aligned_keys bkey ->
  map cm (fst (normalize_distribution R_ops key bkey G cs)) = map cm cs.
Proof. intros Hal. unfold normalize_distribution. cbn [fst]. fold mu sd. rewrite apply_stats_eq by exact Hal.
  rewrite map_imap, (map_as_imap cm cs 0). apply imap_ext_i. apply iForall_nth. intros k c _.
  unfold norm_cell. destruct (cm c) eqn:E; cbn [cm]; congruence. Qed.

Theorem unnormalize_inverse_aligned bkey : aligned_keys bkey ->
  (forall g, observed g -> gstd R_ops key cs g <> 0) ->
  let r := normalize_distribution R_ops key bkey G cs in
  cfilled R_ops (unnormalize_distribution R_ops bkey (fst (snd r)) (snd (snd r)) (fst r)) = cfilled R_ops cs.
Proof. intros Hal Hsd r. unfold r, normalize_distribution. cbn [fst snd]. fold mu sd. rewrite apply_stats_eq by exact Hal.
  unfold unnormalize_distribution, cfilled. rewrite imap_imap, map_imap, (map_as_imap _ cs 0).
  apply imap_ext_i. apply iForall_nth. intros k c Hk. cbn [Nat.add].
  destruct (Hal k (cell_index k c Hk)) as [Hlt ->]. unfold norm_cell.
  destruct (cm c) eqn:Ec; cbn [cm cv orb]; [reflexivity|].
  rewrite stat_mu, stat_sd by exact Hlt. cbn [cm cv]. rewrite (count_of_cell k c Hk Ec). cbn [orb]. cbn [cm].
  destruct c as [m v]. cbn [cm cv] in *. subst m. f_equal.
  specialize (Hsd _ (cell_observed k _ Hk eq_refl)). rsimp. field. exact Hsd. Qed.

Theorem distribution_post g : observed g -> gstd R_ops key cs g <> 0 ->
  let out := fst (normalize_distribution R_ops key key G cs) in
  gmean R_ops key out g = 0 /\ gstd R_ops key out g = 1.
Proof. exact (distribution_post_aligned key g aligned_same). Qed.
Theorem distribution_mask_unchanged :
  map cm (fst (normalize_distribution R_ops key key G cs)) = map cm cs.
Proof. exact (distribution_mask_unchanged_aligned key aligned_same). Qed.
Theorem unnormalize_inverse :
  (forall g, observed g -> gstd R_ops key cs g <> 0) ->
  let r := normalize_distribution R_ops key key G cs in
  cfilled R_ops (unnormalize_distribution R_ops key (fst (snd r)) (snd (snd r)) (fst r)) = cfilled R_ops cs.
Proof. exact (unnormalize_inverse_aligned key aligned_same). Qed.
End Key.

(* REFUTED for axis tuples that are not a leading block.  Shape (2, 2, 1, 1), axis = (1,): the statistics have shape (2, 1, 1) = one entry per frame, but broadcasting
   right-aligns them with the (people, points, dims) axes, so cell (f, p) meets the statistics of frame p. *)
Definition nl_g (i : nat) : nat := Nat.div i 2.       (* group = frame *)
Definition nl_b (i : nat) : nat := Nat.modulo i 2.    (* statistics entry met by broadcasting = person index *)
Definition nl_cells : list rcell :=
  [@mkcell R_ops false 0; @mkcell R_ops false 2; @mkcell R_ops false 10; @mkcell R_ops false 14].
Lemma nl_std_pos g : (g < 2)%nat -> 0 < gstd R_ops nl_g nl_cells g.
Proof. intros Hg. destruct g as [|[|g]]; [| |lia];
  unfold gstd, gmean, gvals, nl_cells, nl_g; cbn -[Rplus Rmult Rminus Rdiv R_sqrt.sqrt IZR]; apply sqrt_lt_R0; lra. Qed.
Theorem distribution_nonleading_refuted :
  (forall g, (g < 2)%nat -> observed nl_g nl_cells g /\ gstd R_ops nl_g nl_cells g <> 0) /\
  gmean R_ops nl_g (fst (normalize_distribution R_ops nl_g nl_b 2 nl_cells)) 0 <> 0.
Proof. split.
  - intros g Hg. split; [destruct g as [|[|g]]; [discriminate|discriminate|lia]|]. pose proof (nl_std_pos g Hg). lra.
  - pose proof (nl_std_pos 0 ltac:(lia)) as H0. pose proof (nl_std_pos 1 ltac:(lia)) as H1.
    set (s0 := gstd R_ops nl_g nl_cells 0) in *. set (s1 := gstd R_ops nl_g nl_cells 1) in *.
    assert (E : gmean R_ops nl_g (fst (normalize_distribution R_ops nl_g nl_b 2 nl_cells)) 0
                = ((0 - (0 + (2 + 0)) / 2) / s0 + ((2 - (10 + (14 + 0)) / 2) / s1 + 0)) / 2).
    { unfold s0, s1. unfold normalize_distribution, stats, apply_stats, stat, gmean, gcount, nl_cells, nl_g, nl_b.
      cbn -[Rplus Rmult Rminus Rdiv R_sqrt.sqrt IZR gstd]. reflexivity. }
    rewrite E. clearbody s0 s1. apply Rlt_not_eq.
    assert (I0 : 0 < / s0) by (apply Rinv_0_lt_compat; exact H0).
    assert (I1 : 0 < / s1) by (apply Rinv_0_lt_compat; exact H1).
    unfold Rdiv. lra. Qed.
