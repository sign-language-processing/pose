(* C05: parsePose on a v0.1 file of the reference encoder (docs/specs/v0.1.md). *)
From Coq Require Import ZArith NArith List Lia ZifyBool ZifyN ZifyNat Bool Arith.
Require Import ListN Result Bytes Utf8 Utf8S F32 Prog Tensor Codec ProgLemmas CodecRT
  C05_JsParser C05_Spec C05_View C05_Lemmas C05_Header C05_HeaderView C05_Body C05_Index C05_Cells C05_Main.
Import ListNotations.
Open Scope N_scope.

Definition info_obj_v01 (fps F P : N) : obj :=
  [(k_fps, VNum (Z.of_N fps)); (k__frames, VNum (Z.of_N F)); (k__people, VNum (Z.of_N P))].
Definition lcomps (q : lpose) : list component := map canon_comp (l_comps q).
Definition jbody_v01 (q : lpose) : jbody :=
  {| jb_info := info_obj_v01 (l_fps q) (l_F q) (l_P q);
     jb_frames := Z.of_N (l_F q); jb_people := Z.of_N (l_P q); jb_points := Z.of_N (l_T q); jb_dims := Z.of_N (l_D q);
     jb_data := l_data q; jb_conf := l_conf q |}.
Lemma parse_info_v01 hv fps F P rest : fps < 65536 -> F < 65536 -> P < 65536 ->
  parse (info_v01_schema (lenN hv)) (hv ++ (enc_u16 fps ++ enc_u16 F ++ enc_u16 P) ++ rest) = Some (info_obj_v01 fps F P).
Proof.
  intros Hfps HF HP. unfold parse, js_little, info_v01_schema. rewrite run_seek. change (0 + lenN hv) with (lenN hv).
  rewrite <- !app_assoc. rewrite run_u16 by exact Hfps. rewrite run_u16 by exact HF. rewrite run_u16 by exact HP. reflexivity.
Qed.

Lemma js_body_v01 q h : write_header (l_dims q) (l_comps q) = Ok h -> wf_lpose q -> Forall plain_format (l_comps q) ->
  parse_body_v01 (js_header_obj (header_of_v v01_word (l_dims q) (l_comps q)) (lenN h)) (map jcomp_of_comp (lcomps q))
    (with_version v01_word h ++ enc_u16 (l_fps q) ++ enc_u16 (l_F q) ++ enc_u16 (l_P q)
     ++ flat_map enc_u32 (l_data q) ++ flat_map enc_u32 (l_conf q)) false
  = Some (jbody_v01 q).
Proof.
  intros Hh [Hfps [HF [HP [Hdw [Hcw [HT [Hnd [Hld Hlc]]]]]]]] Hplain.
  assert (Hlen : lenN (with_version v01_word h) = lenN h) by exact (proj2 (js_header_obj_eq_v v01_word _ _ h [] eq_refl Hh)).
  rewrite (app_assoc (enc_u16 (l_fps q))), (app_assoc (enc_u16 (l_fps q) ++ enc_u16 (l_F q))), <- (app_assoc (enc_u16 (l_fps q))).
  apply (parse_body_arrays _ _ false (with_version v01_word h) (enc_u16 (l_fps q) ++ enc_u16 (l_F q) ++ enc_u16 (l_P q))).
  - rewrite Hlen. apply header_obj_length.
  - exact (js_dims_eq _ _ Hplain Hnd).
  - unfold lcomps. now rewrite js_points_eq, sum_points_canon, HT.
  - now apply parse_info_v01.
  - reflexivity.
  - reflexivity.
  - reflexivity.
  - exact Hdw.
  - exact Hcw.
  - exact Hld.
  - exact Hlc.
Qed.

Theorem js_parse_v01 q bs : spec_v01 q = Ok bs -> wf_lpose q -> Forall wcomp_plain (l_comps q) ->
  exists h, write_header (l_dims q) (l_comps q) = Ok h /\
  parse_pose bs = Some {| jp_header := js_header_obj (header_of_v v01_word (l_dims q) (l_comps q)) (lenN h);
                          jp_info := info_obj_v01 (l_fps q) (l_F q) (l_P q);
                          jp_nframes := Z.of_N (l_F q);
                          jp_frame := js_frame_rep (map jcomp_of_comp (lcomps q)) (jbody_v01 q) |}.
Proof.
  intros H Hwf Hplain.
  unfold spec_v01 in H. apply rbind_ok in H. destruct H as [h [Hh H]]. apply Ok_inj in H. subst bs.
  exists h. split; [exact Hh|].
  unfold parse_pose. rewrite (proj1 (js_header_obj_eq_v v01_word _ _ h _ eq_refl Hh)).
  rewrite header_obj_version, header_comps_obj, header_obj_length.
  cbn [header_of_v h_version h_comps]. rewrite js_class_v01. fold (lcomps q).
  rewrite (js_body_v01 q h Hh Hwf (plain_formats _ Hplain)). reflexivity.
Qed.

Open Scope nat_scope.
(* the v0.1 file holds header fields, (fps, frames, people) and the two tensors; parsePose reports exactly those.
   (That Pose.read returns the same content for such a file is props/C04.v C04_v01_decodes_bytes.) *)
Theorem js_v01_eq q bs : spec_v01 q = Ok bs -> wf_lpose q -> Forall wcomp_plain (l_comps q) ->
  exists h jp, write_header (l_dims q) (l_comps q) = Ok h /\ parse_pose bs = Some jp /\
    header_view (jp_header jp) = Some (header_of_v v01_word (l_dims q) (l_comps q), lenN h) /\
    info_view_v01 (jp_info jp) = Some (l_fps q, l_F q, l_P q) /\ jp_nframes jp = Z.of_N (l_F q) /\
    let F := N.to_nat (l_F q) in let P := N.to_nat (l_P q) in let T := N.to_nat (l_T q) in let D := N.to_nat (l_D q) in
    forall i j n l c, i < F -> j < P -> nth_error (lcomps q) n = Some c -> l < length (c_points c) ->
      ~ In (c_name c) (map c_name (skipn (S n) (lcomps q))) ->
      let t := point_offset (lcomps q) n + l in
      js_cell (jp_frame jp (Z.of_nat i)) j (c_name c) l 67 = Some (VF32 (tget 0%N (mkT [F; P; T] (l_conf q)) [i; j; t])) /\
      forall d x, nth_error (c_format c) d = Some x -> x <> 67%N -> coord_index (c_format c) d < D -> ~ In x (skipn (S d) (c_format c)) ->
        js_cell (jp_frame jp (Z.of_nat i)) j (c_name c) l x = Some (VF32 (tget 0%N (mkT [F; P; T; D] (l_data q)) [i; j; t; coord_index (c_format c) d])).
Proof.
  intros H Hwf Hplain. destruct (js_parse_v01 q bs H Hwf Hplain) as [h [Hh Hparse]].
  destruct Hwf as [Hfps [HF [HP [Hdw [Hcw [HT [Hnd [Hld Hlc]]]]]]]].
  exists h. eexists. split; [exact Hh|]. split; [exact Hparse|]. cbn [jp_header jp_info jp_nframes jp_frame].
  pose proof (plain_no_bom _ Hplain) as Hnb.
  split; [apply header_view_obj; exact Hnb|].
  split; [unfold info_view_v01, info_obj_v01; kred; now rewrite !vnum_of_N|].
  split; [reflexivity|].
  apply (js_cells_eq (lcomps q) (l_F q) (l_P q) (l_T q) (l_D q)); [exact Hnb| |exact Hld|exact Hlc].
  unfold lcomps. now rewrite sum_points_canon.
Qed.
