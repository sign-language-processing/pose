(* C13 - 2-point normaliser and distribution (un)normaliser, written once over [Num.ops].
   Pose.normalize (pose.py:114-151), distance_batch (utils/fast_math.py:1-28),
   Pose.normalize_distribution / unnormalize_distribution (pose.py:153-190),
   masked mean / variance / std of the TensorFlow backend (tensorflow/masked/tensor.py:397-456; numpy.ma's
   mean/std compute the same real function).  Definitions only.

   Data layout.  body.data has shape (frames, people, points, dims).  Every reduction of [normalize] is over
   axis=(0,1) jointly, so a body is the row-major list of its (frame, person) rows, a row is the list of its
   points and a point is its validity bit (numpy polarity: true = missing) and its [dims] coordinates.  The mask
   of a pose body is stacked from the confidence, i.e. it is per point, not per coordinate: that is the domain of
   this model.  Data under the mask is kept as numpy.ma keeps it (a masked result keeps the first operand's
   raw value); the theorems and the correspondence look at the zero-filled form [filled]. *)
From Coq Require Import List ZArith Bool Arith.
Require Import Num.
Import ListNotations.

Declare Scope num_scope.
Delimit Scope num_scope with num.

Section C13Normalize.
Variable O : ops.
Local Notation F := (T O).
Local Notation "x + y" := (add O x y) : num_scope.
Local Notation "x - y" := (sub O x y) : num_scope.
Local Notation "x * y" := (mul O x y) : num_scope.
Local Notation "x / y" := (div O x y) : num_scope.
Local Open Scope num_scope.

Record pt := mkpt { pm : bool; pc : list F }.
Definition getp (r : list pt) (i : nat) : pt := nth i r (mkpt true []).
Definition coord (p : pt) (d : nat) : F := nth d (pc p) (zero O).
Definition sq (x : F) : F := x * x.
Definition two : F := of_Z O 2.

(* transposed[info.p1], transposed[info.p2] (pose.py:136-137): per row; an arithmetic result is missing when
   either operand is *)
Definition both (i j : nat) (r : list pt) : bool := negb (pm (getp r i) || pm (getp r j)).
(* ((p2s + p1s) / 2) for coordinate d of one row (pose.py:140) *)
Definition mid (i j d : nat) (r : list pt) : F := (coord (getp r j) d + coord (getp r i) d) / two.
(* .mean(axis=(0, 1)): masked mean over the rows in which both points are observed (pose.py:140;
   tensorflow/masked/tensor.py:397-418: sum of the zero-filled values / count of valid entries) *)
Definition center (D i j : nat) (b : list (list pt)) : list F :=
  map (fun d => mean O (map (mid i j d) (filter (both i j) b))) (seq 0 D).
(* distance_batch (fast_math.py:26-28): squared = (p1s - p2s)**2; summed = squared.sum(axis=-1); summed**0.5 *)
Definition dist (D i j : nat) (r : list pt) : F :=
  sqrt O (sum O (map (fun d => sq (coord (getp r i) d - coord (getp r j) d)) (seq 0 D))).
(* distance_batch(p1s, p2s).mean() (pose.py:144) *)
Definition mean_distance (D i j : nat) (b : list (list pt)) : F :=
  mean O (map (dist D i j) (filter (both i j) b)).
(* self.body.data -= center (pose.py:142): in place, data under the mask untouched *)
Definition shift (D : nat) (c : list F) (p : pt) : pt :=
  if pm p then p else mkpt false (map (fun d => coord p d - nth d c (zero O)) (seq 0 D)).
(* self.body.data = self.body.data * scale (pose.py:149) *)
Definition scalept (s : F) (p : pt) : pt :=
  if pm p then p else mkpt false (map (fun x => x * s) (pc p)).
(* Pose.normalize (pose.py:114-151).  p1s / p2s are views of body.data (ma.transpose), so the distances are
   taken after the in-place shift; the TensorFlow body takes them before (same real number).  When no row
   observes both points the masked mean is itself masked and masks everything. *)
Definition normalize (D i j : nat) (sf : F) (b : list (list pt)) : list (list pt) :=
  match filter (both i j) b with
  | [] => map (map (fun p => mkpt true (pc p))) b
  | _ :: _ =>
      let c := center D i j b in
      let b1 := map (map (shift D c)) b in
      let md := mean_distance D i j b1 in
      let s := sf / md in
      map (map (scalept s)) b1
  end.
(* what an observer of the masked array sees: ma.filled(0) / MaskedTensor.zero_filled(), plus the mask *)
Definition filled (D : nat) (b : list (list pt)) : list (list pt) :=
  map (map (fun p => if pm p then mkpt true (repeat (zero O) D) else p)) b.

(* ---------------- distribution ---------------- *)
(* body.data flattened row-major to cells; reducing over a leading block of axes puts cell i in group
   [key i] = i mod (product of the remaining extents); the theorems hold for any grouping function *)
Record cell := mkcell { cm : bool; cv : F }.
Fixpoint gvals (key : nat -> nat) (g i : nat) (cs : list cell) : list F :=
  match cs with
  | [] => []
  | c :: r => if Nat.eqb (key i) g && negb (cm c) then cv c :: gvals key g (S i) r else gvals key g (S i) r
  end.
Fixpoint imap {A B} (f : nat -> A -> B) (i : nat) (l : list A) : list B :=
  match l with [] => [] | a :: r => f i a :: imap f (S i) r end.
(* data.mean(axis=axis) (pose.py:173; tensor.py:385-404) *)
Definition gmean (key : nat -> nat) (cs : list cell) (g : nat) : F := mean O (gvals key g 0 cs).
(* data.std(axis=axis) (pose.py:174; tensor.py:406-452): sqrt(mean((x - mean)^2)), population deviation *)
Definition gstd (key : nat -> nat) (cs : list cell) (g : nat) : F :=
  let m := gmean key cs g in sqrt O (mean O (map (fun v => sq (v - m)) (gvals key g 0 cs))).
Definition gcount (key : nat -> nat) (cs : list cell) (g : nat) : nat := length (gvals key g 0 cs).
(* the returned statistics, one per group; missing when the group has no observed cell *)
Definition stats (key : nat -> nat) (G : nat) (cs : list cell) : list cell * list cell :=
  (map (fun g => mkcell (Nat.eqb (gcount key cs g) 0) (gmean key cs g)) (seq 0 G),
   map (fun g => mkcell (Nat.eqb (gcount key cs g) 0) (gstd key cs g)) (seq 0 G)).
Definition stat (l : list cell) (g : nat) : cell := nth g l (mkcell true (zero O)).
(* self.body.data = (self.body.data - mu) / std (pose.py:176): entry [key i] of mu / std meets cell i *)
Definition apply_stats (key : nat -> nat) (mu sd : list cell) (cs : list cell) : list cell :=
  imap (fun i c => let m := stat mu (key i) in let s := stat sd (key i) in
                   if cm c || cm m || cm s then mkcell true (cv c) else mkcell false ((cv c - cv m) / cv s)) 0 cs.
(* normalize_distribution (pose.py:152-178).  [gkey i] is the group cell i is reduced in (data.mean(axis=axis)
   drops the reduced axes); [bkey i] is the entry of the statistics that numpy / tf broadcasting pairs with cell i in
   (data - mu) / std.  For a leading block of axes both are i mod G; for other axis tuples the statistics are
   right-aligned against the wrong axes (model/C13_Axes.v computes both from shape and axis). *)
Definition normalize_distribution (gkey bkey : nat -> nat) (G : nat) (cs : list cell) : list cell * (list cell * list cell) :=
  let st := stats gkey G cs in (apply_stats bkey (fst st) (snd st) cs, st).
(* self.body.data = (self.body.data * std) + mu (pose.py:189) *)
Definition unnormalize_distribution (key : nat -> nat) (mu sd : list cell) (cs : list cell) : list cell :=
  imap (fun i c => let m := stat mu (key i) in let s := stat sd (key i) in
                   if cm c || cm s || cm m then mkcell true (cv c) else mkcell false ((cv c * cv s) + cv m)) 0 cs.
Definition cfilled (cs : list cell) : list cell := map (fun c => if cm c then mkcell true (zero O) else c) cs.
End C13Normalize.
Arguments mkpt {O}. Arguments pm {O}. Arguments pc {O}.
Arguments mkcell {O}. Arguments cm {O}. Arguments cv {O}.
