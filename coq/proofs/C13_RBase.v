(* C13 - real-number lemmas shared by the normaliser proofs (sums, means, square roots). *)
From Coq Require Import Reals List Lra Lia Arith ZArith.
Require Import Num RealFacts.
Import ListNotations.
Open Scope R_scope.

Notation rsum := (Num.sum R_ops).
Notation rmean := (Num.mean R_ops).

Lemma rsum_nil : rsum [] = 0.
Proof. reflexivity. Qed.
Lemma rsum_cons x l : rsum (x :: l) = x + rsum l.
Proof. reflexivity. Qed.
Lemma rmean_eq l : rmean l = rsum l / INR (length l).
Proof. unfold Num.mean. rewrite of_nat_INR. reflexivity. Qed.

Lemma rsum_map_ext {A} (f g : A -> R) l : (forall x, In x l -> f x = g x) -> rsum (map f l) = rsum (map g l).
Proof. intros H. f_equal. apply map_ext_in. exact H. Qed.
Lemma rsum_map_plus {A} (f g : A -> R) l : rsum (map (fun x => f x + g x) l) = rsum (map f l) + rsum (map g l).
Proof. unfold Num.sum; rsimp. induction l as [|x l IH]; cbn [map fold_right]; [lra|]. rewrite IH. lra. Qed.
Lemma rsum_map_scal {A} (f : A -> R) k l : rsum (map (fun x => f x * k) l) = rsum (map f l) * k.
Proof. unfold Num.sum; rsimp. induction l as [|x l IH]; cbn [map fold_right]; [lra|]. rewrite IH. lra. Qed.
Lemma rsum_map_const {A} (c : R) (l : list A) : rsum (map (fun _ => c) l) = INR (length l) * c.
Proof. unfold Num.sum; rsimp. induction l as [|x l IH]; [cbn; lra|]. cbn [map fold_right]. rewrite IH.
  change (length (x :: l)) with (S (length l)). rewrite S_INR. lra. Qed.
Lemma rsum_map_linear {A} (f : A -> R) a c l :
  rsum (map (fun x => a * f x + c) l) = a * rsum (map f l) + INR (length l) * c.
Proof. rewrite (rsum_map_plus (fun x => a * f x) (fun _ => c)), rsum_map_const.
  rewrite (rsum_map_ext (fun x => a * f x) (fun x => f x * a)) by (intros; apply Rmult_comm).
  rewrite rsum_map_scal. req. ring. Qed.
Lemma rsum_nonneg l : (forall x, In x l -> 0 <= x) -> 0 <= rsum l.
Proof. induction l as [|x l IH]; intros H; [cbn; lra|]. change (0 <= x + rsum l).
  assert (0 <= x) by (apply H; left; reflexivity).
  assert (0 <= rsum l) by (apply IH; intros y Hy; apply H; right; exact Hy). lra. Qed.
Lemma rsum_pos l x : (forall y, In y l -> 0 <= y) -> In x l -> 0 < x -> 0 < rsum l.
Proof. induction l as [|a l IH]; intros Hn Hin Hx; [destruct Hin|]. change (0 < a + rsum l).
  assert (Ha : 0 <= a) by (apply Hn; left; reflexivity).
  assert (Hl : forall y, In y l -> 0 <= y) by (intros y Hy; apply Hn; right; exact Hy).
  destruct Hin as [->|Hin]; [pose proof (rsum_nonneg l Hl); lra|].
  pose proof (IH Hl Hin Hx). lra. Qed.

Lemma INR_len_pos {A} (l : list A) : l <> [] -> 0 < INR (length l).
Proof. destruct l; [congruence|]. intros _. apply lt_0_INR. cbn [length]. lia. Qed.
Lemma rmean_map_linear {A} (f : A -> R) a c l : l <> [] ->
  rmean (map (fun x => a * f x + c) l) = a * rmean (map f l) + c.
Proof. intros Hl. rewrite !rmean_eq, !map_length, rsum_map_linear.
  pose proof (INR_len_pos l Hl) as Hp. req. field. apply Rgt_not_eq. exact Hp. Qed.
Lemma rmean_map_scal {A} (f : A -> R) k l : rmean (map (fun x => f x * k) l) = rmean (map f l) * k.
Proof. rewrite !rmean_eq, !map_length, rsum_map_scal. req. unfold Rdiv. ring. Qed.
Lemma rmean_map_ext {A} (f g : A -> R) l : (forall x, In x l -> f x = g x) -> rmean (map f l) = rmean (map g l).
Proof. intros H. rewrite !rmean_eq, !map_length. f_equal. apply rsum_map_ext. exact H. Qed.
Lemma rmean_map_affine {A} (f : A -> R) c k l : l <> [] ->
  rmean (map (fun x => (f x - c) * k) l) = (rmean (map f l) - c) * k.
Proof. intros Hl. rewrite (rmean_map_ext _ (fun x => k * f x + - c * k)) by (intros; ring).
  rewrite rmean_map_linear by exact Hl. req. ring. Qed.
Lemma rmean_pos l x : (forall y, In y l -> 0 <= y) -> In x l -> 0 < x -> 0 < rmean l.
Proof. intros Hn Hin Hx. rewrite rmean_eq. apply Rdiv_lt_0_compat; [exact (rsum_pos l x Hn Hin Hx)|].
  apply INR_len_pos. intros ->. destruct Hin. Qed.

Notation rsqrt := R_sqrt.sqrt.
Lemma sqrt_sq_scal k x : 0 <= x -> rsqrt (k * k * x) = Rabs k * rsqrt x.
Proof. intros Hx. rewrite sqrt_mult_alt by (apply Rle_0_sqr || nra).
  f_equal. replace (k * k) with (Rsqr k) by reflexivity. apply sqrt_Rsqr_abs. Qed.
Lemma sqrt_sq_scal_pos k x : 0 <= k -> 0 <= x -> rsqrt (k * k * x) = k * rsqrt x.
Proof. intros Hk Hx. rewrite sqrt_sq_scal by exact Hx. rewrite Rabs_right by lra. reflexivity. Qed.
Lemma sqrt_sqr_eq x : 0 <= x -> rsqrt x * rsqrt x = x.
Proof. apply sqrt_sqrt. Qed.
Lemma sqrt_pos_lt x : 0 < x -> 0 < rsqrt x.
Proof. apply sqrt_lt_R0. Qed.
Lemma sqrt_of_square k : 0 <= k -> rsqrt (k * k) = k.
Proof. apply sqrt_square. Qed.
