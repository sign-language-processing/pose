(* C09 - non-interference of normalisation, focus, bounding boxes, interpolation, the serialisation round trip and
   the feature representations.  Where a proof ends in [auto n with ni nocore], the two sides are the same tree of
   combinators ([ew], [tbin], [tun], [red_last] ... over [t_distance]) on agreeing arguments; each [ni] lemma peels
   one combinator, so n is the nesting depth of that tree (14 for the point-line distance). *)
From Coq Require Import List Arith Bool Lia.
Require Import ListFacts Tensor Num Result ResultFacts C09_Masked C09_Ops C09_Core C09_NI.
Import ListNotations.

Section NI2.
Variable O : ops.
Variable E : ext O.
Notation T := (Num.T O).
Notation cell := (cell O).
Notation vis1 := (vis1 O).
Notation rd := (rd O).
Notation rdT := (rdT O).
Notation dcell := (dcell O).
Notation agree := (agree O).
Notation agree_l := (agree_l O).
Notation body := (body O).
Lemma np_normalize_ni p1 p2 sf b b' : agree_body O b b' ->
  agree_body O (np_normalize O E p1 p2 sf b) (np_normalize O E p1 p2 sf b').
Proof. intros H. destruct (agree_body_inv O _ _ H) as (s0 & l & l' & c & -> & -> & Hl). unfold np_normalize.
  cbn [bdat bconf]. set (a := mkT s0 l). set (a' := mkT s0 l'). change (shape a') with (shape a).
  assert (Hd : agree a a') by (apply agree_mkT, Hl). clearbody a a'. set (s := shape a). set (D := dimn s 3). set (PF := dimn s 1 * dimn s 0).
  (* the centre is a function of the visible part *)
  assert (Hcen : red_lead O PF D (mmean O E) (ew_scalar O (mdiv O E)
                   (ew O (mbin O (add O)) (point_block O a p2) (point_block O a p1)) (plain O (two O))) =
                 red_lead O PF D (mmean O E) (ew_scalar O (mdiv O E)
                   (ew O (mbin O (add O)) (point_block O a' p2) (point_block O a' p1)) (plain O (two O)))).
  { auto 6 with ni nocore. }
  rewrite <- Hcen. set (center := red_lead O PF D _ _).
  assert (Hd1 : agree (mkT s (ew_trail O (misub O) (data a) D center)) (mkT s (ew_trail O (misub O) (data a') D center))).
  { auto with ni nocore. }
  set (d1 := mkT s (ew_trail O (misub O) (data a) D center)) in *.
  set (d1' := mkT s (ew_trail O (misub O) (data a') D center)) in *. clearbody d1 d1'.
  assert (Hmd : mmean O E (ew1 O (mpow O E (sqrt O)) (red_last O PF D (msum O)
                   (ew1 O (mpow O E (sqr O)) (ew O (mbin O (sub O)) (point_block O d1 p1) (point_block O d1 p2))))) =
                mmean O E (ew1 O (mpow O E (sqrt O)) (red_last O PF D (msum O)
                   (ew1 O (mpow O E (sqr O)) (ew O (mbin O (sub O)) (point_block O d1' p1) (point_block O d1' p2)))))).
  { apply VIL_mmean. auto 6 with ni nocore. }
  rewrite <- Hmd. auto with ni nocore. Qed.

Definition vfocus (r : result (body * list T)) := rmap (fun x => (visible_body O (fst x), snd x)) r.

Lemma comp_box_eq blk tr tr' on : agree_l tr tr' -> comp_box O E blk tr on = comp_box O E blk tr' on.
Proof. intros H. unfold comp_box. cbv zeta. f_equal; auto 6 with ni nocore. Qed.

Lemma VIL_compressed : VIL O (compressed O).
Proof. unfold VIL. apply agree_l_ind; [reflexivity|]. intros c c' l l' Hc _ IH. unfold compressed in *. cbn [filter].
  destruct (snd c) eqn:Em; rewrite <- (vis1_snd O _ _ Hc), Em; cbn [negb map]; [exact IH|].
  now rewrite (vis1_fst O _ _ Hc Em), IH. Qed.
Lemma interp_track_VIL dl kind F NF W steps new_steps : VIL O (interp_track O E dl kind F NF W steps new_steps).
Proof. intros l l' H. unfold interp_track.
  assert (Hm : tab F (fun f => snd (rd l (f * W + (W - 1)))) = tab F (fun f => snd (rd l' (f * W + (W - 1))))).
  { apply tab_ext. intros f. apply vis1_snd. now apply rd_vis. }
  rewrite Hm, (VIL_compressed _ _ H). reflexivity. Qed.
Lemma interp_tracks_eq dl kind F NF D steps new_steps tr tr' ctr n : agree_l tr tr' ->
  interp_tracks O E dl kind F NF D steps new_steps tr ctr n = interp_tracks O E dl kind F NF D steps new_steps tr' ctr n.
Proof. intros H. unfold interp_tracks. apply rmapM_ext. intros tp. apply interp_track_VIL. unfold track_cells.
  apply agree_l_tab. intros k. cbv zeta. destruct (Nat.eqb _ _); [reflexivity|]. now apply rd_vis. Qed.

(* needs the class invariant (what is masked has confidence 0: the mask is not stored), aligned lengths, and that
   the float32 cast keeps a zero confidence zero *)
Definition wf_body (b : body) : Prop :=
  length (data (bdat b)) = length (data (bconf b)) * lastd (shape (bdat b)).
Lemma np_roundtrip_ni b b' :
  (forall x, is0 O x = true -> is0 O (cast32 E x) = true) ->
  wf_body b -> mask_le_conf O b -> agree_body O b b' ->
  agree_body O (np_roundtrip O E b) (np_roundtrip O E b').
Proof. intros Hcast Hwf Hi H. destruct (agree_body_inv O _ _ H) as (s & l & l' & c & -> & -> & Hl).
  unfold wf_body, mask_le_conf in *. unfold np_roundtrip, np_read, np_write, np_ctor, of_plain, tmap.
  cbn [fst snd bdat bconf shape data] in *. pose proof (agree_l_len O _ _ Hl) as Hlen. unfold C09_Masked.cell in *.
  rewrite !map_length, <- Hlen. apply agree_body_mkB, agree_mkT, agree_l_tab_lt. intros k Hk. set (D := lastd s) in *.
  assert (Hk' : k < length l') by (rewrite <- Hlen; exact Hk).
  assert (Hq : k / D < length (data c)).
  { assert (HD : D <> 0) by (intros E0; rewrite E0 in Hwf; lia). apply Nat.div_lt_upper_bound; [exact HD|]. nia. }
  unfold C09_Masked.rd, C09_Masked.rdT.
  rewrite !(nth_map_lt (plain O) _ k (zero O)) by (rewrite map_length; assumption).
  rewrite !(nth_map_lt (fun x : cell => cast32 E (fst x)) _ k dcell) by assumption.
  rewrite (nth_map_lt (cast32 E) _ _ (zero O)) by assumption.
  unfold plain; cbn [fst snd orb]. apply vis1_eq; cbn [fst snd]. split; [reflexivity|]. intros Hz. f_equal.
  apply (vis1_fst O _ _ (rd_vis O _ _ k Hl)).
  destruct (snd (rd l k)) eqn:Em; [|reflexivity].
  (* a masked slot has confidence 0 (Hi), also after the cast (Hcast), yet Hz says the confidence read back is not 0 *)
  apply (Hi k Hk), Hcast in Em. exact (False_ind _ (diff_true_false (eq_trans (eq_sym Em) Hz))). Qed.
(* the constructors establish the invariant *)
Lemma np_ctor_plain_inv raw conf : mask_le_conf O (np_ctor O (of_plain O raw) conf).
Proof. unfold mask_le_conf, np_ctor, of_plain, tmap; cbn [bdat bconf shape data]. intros k Hk. rewrite tab_length, map_length in Hk.
  rewrite rd_tab. rewrite map_length. apply Nat.ltb_lt in Hk. rewrite Hk; cbn [snd]. apply Nat.ltb_lt in Hk.
  unfold C09_Masked.rd. rewrite (nth_map_lt (plain O) _ k (zero O)) by exact Hk. unfold plain; cbn [snd orb]. auto. Qed.

Lemma lanes_agree a a' : agree a a' -> lanes O a = lanes O a'.
Proof. intros H. unfold lanes. now rewrite (agree_shape O _ _ H), (agree_l_len O _ _ (agree_data O _ _ H)). Qed.
Lemma np_rep_distance_ni p1 p1' p2 p2' : agree p1 p1' -> agree p2 p2' ->
  np_rep_distance O E p1 p2 = np_rep_distance O E p1' p2'.
Proof. intros H1 H2. unfold np_rep_distance. rewrite <- (agree_shape O _ _ H1), <- (lanes_agree _ _ H1). f_equal. auto 8 with ni nocore. Qed.
Lemma t_distance_agree p1 p1' p2 p2' : agree p1 p1' -> agree p2 p2' -> agree_l (t_distance O p1 p2) (t_distance O p1' p2').
Proof. intros H1 H2. unfold t_distance. rewrite <- (agree_shape O _ _ H1), <- (lanes_agree _ _ H1). auto with ni nocore. Qed.
Lemma t_vectors_norm_agree D v v' : agree_l v v' -> agree_l (t_vectors_norm O D v) (t_vectors_norm O D v').
Proof. intros H. unfold t_vectors_norm. rewrite <- (agree_l_len O _ _ H). apply agree_l_tab. intros k.
  apply VC2_tbin; auto 6 with ni nocore. Qed.
Hint Resolve t_distance_agree t_vectors_norm_agree : ni.
Lemma t_rep_distance_ni p1 p1' p2 p2' : agree p1 p1' -> agree p2 p2' -> t_rep_distance O p1 p2 = t_rep_distance O p1' p2'.
Proof. intros H1 H2. unfold t_rep_distance. rewrite <- (agree_shape O _ _ H1). f_equal. auto with ni nocore. Qed.
Lemma t_rep_angle_ni p1 p1' p2 p2' : agree p1 p1' -> agree p2 p2' -> t_rep_angle O E p1 p2 = t_rep_angle O E p1' p2'.
Proof. intros H1 H2. unfold t_rep_angle. rewrite <- (agree_shape O _ _ H1), <- (lanes_agree _ _ H1).
  destruct (Nat.ltb _ 2); [reflexivity|]. cbv zeta. do 3 f_equal. auto 9 with ni nocore. Qed.
Lemma t_rep_inner_angle_ni p1 p1' p2 p2' p3 p3' : agree p1 p1' -> agree p2 p2' -> agree p3 p3' ->
  t_rep_inner_angle O E p1 p2 p3 = t_rep_inner_angle O E p1' p2' p3'.
Proof. intros H1 H2 H3. unfold t_rep_inner_angle. rewrite <- (agree_shape O _ _ H1), <- (lanes_agree _ _ H1). do 2 f_equal.
  auto 9 with ni nocore. Qed.
Lemma t_rep_point_line_ni p1 p1' p2 p2' p3 p3' : agree p1 p1' -> agree p2 p2' -> agree p3 p3' ->
  t_rep_point_line O p1 p2 p3 = t_rep_point_line O p1' p2' p3'.
Proof. intros H1 H2 H3. unfold t_rep_point_line. rewrite <- (agree_shape O _ _ H1). f_equal. auto 14 with ni nocore. Qed.
Lemma t_rep_points_ni p1 p1' : agree p1 p1' -> t_rep_points O p1 = t_rep_points O p1'.
Proof. intros H. destruct (agree_inv O _ _ H) as (s & l & l' & -> & -> & Hl). unfold t_rep_points, tmap; cbn [shape data].
  now rewrite (map_VI1 O _ _ _ (VI1_tzero O) Hl). Qed.

End NI2.
