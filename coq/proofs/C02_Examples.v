(* C02: concrete contents for the non-vacuity statements of the reader-direction theorems. *)
From Coq Require Import ZArith NArith List Lia Bool.
Require Import ListN Result Bytes F32 Prog Codec CodecRT PoseRead PoseReadLemmas C01_Examples
  C02_SpecV02 C02_Content C02_Converse.
Import ListNotations.
Open Scope N_scope.

(* the content of the C01 example pose: two components, 3-byte characters, NaN / -0.0 / subnormal data *)
Definition ex_content : pose := canon ex_pose.
(* not the image of any written pose: version word one ulp above the writer's 0.2 (still read as 0.2), a NaN with a
   payload, a signalling NaN as confidence, a frame rate that is an infinity, and no mask at all *)
Definition ex_foreign : pose :=
  {| p_header := {| h_version := 1045220558; h_dims := (640, 480, 0); h_comps := h_comps (p_header ex_content) |};
     p_body := {| b_fps := 2139095040; b_shape := [1; 2; 3; 2];
                  b_data := [2143289345; 2147483648; 1; 1065353216; 1073741824; 0;
                             1077936128; 1082130432; 1084227584; 0; 0; 4286578688];
                  b_conf := [1065353216; 0; 2139095041; 0; 2147483648; 1];
                  b_mask := [] |} |}.

(* why the reader theorem needs [coherent]: without it the encoding does not determine the content - moving the
   boundary between the coordinate block and the confidence block gives the same file *)
Lemma ex_coherence_needed : exists c1 c2 sb,
  coherent c1 = true /\ coherent c2 = false /\ b_conf (p_body c1) <> b_conf (p_body c2) /\
  spec_encode c1 = Some sb /\ spec_encode c2 = Some sb.
Proof.
  exists ex_content.
  exists {| p_header := p_header ex_content;
            p_body := {| b_fps := b_fps (p_body ex_content); b_shape := b_shape (p_body ex_content);
                         b_data := removelast (b_data (p_body ex_content));
                         b_conf := last (b_data (p_body ex_content)) 0 :: b_conf (p_body ex_content);
                         b_mask := b_mask (p_body ex_content) |} |}.
  eexists. split; [vm_compute; reflexivity|]. split; [vm_compute; reflexivity|].
  split; [|split; vm_compute; reflexivity].
  intros H. apply (f_equal (@length N)) in H. vm_compute in H. discriminate.
Qed.
