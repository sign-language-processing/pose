(* C14: at an unchanged rate the new frame count is the old one, round(F * r / r) = F, for EVERY F below 2^50 and every
   positive finite rate r = m * 2^e with -553 <= e <= 447 (so 2^-553 <= r < 2^500) - no enumeration.
   The kernel's primitive binary64 operations are connected to Flocq's correctly rounded ones (Flocq.IEEE754.PrimFloat:
   mul_equiv, div_equiv, of_int63_equiv - these rest on the standard library's FloatAxioms) and the inequality
   |RN(RN(F r) / r) - F| < 1/2 is proved over the reals from the standard relative-error model of rounding to nearest.
   The closed, enumerated version (F <= 1024, 24 usual rates) is C14_CountP.same_rate_count. *)
From Coq Require Import ZArith Reals Lia Lra Psatz PrimFloat SpecFloat FloatOps FloatAxioms Uint63 Bool List.
Set Warnings "-inexact-float".
From Flocq Require Import Core Relative BinarySingleNaN.
From Flocq Require PrimFloat.
Require Import Result Num C14_Count C14_CountP.
Local Open Scope R_scope.

(* the error analysis, free of floats: y = RN(n r) and q = RN(y / r), each rounding written as a relative error
   (e1, e2, at most the unit roundoff u) plus an absolute one (h1, h2, at most eta, for the subnormal range);
   n u <= 1/8 keeps q within 1/2 of n *)
Lemma real_core (n r u eta e1 e2 h1 h2 : R) :
  1 <= n -> 0 < u -> n * u <= / 8 -> 0 < r -> 0 <= eta -> eta <= / 64 -> eta / r <= / 64 ->
  Rabs e1 <= u -> Rabs e2 <= u -> Rabs h1 <= eta -> Rabs h2 <= eta ->
  let y := n * r * (1 + e1) + h1 in
  let q := y / r * (1 + e2) + h2 in
  Rabs (q - n) < / 2.
Proof.
  intros Hn Hu Hnu Hr Heta0 Heta Hetar He1 He2 Hh1 Hh2 y q.
  apply Rabs_le_inv in He1, He2, Hh1, Hh2.
  assert (Hu8 : u <= / 8) by nra.
  set (t := h1 / r).
  assert (Ht : - / 64 <= t <= / 64).
  { unfold t, Rdiv. assert (Hir : 0 < / r) by (apply Rinv_0_lt_compat; exact Hr).
    unfold Rdiv in Hetar.
    assert (A1 : h1 * / r <= eta * / r) by (apply Rmult_le_compat_r; lra).
    assert (A2 : - (eta * / r) <= h1 * / r) by (rewrite Ropp_mult_distr_l; apply Rmult_le_compat_r; lra).
    split; lra. }
  assert (Hy : y / r = n * (1 + e1) + t).
  { unfold y, t. field. lra. }
  assert (A : - / 8 <= n * e1 <= / 8) by (split; nra).
  assert (B : - / 8 <= n * e2 <= / 8) by (split; nra).
  assert (C : - / 64 <= n * e1 * e2 <= / 64) by (split; nra).
  assert (D : - / 512 <= t * e2 <= / 512) by (split; nra).
  unfold q. rewrite Hy.
  replace ((n * (1 + e1) + t) * (1 + e2) + h2 - n) with (n * e1 + n * e2 + n * e1 * e2 + t + t * e2 + h2) by ring.
  apply Rabs_def1; lra.
Qed.

Definition fmt := FLT_exp (-1074) 53.
Definition rnd64 (x : R) : R := round radix2 fmt ZnearestE x.
Definition U : R := bpow radix2 (-53).
Definition ETA : R := bpow radix2 (-1075).
Lemma fmt_valid : Valid_exp fmt. Proof. apply FLT_exp_valid. unfold Prec_gt_0. lia. Qed.
Lemma rnd64_err x : exists e h, Rabs e <= U /\ Rabs h <= ETA /\ rnd64 x = x * (1 + e) + h.
Proof.
  destruct (error_N_FLT radix2 (-1074) 53 ltac:(lia) (fun t => negb (Z.even t)) x) as [e [h [He [Hh [_ Hr]]]]].
  exists e, h. split; [|split; [|exact Hr]].
  - eapply Rle_trans; [exact He|]. unfold u_ro, U. change (/ 2) with (bpow radix2 (-1)). rewrite <- bpow_plus. apply bpow_le. lia.
  - eapply Rle_trans; [exact Hh|]. unfold ETA. change (/ 2) with (bpow radix2 (-1)). rewrite <- bpow_plus. apply bpow_le. lia.
Qed.
Lemma rnd64_bpow k : (-1074 <= k)%Z -> rnd64 (bpow radix2 k) = bpow radix2 k.
Proof. intros Hk. apply round_generic; [apply valid_rnd_N|]. apply generic_format_bpow. unfold fmt, FLT_exp. lia. Qed.
Lemma rnd64_le x y : x <= y -> rnd64 x <= rnd64 y.
Proof. apply round_le; [apply fmt_valid|apply valid_rnd_N]. Qed.
Lemma rnd64_int (n : Z) : (Z.abs n < 2 ^ 53)%Z -> rnd64 (IZR n) = IZR n.
Proof.
  intros Hn. apply round_generic; [apply valid_rnd_N|]. apply generic_format_FLT.
  exists (Float radix2 n 0); [unfold F2R; cbn [Fnum Fexp bpow]; ring|cbn [Fnum]; exact Hn|cbn [Fexp]; lia].
Qed.

Lemma real_same_rate (n : Z) (r : R) : (1 <= n < 2 ^ 50)%Z -> bpow radix2 (-553) <= r <= bpow radix2 500 ->
  let y := rnd64 (IZR n * r) in
  let q := rnd64 (y / r) in
  Rabs (q - IZR n) < / 2 /\ Rabs y < bpow radix2 1024 /\ Rabs q < bpow radix2 1024.
Proof.
  intros Hn [Hr0 Hr1] y q.
  assert (Hrp : 0 < r) by (eapply Rlt_le_trans; [apply (bpow_gt_0 radix2 (-553))|exact Hr0]).
  assert (Hn1 : 1 <= IZR n) by (apply IZR_le; lia).
  assert (Hn50 : IZR n <= bpow radix2 50) by (change (bpow radix2 50) with (IZR (2 ^ 50)); apply IZR_le; lia).
  destruct (rnd64_err (IZR n * r)) as [e1 [h1 [He1 [Hh1 Hy]]]].
  destruct (rnd64_err (y / r)) as [e2 [h2 [He2 [Hh2 Hq]]]].
  assert (HU : 0 < U) by apply bpow_gt_0.
  assert (HnU : IZR n * U <= / 8).
  { change (/ 8) with (bpow radix2 (-3)). replace (bpow radix2 (-3)) with (bpow radix2 50 * U) by (unfold U; rewrite <- bpow_plus; reflexivity).
    apply Rmult_le_compat_r; [lra|exact Hn50]. }
  assert (HE0 : 0 <= ETA) by (apply bpow_ge_0).
  assert (HE1 : ETA <= / 64) by (change (/ 64) with (bpow radix2 (-6)); apply bpow_le; lia).
  assert (HE2 : ETA / r <= / 64).
  { unfold Rdiv. apply Rle_trans with (ETA * / bpow radix2 (-553)).
    - apply Rmult_le_compat_l; [exact HE0|]. apply Rinv_le_contravar; [apply bpow_gt_0|exact Hr0].
    - rewrite <- bpow_opp. unfold ETA. rewrite <- bpow_plus. change (/ 64) with (bpow radix2 (-6)). apply bpow_le. lia. }
  pose proof (real_core (IZR n) r U ETA e1 e2 h1 h2 Hn1 HU HnU Hrp HE0 HE1 HE2 He1 He2 Hh1 Hh2) as Hc.
  cbv zeta in Hc. rewrite <- Hy in Hc. fold y in Hc. rewrite <- Hq in Hc. fold q in Hc.
  split; [exact Hc|]. split.
  - assert (Hy0 : 0 <= y) by (apply round_ge_generic; [apply fmt_valid|apply valid_rnd_N|apply generic_format_0|]; nra).
    rewrite Rabs_pos_eq by exact Hy0. apply Rle_lt_trans with (bpow radix2 550); [|apply bpow_lt; reflexivity].
    unfold y. rewrite <- (rnd64_bpow 550) by lia. apply rnd64_le.
    replace (bpow radix2 550) with (bpow radix2 50 * bpow radix2 500) by (rewrite <- bpow_plus; reflexivity).
    apply Rmult_le_compat; lra.
  - apply Rabs_def2 in Hc. apply Rlt_trans with (bpow radix2 51); [|apply bpow_lt; reflexivity].
    change (bpow radix2 51) with (2 * bpow radix2 50). apply Rabs_def1; lra.
Qed.

Notation Hp := PrimFloat.Hprec.
Notation Hm := PrimFloat.Hmax.
Notation bf := (binary_float FloatOps.prec FloatOps.emax).
Notation P2B := PrimFloat.Prim2B.

Definition rate_ok (r : Coq.Floats.PrimFloat.float) : bool :=
  match Prim2SF r with
  | S754_finite false m e => (Zpos m <? 2 ^ 53)%Z && (-553 <=? e)%Z && (e <=? 447)%Z
  | _ => false
  end.

Lemma rate_facts r : rate_ok r = true ->
  is_finite (P2B r) = true /\ bpow radix2 (-553) <= B2R (P2B r) <= bpow radix2 500.
Proof.
  unfold rate_ok. rewrite <- PrimFloat.B2SF_Prim2B. destruct (P2B r) as [s|s| |s m e B]; cbn [B2SF]; try discriminate.
  destruct s; [discriminate|]. intros H. apply andb_true_iff in H. destruct H as [H H3]. apply andb_true_iff in H. destruct H as [H1 H2].
  apply Z.ltb_lt in H1. apply Z.leb_le in H2, H3. split; [reflexivity|].
  cbn [B2R cond_Zopp]. unfold F2R. cbn [Fnum Fexp].
  assert (Hm1 : 1 <= IZR (Zpos m)) by (apply IZR_le; lia).
  assert (Hm2 : IZR (Zpos m) <= bpow radix2 53) by (change (bpow radix2 53) with (IZR (2 ^ 53)); apply IZR_le; lia).
  pose proof (bpow_gt_0 radix2 e) as He0.
  split.
  - apply Rle_trans with (1 * bpow radix2 e); [rewrite Rmult_1_l; apply bpow_le; lia|]. apply Rmult_le_compat_r; lra.
  - replace (bpow radix2 500) with (bpow radix2 53 * bpow radix2 447) by (rewrite <- bpow_plus; reflexivity).
    apply Rmult_le_compat; try lra. apply bpow_le. lia.
Qed.

Lemma of_nat_float (n : Z) : (1 <= n < 2 ^ 50)%Z -> is_finite (P2B (f_of_Z n)) = true /\ B2R (P2B (f_of_Z n)) = IZR n.
Proof.
  intros Hn. unfold f_of_Z. destruct n as [|p|p]; try lia.
  rewrite PrimFloat.of_int63_equiv.
  assert (Hto : Uint63.to_Z (Uint63.of_Z (Zpos p)) = Zpos p).
  { rewrite Uint63.of_Z_spec. apply Z.mod_small. unfold Uint63.wB, Uint63.size. cbn. lia. }
  rewrite Hto.
  pose proof (binary_normalize_correct FloatOps.prec FloatOps.emax Hp Hm mode_NE (Zpos p) 0 false) as HN.
  cbv zeta in HN.
  assert (HF : F2R (Float radix2 (Zpos p) 0) = IZR (Zpos p)) by (unfold F2R; cbn [Fnum Fexp bpow]; ring).
  rewrite HF in HN.
  change (round radix2 (fexp FloatOps.prec FloatOps.emax) (round_mode mode_NE) (IZR (Zpos p))) with (rnd64 (IZR (Zpos p))) in HN.
  rewrite rnd64_int in HN by lia.
  rewrite Rlt_bool_true in HN.
  2:{ rewrite Rabs_pos_eq by (apply IZR_le; lia). change (bpow radix2 FloatOps.emax) with (IZR (2 ^ 1024)). apply IZR_lt.
      apply Z.lt_trans with (2 ^ 50)%Z; [lia|]. apply Z.pow_lt_mono_r; lia. }
  destruct HN as [HR [HFi _]]. split; [exact HFi|exact HR].
Qed.

Lemma pos_neqb_zero r : 0 < B2R (P2B r) -> Coq.Floats.PrimFloat.eqb r 0 = false.
Proof.
  intros Hpos. rewrite PrimFloat.eqb_equiv. unfold Beqb. rewrite !PrimFloat.B2SF_Prim2B.
  replace (Prim2SF 0) with (S754_zero false) by reflexivity. rewrite <- PrimFloat.B2SF_Prim2B.
  destruct (P2B r) as [s|s| |s m e B]; cbn [B2R] in Hpos; try lra. destruct s; reflexivity.
Qed.
Lemma prim_mul_correct x y : is_finite (P2B x) = true -> is_finite (P2B y) = true ->
  Rabs (rnd64 (B2R (P2B x) * B2R (P2B y))) < bpow radix2 1024 ->
  B2R (P2B (Coq.Floats.PrimFloat.mul x y)) = rnd64 (B2R (P2B x) * B2R (P2B y)) /\
  is_finite (P2B (Coq.Floats.PrimFloat.mul x y)) = true.
Proof.
  intros Hx Hy Hb. rewrite PrimFloat.mul_equiv.
  pose proof (Bmult_correct FloatOps.prec FloatOps.emax Hp Hm mode_NE (P2B x) (P2B y)) as H.
  rewrite Rlt_bool_true in H by exact Hb. destruct H as [HR [HF _]]. rewrite Hx, Hy in HF. split; [exact HR|exact HF].
Qed.
Lemma prim_div_correct x y : is_finite (P2B x) = true -> B2R (P2B y) <> 0 ->
  Rabs (rnd64 (B2R (P2B x) / B2R (P2B y))) < bpow radix2 1024 ->
  B2R (P2B (Coq.Floats.PrimFloat.div x y)) = rnd64 (B2R (P2B x) / B2R (P2B y)) /\
  is_finite (P2B (Coq.Floats.PrimFloat.div x y)) = true.
Proof.
  intros Hx Hy Hb. rewrite PrimFloat.div_equiv.
  pose proof (Bdiv_correct FloatOps.prec FloatOps.emax Hp Hm mode_NE (P2B x) (P2B y) Hy) as H.
  rewrite Rlt_bool_true in H by exact Hb. destruct H as [HR [HF _]]. rewrite Hx in HF. split; [exact HR|exact HF].
Qed.

Lemma IZR_near (k n : Z) : Rabs (IZR k - IZR n) < 1 -> k = n.
Proof. intros H. apply Rabs_def2 in H. apply Zminus_eq, one_IZR_lt1. rewrite minus_IZR. lra. Qed.
Lemma nearest_even_unique (m : positive) (e n z : Z) :
  nearest_even m e z -> Rabs (IZR (Zpos m) * bpow radix2 e - IZR n) < / 2 -> z = n.
Proof.
  unfold nearest_even. intros Hz Hq. apply IZR_near. destruct e as [|p|k].
  1,2: subst z; rewrite mult_IZR, (IZR_Zpower radix2) by lia; lra.
  (* |z d - m| <= d/2 and |m/d - n| < 1/2  ==>  |z - n| < 1 *)
  cbv zeta in Hz. destruct Hz as [Hz _]. set (d := (2 ^ Zpos k)%Z) in *.
  assert (HdR : 0 < IZR d) by (apply IZR_lt, Z.pow_pos_nonneg; lia).
  change (bpow radix2 (Z.neg k)) with (/ IZR (Z.pow_pos 2 k)) in Hq. rewrite Z.pow_pos_fold in Hq. fold d in Hq.
  apply IZR_le in Hz. rewrite mult_IZR, abs_IZR, minus_IZR, mult_IZR in Hz.
  assert (Hzle : Rabs (IZR z * IZR d - IZR (Zpos m)) <= IZR d / 2) by lra.
  apply Rabs_le_inv in Hzle. apply Rabs_def2 in Hq.
  set (x := IZR (Zpos m) * / IZR d) in *.
  replace (IZR (Zpos m)) with (x * IZR d) in Hzle by (unfold x; field; lra).
  apply Rabs_def1; apply (Rmult_lt_reg_r (IZR d)); try exact HdR; nra.
Qed.

Theorem same_rate_count_all (F : nat) (r : Coq.Floats.PrimFloat.float) :
  (1 <= F)%nat -> (Z.of_nat F < 2 ^ 50)%Z -> rate_ok r = true -> new_frame_count F r r = Ok F.
Proof.
  intros HF1 HF2 Hr. set (n := Z.of_nat F). assert (Hn : (1 <= n < 2 ^ 50)%Z) by (unfold n; lia).
  destruct (rate_facts r Hr) as [HrF [Hr0 Hr1]].
  destruct (of_nat_float n Hn) as [HxF HxR].
  assert (Hrpos : 0 < B2R (P2B r)) by (eapply Rlt_le_trans; [apply (bpow_gt_0 radix2 (-553))|exact Hr0]).
  pose proof (real_same_rate n (B2R (P2B r)) Hn (conj Hr0 Hr1)) as [Hq [Hyb Hqb]]. cbv zeta in Hq, Hyb, Hqb.
  assert (Hn1 : 1 <= IZR n) by (apply IZR_le; lia).
  apply Rabs_def2 in Hq. destruct Hq as [Hq1 Hq2].
  unfold new_frame_count. rewrite (pos_neqb_zero r Hrpos). unfold count_quotient. fold n.
  (* the product and the quotient are the rounded real ones *)
  destruct (prim_mul_correct (f_of_Z n) r HxF HrF) as [HyR HyF]; rewrite HxR in *; [exact Hyb|].
  set (y := Coq.Floats.PrimFloat.mul (f_of_Z n) r) in *.
  destruct (prim_div_correct y r HyF ltac:(lra)) as [HqR HqF]; rewrite HyR in *; [exact Hqb|].
  (* rounding the quotient to the nearest integer *)
  unfold py_round. rewrite <- PrimFloat.B2SF_Prim2B.
  destruct (P2B (Coq.Floats.PrimFloat.div y r)) as [s|s| |s m e B]; cbn [is_finite] in HqF; try discriminate.
  - cbn [B2R] in HqR. lra.
  - cbn [B2SF sf_round rbind].
    assert (Hs : s = false).
    { destruct s; [|reflexivity]. cbn [B2R cond_Zopp] in HqR.
      assert (F2R (Float radix2 (Z.opp (Zpos m)) e) <= 0) by (apply F2R_le_0; cbn [Fnum]; lia). lra. }
    subst s. cbn [B2R cond_Zopp] in HqR. unfold F2R in HqR. cbn [Fnum Fexp] in HqR.
    rewrite (nearest_even_unique m e n _ (rhe_pos_nearest_even m e)) by (rewrite HqR; apply Rabs_def1; lra).
    destruct (Z.ltb_spec n 0); [lia|]. unfold n. rewrite Nat2Z.id. reflexivity.
Qed.

Example same_rate_count_all_example :
  new_frame_count (Z.to_nat 123456789) 29.97%float 29.97%float = Ok (Z.to_nat 123456789).
Proof. apply same_rate_count_all; [lia|rewrite Z2Nat.id by lia; reflexivity|vm_compute; reflexivity]. Qed.
