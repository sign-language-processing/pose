(* C06, header-object level (model/C06_Heap.v: one heap object per header; what callers hold is never the memo's object).
   Of the value level (the memo never changes what a read returns) only [run_reads] stands here, for the statements of
   props/C06.v; the lemmas are PoseReadLemmas'.  The non-vacuity examples at the end need C01_Examples. *)
From Coq Require Import ZArith NArith List Lia ZifyBool ZifyN ZifyNat Bool.
Require Import Result Bytes Prog Codec PoseRead PoseReadLemmas C06_Heap.
Import ListNotations.
Open Scope N_scope.

Section WithLegacy.
Variable legacy : vclass -> header -> rargs -> prog body.

Fixpoint run_reads (m : option memo) (ops : list (bytes * rargs)) : list (result pose) :=
  match ops with
  | [] => []
  | (b, a) :: rest => fst (read_bytes legacy m b a) :: run_reads (snd (read_bytes legacy m b a)) rest
  end.

Definition HInv (s : hstate) : Prop :=
  MemoOK (memo_view s) /\
  (forall c, hmem s = Some c -> (hm_addr c < length (heap s))%nat /\ ~ In (hm_addr c) (handed s)) /\
  NoDup (handed s) /\ (forall a, In a (handed s) -> (a < length (heap s))%nat).

Lemma hinv_init : HInv hinit.
Proof. unfold HInv, hinit; cbn. repeat split; try constructor; try discriminate; contradiction. Qed.

Lemma nth_set_nth_other {X} (l : list X) : forall n m x d, n <> m -> nth m (set_nth n x l) d = nth m l d.
Proof. induction l as [|y l IH]; intros [|n] [|m] x d H; cbn; try reflexivity; try congruence. apply IH. congruence. Qed.
Lemma nth_set_nth_same {X} (l : list X) : forall n x d, (n < length l)%nat -> nth n (set_nth n x l) d = x.
Proof. induction l as [|y l IH]; intros [|n] x d H; cbn in *; try lia; [reflexivity|]. apply IH. lia. Qed.
Lemma length_set_nth {X} (l : list X) : forall n x, length (set_nth n x l) = length l.
Proof. induction l as [|y l IH]; intros [|n] x; cbn; try reflexivity. now rewrite IH. Qed.

Lemma memo_view_ext s s' : hmem s' = hmem s ->
  (forall c, hmem s = Some c -> deref s' (hm_addr c) dummy_header = deref s (hm_addr c) dummy_header) ->
  memo_view s' = memo_view s.
Proof. intros Hm Hd. unfold memo_view. rewrite Hm. destruct (hmem s) as [c|]; [|reflexivity]. now rewrite (Hd c eq_refl). Qed.

Lemma memo_view_alloc s h : HInv s -> memo_view (snd (alloc h s)) = memo_view s.
Proof.
  intros [_ [Hm _]]. unfold memo_view, alloc; cbn [snd hmem heap]. destruct (hmem s) as [c|] eqn:E; [|reflexivity].
  destruct (Hm c eq_refl) as [Hlt _]. unfold deref; cbn [heap]. now rewrite app_nth1.
Qed.

(* what a read returns, as a pose value: header object dereferenced in the state after the read *)
Definition pose_of (s : hstate) (r : result (addr * body)) : result pose :=
  rmap (fun ab => {| p_header := deref s (fst ab) dummy_header; p_body := snd ab |}) r.

Theorem read_h_value s buffer a : HInv s ->
  pose_of (snd (read_h legacy s buffer a)) (fst (read_h legacy s buffer a)) = fst (read_bytes legacy None buffer a).
Proof.
  intros HI. destruct HI as [Hmo HI'].
  rewrite <- (read_bytes_memo_neutral legacy (memo_view s) buffer a Hmo).
  unfold read_h, read_bytes.
  destruct (check_cache (memo_view s) buffer) as [c|] eqn:Hc.
  - cbn [alloc fst snd]. unfold pose_of, hand_out, deref; cbn [fst snd heap].
    destruct (run_plain (read_body legacy (m_header c) a) _) as [[b r]|e]; cbn [rmap fst snd]; [|reflexivity].
    now rewrite nth_middle.
  - destruct (run_plain rd_header _) as [[h r]|e]; [|reflexivity].
    cbn [alloc fst snd]. unfold pose_of, hand_out, deref; cbn [fst snd heap].
    destruct (run_plain (read_body legacy h a) r) as [[b r']|e]; cbn [rmap fst snd]; [|reflexivity].
    rewrite app_nth1 by (rewrite app_length; cbn; lia). now rewrite nth_middle.
Qed.

Theorem read_h_fresh s buffer a ad b : HInv s -> fst (read_h legacy s buffer a) = Ok (ad, b) ->
  ~ In ad (handed s) /\ In ad (handed (snd (read_h legacy s buffer a))) /\
  (forall c, hmem (snd (read_h legacy s buffer a)) = Some c -> hm_addr c <> ad).
Proof.
  intros [Hmo [Hm [Hnd Hlt]]] Hr. unfold read_h in *.
  destruct (check_cache (memo_view s) buffer) as [c|] eqn:Hc.
  - cbn [alloc fst snd] in *.
    destruct (run_plain (read_body legacy (m_header c) a) _) as [[b0 r]|e]; cbn [rmap fst snd] in Hr; [|discriminate].
    injection Hr as <- <-. split; [intros Hin; apply Hlt in Hin; lia|]. split; [cbn [hand_out handed]; apply in_or_app; right; now left|].
    intros c' Hc'. cbn [hand_out hmem] in Hc'. destruct (Hm c' Hc') as [Hl _]. lia.
  - destruct (run_plain rd_header _) as [[h r]|e]; [|discriminate]. cbn [alloc fst snd] in *.
    destruct (run_plain (read_body legacy h a) r) as [[b0 r']|e]; cbn [rmap fst snd] in Hr; [|discriminate].
    injection Hr as <- <-. split; [intros Hin; apply Hlt in Hin; lia|]. split; [cbn [hand_out handed]; apply in_or_app; right; now left|].
    intros c' Hc'. cbn [hand_out hmem] in Hc'. injection Hc' as <-. cbn [hm_addr]. rewrite app_length. cbn. lia.
Qed.

Lemma hinv_new s h : HInv s -> HInv (hand_out (length (heap s)) (snd (alloc h s))).
Proof.
  intros HI. pose proof HI as [Hmo [Hm [Hnd Hlt]]]. split; [|split; [|split]].
  - change (MemoOK (memo_view (snd (alloc h s)))). rewrite memo_view_alloc; assumption.
  - intros c Hc. destruct (Hm c Hc) as [Hl Hni]. cbn [hand_out alloc snd heap handed]. rewrite app_length. split; [lia|].
    intros Hin. apply in_app_or in Hin. destruct Hin as [Hin|[Hin|[]]]; [contradiction|lia].
  - apply (NoDup_Add (Add_app (length (heap s)) (handed s) [])). rewrite app_nil_r. split; [exact Hnd|]. intros Hin. apply Hlt in Hin. lia.
  - intros x Hin. cbn [hand_out alloc snd heap]. rewrite app_length. cbn [length].
    apply in_app_or in Hin. destruct Hin as [Hin|[<-|[]]]; [apply Hlt in Hin; lia|lia].
Qed.

(* set_cache: a copy of the parsed header is allocated and becomes the memo's object *)
Lemma hinv_store s h e slice : HInv s -> MemoOK (Some {| m_start := 0; m_end := e; m_slice := slice; m_header := h |}) ->
  HInv {| heap := heap s ++ [h]; hmem := Some {| hm_start := 0; hm_end := e; hm_slice := slice; hm_addr := length (heap s) |};
          handed := handed s |}.
Proof.
  intros [_ [_ [Hnd Hlt]]] Hok. unfold HInv, memo_view, deref; cbn [heap hmem handed hm_start hm_end hm_slice hm_addr].
  rewrite nth_middle, app_length. cbn [length]. split; [exact Hok|]. split; [|split; [exact Hnd|]].
  - intros c' [= <-]. cbn [hm_addr]. split; [lia|]. intros Hin. apply Hlt in Hin. lia.
  - intros x Hin. apply Hlt in Hin. lia.
Qed.

Lemma hinv_read s buffer a : HInv s -> HInv (snd (read_h legacy s buffer a)).
Proof.
  intros HI. unfold read_h.
  destruct (check_cache (memo_view s) buffer) as [c|] eqn:Hc; [exact (hinv_new s (m_header c) HI)|].
  destruct (run_plain rd_header {| pbuf := buffer; poff := 0 |}) as [[h r]|e] eqn:Hr; [|exact HI].
  apply (hinv_store _ h (poff r) _ (hinv_new s h HI)).
  pose proof (read_bytes_memo_ok legacy None buffer a I) as Hok. unfold read_bytes in Hok. cbn [check_cache] in Hok.
  rewrite Hr in Hok. exact Hok.
Qed.

(* in-place edits and copies by callers keep the invariant: they cannot reach the memo's object *)
Lemma hinv_step s o : HInv s -> HInv (fst (step_h legacy s o)).
Proof.
  intros HI. destruct o as [buffer a|k f|k]; cbn [step_h].
  - pose proof (hinv_read s buffer a HI) as H. destruct (read_h legacy s buffer a). exact H.
  - destruct (nth_error (handed s) k) as [ad|] eqn:Hk; [|exact HI]. cbn [fst].
    pose proof HI as [Hmo [Hm [Hnd Hlt]]]. apply nth_error_In in Hk.
    unfold HInv; cbn [heap hmem handed]. split.
    { rewrite (memo_view_ext s); [exact Hmo|reflexivity|].
      intros c Hc. destruct (Hm c Hc) as [_ Hni]. unfold deref; cbn [heap].
      apply nth_set_nth_other. intros ->. contradiction. }
    split; [intros c Hc; rewrite length_set_nth; now apply Hm|].
    split; [exact Hnd|]. intros x Hx. rewrite length_set_nth. now apply Hlt.
  - destruct (nth_error (handed s) k) as [ad|]; [|exact HI]. exact (hinv_new s _ HI).
Qed.
Lemma hinv_run ops : forall s, HInv s -> HInv (run_h legacy s ops).
Proof. induction ops as [|o ops IH]; intros s HI; [exact HI|]. cbn [run_h]. apply IH. now apply hinv_step. Qed.

(* C06, first sentence: after ANY history of reads, in-place mutations of earlier results and copies, a read
   returns exactly what it returns in a fresh process *)
Theorem read_history_independent ops buffer a :
  let s := run_h legacy hinit ops in
  pose_of (snd (read_h legacy s buffer a)) (fst (read_h legacy s buffer a)) = fst (read_bytes legacy None buffer a).
Proof. cbv zeta. apply read_h_value. apply hinv_run, hinv_init. Qed.

(* C06, second sentence: objects held by callers are pairwise distinct and none is the memo's *)
Theorem no_sharing ops :
  let s := run_h legacy hinit ops in
  NoDup (handed s) /\ (forall c, hmem s = Some c -> ~ In (hm_addr c) (handed s)).
Proof. cbv zeta. destruct (hinv_run ops hinit hinv_init) as [_ [Hm [Hnd _]]]. split; [exact Hnd|]. intros c Hc. now apply Hm. Qed.
End WithLegacy.

(* non-vacuity: a history with a read, a renaming of the result's first component, a copy, and a second read *)
Require Import C01_Examples.
Definition ex_rename (h : header) : header :=
  {| h_version := h_version h; h_dims := (1, 2, 3);
     h_comps := match h_comps h with c :: r => {| c_name := [90]; c_format := c_format c; c_points := c_points c; c_limbs := c_limbs c; c_colors := c_colors c |} :: r | [] => [] end |}.
Definition ex_history : list hop :=
  [HRead ex_empty_bytes no_args; HMutate 0 ex_rename; HCopy 0; HRead ex_empty_bytes no_args].
