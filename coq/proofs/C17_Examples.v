(* C17 - concrete, non-trivial values satisfying the hypotheses of the theorems in props/C17.v. *)
From Coq Require Import Reals List Lra Bool Arith.
Require Import Num C17_Repr C17_Spec C17_XReal C17_Layout C17_Vec C17_Real C17_Total.
Import ListNotations.
Local Open Scope R_scope.

(* the triangle of /repo's representation/inner_angle_test.py and point_line_distance_test.py:
   p1 = (2,3,4), p2 = (1,1,1), p3 = (3,4,2) *)
Definition ex_p1 : vec := [2; 3; 4].
Definition ex_p2 : vec := [1; 1; 1].
Definition ex_p3 : vec := [3; 4; 2].
Lemma ex_dot12 : dot (vsub ex_p1 ex_p2) (vsub ex_p1 ex_p2) = 14.
Proof. unfold ex_p1, ex_p2, vsub, dot, map2. cbn [combine map fold_right fst snd]. ring. Qed.
Lemma ex_dot32 : dot (vsub ex_p3 ex_p2) (vsub ex_p3 ex_p2) = 14.
Proof. unfold ex_p3, ex_p2, vsub, dot, map2. cbn [combine map fold_right fst snd]. ring. Qed.
Lemma ex_nondegenerate :
  length ex_p1 = length ex_p2 /\ length ex_p2 = length ex_p3 /\ length ex_p3 = length ex_p2 /\
  ex_p1 <> [] /\ ex_p2 <> [] /\ (1 : R) <> 2 /\
  norm (vsub ex_p1 ex_p2) <> 0 /\ norm (vsub ex_p3 ex_p2) <> 0 /\ ex_p2 <> ex_p3 /\ euclid ex_p2 ex_p3 <> 0 /\
  euclid ex_p1 ex_p2 = R_sqrt.sqrt 14.
Proof.
  assert (H14 : R_sqrt.sqrt 14 <> 0) by (apply Rgt_not_eq, sqrt_lt_R0; lra).
  assert (Hne : ex_p2 <> ex_p3) by (unfold ex_p2, ex_p3; intros [= H _ _]; lra).
  repeat split; try reflexivity; try discriminate; try lra.
  - unfold norm. rewrite ex_dot12. exact H14.
  - unfold norm. rewrite ex_dot32. exact H14.
  - exact Hne.
  - intros E. apply Hne. apply euclid_zero_iff; [reflexivity|exact E].
  - unfold euclid, norm. rewrite ex_dot12. reflexivity.
Qed.

(* a missing first point carrying NaN and +inf under the mask; a vertical limb outside the mask *)
Definition ex_m1 : list (mv X_ops) := [(NaN, false); (PInf, false)].
Definition ex_m2 : list (mv X_ops) := [(Fin 1, true); (Fin 3, true)].
Definition ex_m3 : list (mv X_ops) := [(Fin 1, true); (Fin 5, true)].
Lemma ex_masked :
  length ex_m1 = length ex_m2 /\ length ex_m2 = length ex_m3 /\ length ex_m3 = length ex_m2 /\
  valid_fin ex_m1 /\ valid_fin ex_m2 /\ valid_fin ex_m3 /\
  all_valid ex_m1 && all_valid ex_m2 = false /\ all_valid ex_m1 && all_valid ex_m2 && all_valid ex_m3 = false /\
  forallb (fun c : mv X_ops => negb (snd c)) ex_m1 = true /\ (3 : R) <> 5.
Proof.
  repeat split; try reflexivity; try lra;
    repeat constructor; cbn [fst snd]; intros; try discriminate; apply is_fin_Fin.
Qed.

Local Close Scope R_scope.
(* two components (3 and 2 points, formats of 2 letters), limbs 0-1, 1-2 | 0-1: chains (0,1,2) only *)
Definition ex_header : header := [mkComp 3 2 [(0, 1); (1, 2)]; mkComp 2 2 [(0, 1)]].
Definition ex_header_two_chains : header := [mkComp 2 2 [(0, 1)]; mkComp 3 2 [(0, 1); (1, 2); (1, 0)]].
