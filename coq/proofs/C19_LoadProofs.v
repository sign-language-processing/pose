(* C19 - load_openpose as a whole: it does not raise on fitting inputs, shape, recorded arguments, every cell. *)
From Coq Require Import List Arith NArith ZArith Bool Lia.
Require Import ListFacts Result ResultFacts F32 C19_Layout C19_FrameId C19_OpenPose C19_Spec C19_ArrayLemmas C19_LoopLemmas.
Import ListNotations.
Local Open Scope nat_scope.

Lemma list_max_ge l x : In x l -> x <= list_max l.
Proof. induction l as [|y l IH]; intros H; [contradiction|]. cbn [list_max fold_right]. destruct H as [->|H]; [lia|]. specialize (IH H). unfold list_max in IH. lia. Qed.

Lemma total_points_cons c cs : total_points (c :: cs) = length (c_points c) + total_points cs.
Proof. reflexivity. Qed.

Lemma get3_map {A B} (g : A -> B) a f p k : get3 (map (map (map g)) a) f p k = option_map g (get3 a f p k).
Proof.
  unfold get3. rewrite nth_error_map. destruct (nth_error a f) as [x|]; [|reflexivity]. cbn [option_map].
  rewrite nth_error_map. destruct (nth_error x p) as [y|]; [|reflexivity]. cbn [option_map]. apply nth_error_map.
Qed.
Lemma rect_mask F P K (g : N -> list bool) a : (forall c, length (g c) = 2) -> rect3 F P K a -> rect4 F P K 2 (map (map (map g)) a).
Proof.
  intros Hg [HF HR]. split; [now rewrite map_length|]. rewrite Forall_map. eapply Forall_impl; [|exact HR].
  intros x [HxP HxR]. split; [now rewrite map_length|]. rewrite Forall_map. eapply Forall_impl; [|exact HxR].
  intros y HyK. cbv beta in HyK. split; [now rewrite map_length|]. rewrite Forall_map. apply Forall_forall. intros; apply Hg.
Qed.

Lemma frame_count_gt (fs : frames) nf : count_ok fs nf -> last_id fs < frame_count fs nf.
Proof. unfold count_ok, frame_count. destruct nf; lia. Qed.

Definition pose_shape_ok (ps : pose) : Prop :=
  let '(F, P, K) := p_shape ps in rect4 F P K 2 (p_data ps) /\ rect4 F P K 2 (p_mask ps) /\ rect3 F P K (p_conf ps).

Lemma load_openpose_eq cs (fs : frames) fps w h d nf : fs <> [] ->
  load_openpose cs fs fps w h d nf =
  do a <- frame_loop cs fs (zeros (frame_count fs nf) (max_people fs) (total_points cs));
  Ok (mkPose cs (w, h, d) fps (frame_count fs nf, max_people fs, total_points cs) (a_data a)
        (map (map (map (fun c => let m := is_zero32 c in [m; m]))) (a_conf a)) (a_conf a)).
Proof. intros H. destruct fs; [contradiction|]. destruct nf; reflexivity. Qed.
Lemma load_inv cs (fs : frames) fps w h d nf ps : load_openpose cs fs fps w h d nf = Ok ps ->
  exists a F P, ps = mkPose cs (w, h, d) fps (F, P, total_points cs) (a_data a)
                     (map (map (map (fun c => let m := is_zero32 c in [m; m]))) (a_conf a)) (a_conf a).
Proof.
  unfold load_openpose. intros H. apply rbind_ok in H as (F & _ & H). apply rbind_ok in H as (P & _ & H).
  apply rbind_ok in H as (a & _ & H). apply Ok_inj in H. eauto.
Qed.
(* the mask is computed from the stored confidence, whatever the input *)
Lemma conf_mask cs (fs : frames) fps w h d nf ps : load_openpose cs fs fps w h d nf = Ok ps ->
  forall f p k c, conf_at ps f p k = Some c ->
    mask_at ps f p k 0 = Some (is_zero32 c) /\ mask_at ps f p k 1 = Some (is_zero32 c).
Proof.
  intros H f p k c Hc. destruct (load_inv _ _ _ _ _ _ _ _ H) as (a & F & P & ->).
  unfold conf_at in Hc. unfold mask_at, get4. cbn [p_conf p_mask] in *. rewrite get3_map, Hc. cbn. auto.
Qed.
Lemma cell_at_inv ps f p k x y c : cell_at ps f p k = Some (x, y, c) ->
  data_at ps f p k 0 = Some x /\ data_at ps f p k 1 = Some y /\ conf_at ps f p k = Some c.
Proof.
  unfold cell_at. destruct (data_at ps f p k 0); [|discriminate]. destruct (data_at ps f p k 1); [|discriminate].
  destruct (conf_at ps f p k); [|discriminate]. intros H; injection H as -> -> ->. auto.
Qed.

(* any component table whose formats have three letters, any fitting input *)
Theorem load_general cs (fs : frames) fps w h d nf :
  formats_xyc cs -> fs <> [] -> dict_ok fs -> count_ok fs nf -> frames_fit cs fs ->
  exists ps, load_openpose cs fs fps w h d nf = Ok ps /\
    p_comps ps = cs /\ p_dims ps = (w, h, d) /\ p_fps ps = fps /\
    p_shape ps = (frame_count fs nf, max_people fs, total_points cs) /\ pose_shape_ok ps /\
    forall f p k, f < frame_count fs nf -> p < max_people fs -> k < total_points cs ->
      cell_at ps f p k = Some (expected_cell cs fs f p k) /\
      forall x y c, expected_cell cs fs f p k = (x, y, c) ->
        mask_at ps f p k 0 = Some (is_zero32 c) /\ mask_at ps f p k 1 = Some (is_zero32 c).
Proof.
  intros Hfmt Hne Hnd Hcnt Hfit.
  pose proof (load_openpose_eq cs fs fps w h d nf Hne) as Hload.
  set (F := frame_count fs nf) in *. set (P := max_people fs) in *. set (K := total_points cs) in *.
  assert (Hall : Forall (fun x => fst x < F /\ length (snd x) <= P /\ Forall (fits K cs) (snd x)) fs).
  { apply Forall_forall. intros x Hx. split; [|split].
    - apply Nat.le_lt_trans with (2 := frame_count_gt fs nf Hcnt). apply list_max_ge, in_map. exact Hx.
    - apply list_max_ge. apply (in_map (fun x => length (snd x))). exact Hx.
    - unfold frames_fit in Hfit. rewrite Forall_forall in Hfit. exact (Hfit x Hx). }
  destruct (frame_loop_ok F P K cs Hfmt fs _ Hall Hnd (zeros_shaped F P K)) as (a & R & Hs & G).
  rewrite R in Hload. cbn [rbind] in Hload.
  eexists. split; [exact Hload|]. cbn [p_comps p_dims p_fps p_shape]. repeat (split; [reflexivity|]).
  split.
  { unfold pose_shape_ok. cbn [p_shape p_data p_mask p_conf]. destruct Hs as [Hd Hc].
    split; [exact Hd|]. split; [|exact Hc]. apply rect_mask; [reflexivity|exact Hc]. }
  intros f p k Hf Hp Hk.
  assert (Hcell : cell a f p k = Some (expected_cell cs fs f p k)).
  { rewrite G, zeros_cell. unfold expected_cell, json_person.
    destruct (Nat.ltb_spec f F), (Nat.ltb_spec p P), (Nat.ltb_spec k K); try lia. cbn [andb].
    destruct (find_frame f fs) as [fr|]; [|reflexivity].
    destruct (nth_error fr p) as [per|]; [|reflexivity].
    unfold pcell. destruct (person_triples cs per) as [ts|]; [|reflexivity]. destruct (nth_error ts k); reflexivity. }
  set (ps := mkPose _ _ _ _ _ _ _) in *. change (cell_at ps f p k = Some (expected_cell cs fs f p k)) in Hcell.
  split; [exact Hcell|]. intros x y c E. rewrite E in Hcell. apply cell_at_inv in Hcell as (_ & _ & Hc).
  exact (conf_mask _ _ _ _ _ _ _ _ Hload f p k c Hc).
Qed.

Lemma expected_absent cs (fs : frames) f p k : json_person fs f p = None -> expected_cell cs fs f p k = (0%N, 0%N, 0%N).
Proof. intros H. unfold expected_cell. now rewrite H. Qed.
Lemma expected_listed cs (fs : frames) f p k per ts x y c :
  json_person fs f p = Some per -> person_triples cs per = Some ts -> nth_error ts k = Some (x, y, c) ->
  expected_cell cs fs f p k = (cast32 x, cast32 y, cast32 c).
Proof. intros H1 H2 H3. unfold expected_cell. now rewrite H1, H2, H3. Qed.

(* for a conforming person the running keypoint index is the component offset *)
Lemma chunk3_len : forall n ns, length ns = 3 * n ->
  exists t, chunk3 ns = Some t /\ length t = n /\
    forall i, i < n -> exists x y c, nth_error ns (3 * i) = Some x /\ nth_error ns (3 * i + 1) = Some y /\
                                  nth_error ns (3 * i + 2) = Some c /\ nth_error t i = Some (x, y, c).
Proof.
  induction n as [|n IH]; intros ns Hl.
  - destruct ns; [|discriminate]. exists []. split; [reflexivity|]. split; [reflexivity|]. intros i Hi; lia.
  - destruct ns as [|x [|y [|c r]]]; cbn [length] in Hl; try lia.
    destruct (IH r ltac:(lia)) as (t & Et & Lt & Ht).
    exists ((x, y, c) :: t). cbn [chunk3]. rewrite Et. split; [reflexivity|]. split; [cbn [length]; lia|].
    intros [|i] Hi.
    + exists x, y, c. cbn. auto.
    + destruct (Ht i ltac:(lia)) as (x' & y' & c' & H0 & H1 & H2 & H3).
      exists x', y', c'. replace (3 * S i) with (S (S (S (3 * i)))) by lia. cbn [Nat.add nth_error]. auto.
Qed.

Lemma conforming_triples : forall cs per, person_conforms cs per ->
  exists ts, person_triples cs per = Some ts /\ length ts = total_points cs /\
    forall k c i, locate cs k = Some (c, i) ->
      exists ns x y cf, lookup (c_name c) per = Some ns /\
        nth_error ns (3 * i) = Some x /\ nth_error ns (3 * i + 1) = Some y /\ nth_error ns (3 * i + 2) = Some cf /\
        nth_error ts k = Some (x, y, cf).
Proof.
  induction cs as [|c0 cs IH]; intros per Hc.
  - exists []. split; [reflexivity|]. split; [reflexivity|]. intros k c i H; discriminate.
  - inversion Hc as [|c0' cs' (ns & El & Ln) Hrest]; subst.
    destruct (IH per Hrest) as (t2 & E2 & L2 & H2).
    destruct (chunk3_len _ ns Ln) as (t1 & E1 & L1 & H1).
    exists (t1 ++ t2). cbn [person_triples]. rewrite El, E1, E2. split; [reflexivity|].
    split; [rewrite app_length, total_points_cons; lia|].
    intros k c i Hloc. cbn [locate] in Hloc.
    destruct (Nat.ltb_spec k (length (c_points c0))) as [Hlt|Hge].
    + injection Hloc as <- <-. destruct (H1 k Hlt) as (x & y & cf & A0 & A1 & A2 & A3).
      exists ns, x, y, cf. repeat split; try assumption.
      rewrite nth_error_app1 by lia. exact A3.
    + destruct (H2 _ _ _ Hloc) as (ns' & x & y & cf & B & B0 & B1 & B2 & B3).
      exists ns', x, y, cf. repeat split; try assumption.
      rewrite nth_error_app2 by lia. rewrite L1. exact B3.
Qed.
Lemma people_impl (Q R : person -> Prop) (fs : frames) :
  (forall per, Q per -> R per) -> Forall (fun x => Forall Q (snd x)) fs -> Forall (fun x => Forall R (snd x)) fs.
Proof. intros H. apply Forall_impl. intros x. apply Forall_impl, H. Qed.
Lemma conforms_fits cs (fs : frames) : frames_conform cs fs -> frames_fit cs fs.
Proof.
  apply people_impl. intros per Hper. destruct (conforming_triples cs per Hper) as (ts & E & L & _).
  exists ts. split; [exact E|lia].
Qed.
Lemma locate_lt : forall cs k c i, locate cs k = Some (c, i) -> k < total_points cs /\ i < length (c_points c) /\ In c cs.
Proof.
  induction cs as [|c0 cs IH]; intros k c i H; [discriminate|]. cbn [locate] in H. rewrite total_points_cons.
  destruct (Nat.ltb_spec k (length (c_points c0))).
  - injection H as <- <-. split; [lia|]. split; [assumption|]. now left.
  - destruct (IH _ _ _ H) as (A & B & C). split; [lia|]. split; [assumption|]. now right.
Qed.
Lemma locate_some : forall cs k, k < total_points cs -> exists c i, locate cs k = Some (c, i).
Proof.
  induction cs as [|c0 cs IH]; intros k H; [cbn in H; lia|]. rewrite total_points_cons in H. cbn [locate].
  destruct (Nat.ltb_spec k (length (c_points c0))); [eauto|]. apply IH. lia.
Qed.
Lemma json_person_Forall (Q : person -> Prop) (fs : frames) f p per :
  Forall (fun x => Forall Q (snd x)) fs -> json_person fs f p = Some per -> Q per.
Proof.
  unfold json_person. induction 1 as [|[g fr] r Hfr _ IH]; cbn [find_frame]; [discriminate|].
  destruct (Nat.eqb f g); [|exact IH]. exact (Forall_nth_error _ _ _ _ Hfr).
Qed.
Lemma json_person_lt (fs : frames) nf f p per : count_ok fs nf -> json_person fs f p = Some per ->
  f < frame_count fs nf /\ p < max_people fs.
Proof.
  intros Hc. apply frame_count_gt in Hc. revert Hc. generalize (frame_count fs nf). intros F.
  unfold json_person, last_id, max_people. induction fs as [|[g fr] r IH]; cbn [find_frame]; [discriminate|].
  cbn [map fst snd list_max fold_right]. destruct (Nat.eqb_spec f g) as [->|N].
  - intros HF H. assert (p < length fr) by (apply nth_error_Some; rewrite H; discriminate). lia.
  - intros HF H. destruct (IH ltac:(unfold list_max in *; lia) H). unfold list_max in *. lia.
Qed.
