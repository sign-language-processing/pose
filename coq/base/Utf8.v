(* UTF-8 as CPython's bytes(s,'utf8') / bytes.decode('utf-8') (strict): code points are N.
   enc_cp fails on surrogates and values >= 0x110000 (UnicodeEncodeError); the decoder (Utf8S.dec_utf8: [width] of
   the lead byte, then [dec_cp]) rejects overlong forms, surrogates, > U+10FFFF and stray continuation bytes. *)
From Coq Require Import ZArith NArith List Bool Lia ZifyBool ZifyN ZifyNat.
Require Import ListN Bytes.
Import ListNotations.
Open Scope N_scope.

Definition valid_scalar (c : N) : bool := (c <? 0x110000) && negb ((0xD800 <=? c) && (c <? 0xE000)).
Definition enc_cp_raw (c : N) : bytes :=
  if c <? 0x80 then [c]
  else if c <? 0x800 then [0xC0 + c / 64; 0x80 + c mod 64]
  else if c <? 0x10000 then [0xE0 + c / 4096; 0x80 + (c / 64) mod 64; 0x80 + c mod 64]
  else [0xF0 + c / 262144; 0x80 + (c / 4096) mod 64; 0x80 + (c / 64) mod 64; 0x80 + c mod 64].
Definition enc_cp (c : N) : option bytes := if valid_scalar c then Some (enc_cp_raw c) else None.
Definition cont (b : N) : bool := (0x80 <=? b) && (b <? 0xC0).
Definition width (b0 : N) : N :=
  if b0 <? 0x80 then 1 else if b0 <? 0xC2 then 0 else if b0 <? 0xE0 then 2
  else if b0 <? 0xF0 then 3 else if b0 <? 0xF5 then 4 else 0.
(* decode one code point from exactly its bytes; the lead byte is not examined here: Utf8S.dec_fuel calls this on
   [width b0] bytes, and [width] is 0 on 0x80..0xC1 (continuation bytes, 2-byte overlongs) and above 0xF4 *)
Definition dec_cp (l : bytes) : option N :=
  match l with
  | [b0] => if b0 <? 0x80 then Some b0 else None
  | [b0; b1] => if cont b1 then Some ((b0 - 0xC0) * 64 + (b1 - 0x80)) else None
  | [b0; b1; b2] =>
      let c := (b0 - 0xE0) * 4096 + (b1 - 0x80) * 64 + (b2 - 0x80) in
      if cont b1 && cont b2 && (0x800 <=? c) && valid_scalar c then Some c else None
  | [b0; b1; b2; b3] =>
      let c := (b0 - 0xF0) * 262144 + (b1 - 0x80) * 4096 + (b2 - 0x80) * 64 + (b3 - 0x80) in
      if cont b1 && cont b2 && cont b3 && (0x10000 <=? c) && valid_scalar c then Some c else None
  | _ => None
  end.
(* Every scalar value is decoded from its own encoding.  The code point is written in base 64 once ([base64]);
   each multi-byte form is then decoded from its digits by linear arithmetic, without division. *)
Lemma base64 c : c = 64 * (c / 64) + c mod 64 /\ c mod 64 < 64.
Proof. split; [apply N.div_mod'|now apply N.mod_lt]. Qed.

Lemma payload_byte r : r < 64 -> cont (0x80 + r) = true /\ is_byte (0x80 + r) = true.
Proof. unfold cont, is_byte. lia. Qed.

Lemma width_lead b :
  (0xC2 <= b < 0xE0 -> width b = 2) /\ (0xE0 <= b < 0xF0 -> width b = 3) /\ (0xF0 <= b < 0xF5 -> width b = 4).
Proof.
  unfold width. destruct (N.ltb_spec b 0x80); [lia|]. destruct (N.ltb_spec b 0xC2); [lia|].
  destruct (N.ltb_spec b 0xE0); [lia|]. destruct (N.ltb_spec b 0xF0); [lia|]. destruct (N.ltb_spec b 0xF5); lia.
Qed.

Lemma two_bytes q r c : 2 <= q < 32 -> r < 64 -> c = 64 * q + r ->
  width (0xC0 + q) = 2 /\ all_bytes [0xC0 + q; 0x80 + r] = true /\
  dec_cp [0xC0 + q; 0x80 + r] = Some c.
Proof.
  intros Hq Hr Hc. destruct (payload_byte r Hr) as [C B]. split; [|split].
  - apply width_lead. lia.
  - unfold all_bytes. cbn [forallb]. rewrite B. unfold is_byte. lia.
  - unfold dec_cp. rewrite C. f_equal. lia.
Qed.
Lemma three_bytes q r2 r1 c : q < 16 -> r2 < 64 -> r1 < 64 -> c = 4096 * q + 64 * r2 + r1 ->
  0x800 <= c -> valid_scalar c = true ->
  width (0xE0 + q) = 3 /\ all_bytes [0xE0 + q; 0x80 + r2; 0x80 + r1] = true /\
  dec_cp [0xE0 + q; 0x80 + r2; 0x80 + r1] = Some c.
Proof.
  intros Hq H2 H1 Hc Hlo Hv. destruct (payload_byte r2 H2) as [C2 B2]. destruct (payload_byte r1 H1) as [C1 B1].
  split; [|split].
  - apply width_lead. lia.
  - unfold all_bytes. cbn [forallb]. rewrite B2, B1. unfold is_byte. lia.
  - unfold dec_cp. rewrite C2, C1.
    replace ((0xE0 + q - 0xE0) * 4096 + (0x80 + r2 - 0x80) * 64 + (0x80 + r1 - 0x80)) with c by lia.
    rewrite Hv, (proj2 (N.leb_le _ _) Hlo). reflexivity.
Qed.
Lemma four_bytes q r3 r2 r1 c : q < 5 -> r3 < 64 -> r2 < 64 -> r1 < 64 -> c = 262144 * q + 4096 * r3 + 64 * r2 + r1 ->
  0x10000 <= c -> valid_scalar c = true ->
  width (0xF0 + q) = 4 /\ all_bytes [0xF0 + q; 0x80 + r3; 0x80 + r2; 0x80 + r1] = true /\
  dec_cp [0xF0 + q; 0x80 + r3; 0x80 + r2; 0x80 + r1] = Some c.
Proof.
  intros Hq H3 H2 H1 Hc Hlo Hv.
  destruct (payload_byte r3 H3) as [C3 B3]. destruct (payload_byte r2 H2) as [C2 B2]. destruct (payload_byte r1 H1) as [C1 B1].
  split; [|split].
  - apply width_lead. lia.
  - unfold all_bytes. cbn [forallb]. rewrite B3, B2, B1. unfold is_byte. lia.
  - unfold dec_cp. rewrite C3, C2, C1.
    replace ((0xF0 + q - 0xF0) * 262144 + (0x80 + r3 - 0x80) * 4096 + (0x80 + r2 - 0x80) * 64 + (0x80 + r1 - 0x80)) with c by lia.
    rewrite Hv, (proj2 (N.leb_le _ _) Hlo). reflexivity.
Qed.

Lemma enc_cp_facts c e : enc_cp c = Some e ->
  exists b0 r, e = b0 :: r /\ width b0 = lenN e /\ all_bytes e = true /\ dec_cp e = Some c.
Proof.
  unfold enc_cp. destruct (valid_scalar c) eqn:Hv; [|discriminate]. intros [= <-].
  assert (Hmax : c < 0x110000) by (unfold valid_scalar in Hv; lia).
  unfold enc_cp_raw. change 4096 with (64 * 64). change 262144 with (64 * 64 * 64). rewrite <- !N.div_div by discriminate.
  destruct (base64 c) as [E1 R1]. destruct (base64 (c / 64)) as [E2 R2]. destruct (base64 (c / 64 / 64)) as [E3 R3].
  set (q1 := c / 64) in *. set (r1 := c mod 64) in *. set (q2 := q1 / 64) in *. set (r2 := q1 mod 64) in *.
  set (q3 := q2 / 64) in *. set (r3 := q2 mod 64) in *. clearbody q1 r1 q2 r2 q3 r3.
  destruct (c <? 0x80) eqn:H1.
  { exists c, []. unfold width, all_bytes, is_byte, dec_cp. cbn [forallb]. rewrite H1. repeat split. lia. }
  destruct (c <? 0x800) eqn:H2.
  { eexists _, _. split; [reflexivity|]. apply two_bytes; try assumption; lia. }
  destruct (c <? 0x10000) eqn:H3.
  { eexists _, _. split; [reflexivity|]. apply three_bytes; try assumption; lia. }
  eexists _, _. split; [reflexivity|]. apply four_bytes; try assumption; lia.
Qed.
