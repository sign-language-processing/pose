(* C13 - the axis model: for a leading block of axes grouping and broadcasting both pair cell i with entry
   i mod G, for every shape, so the distribution theorems of C13_DistP apply to those keys. *)
From Coq Require Import List Arith Lia Bool Reals.
Require Import Tensor Num C13_Axes C13_Normalize C13_RBase C13_DistP.
Import ListNotations.
Local Open Scope nat_scope.
(* [leading_block_keys] below on one shape, by evaluation (in the correspondence run, requests (2 ...) and (8 ...)
   of the runner agree on these keys) *)
Lemma leading_keys_example :
  let shape := [2; 3; 2; 2] in
  map (gkey_of shape [0; 1]) (seq 0 24) = map (fun i => Nat.modulo i 4) (seq 0 24) /\
  map (bkey_of shape [0; 1]) (seq 0 24) = map (fun i => Nat.modulo i 4) (seq 0 24) /\
  map (gkey_of shape [0]) (seq 0 24) = map (fun i => Nat.modulo i 12) (seq 0 24) /\
  map (bkey_of shape [0]) (seq 0 24) = map (fun i => Nat.modulo i 12) (seq 0 24) /\
  map (gkey_of shape [0; 1; 2]) (seq 0 24) = map (fun i => Nat.modulo i 2) (seq 0 24) /\
  map (bkey_of shape [0; 1; 2]) (seq 0 24) = map (fun i => Nat.modulo i 2) (seq 0 24).
Proof. vm_compute. repeat split; reflexivity. Qed.

Lemma existsb_seq i k : existsb (Nat.eqb i) (seq 0 k) = Nat.ltb i k.
Proof. destruct (Nat.ltb i k) eqn:E.
  - apply existsb_exists. exists i. split; [apply in_seq; apply Nat.ltb_lt in E; lia|apply Nat.eqb_refl].
  - apply Nat.ltb_ge in E. destruct (existsb (Nat.eqb i) (seq 0 k)) eqn:E'; [|reflexivity].
    apply existsb_exists in E'. destruct E' as [x [Hx Hi]]. apply in_seq in Hx. apply Nat.eqb_eq in Hi. lia. Qed.
Lemma remaining_from {A} k (l : list A) : forall s,
  map snd (filter (fun ia => negb (existsb (Nat.eqb (fst ia)) (seq 0 k))) (combine (seq s (length l)) l)) = skipn (k - s) l.
Proof. induction l as [|a l IH]; intros s; [destruct (k - s); reflexivity|].
  cbn [length seq combine filter fst]. rewrite existsb_seq. destruct (Nat.ltb s k) eqn:E; cbn [negb].
  - apply Nat.ltb_lt in E. rewrite IH. replace (k - s) with (S (k - S s)) by lia. reflexivity.
  - apply Nat.ltb_ge in E. cbn [map snd]. rewrite IH. replace (k - S s) with 0 by lia. replace (k - s) with 0 by lia. reflexivity. Qed.
Lemma remaining_leading {A} k (l : list A) : remaining (seq 0 k) l = skipn k l.
Proof. unfold remaining. rewrite remaining_from. rewrite Nat.sub_0_r. reflexivity. Qed.
Lemma unravel_length s : forall i, length (unravel s i) = length s.
Proof. induction s as [|d s IH]; intros i; [reflexivity|]. cbn [unravel length]. rewrite IH. reflexivity. Qed.
Lemma prod_cons d s : prod (d :: s) = d * prod s.
Proof. reflexivity. Qed.
Lemma prod_skipn_divides s : forall k, exists a, prod s = a * prod (skipn k s).
Proof. induction s as [|d s IH]; intros k; [exists 1; destruct k; reflexivity|]. destruct k as [|k]; [exists 1; cbn [skipn]; lia|].
  cbn [skipn]. destruct (IH k) as [a Ha]. exists (d * a). rewrite prod_cons, Ha. lia. Qed.
Lemma mod_mod_mul i a c : c <> 0 -> (i mod (a * c)) mod c = i mod c.
Proof. intros Hc. destruct (Nat.eq_dec a 0) as [->|Ha]; [reflexivity|].
  rewrite (Nat.mul_comm a c), Nat.mod_mul_r by assumption.
  rewrite (Nat.mul_comm c), Nat.mod_add by exact Hc. apply Nat.mod_mod. exact Hc. Qed.
Lemma ravel_skipn s : forall k i, i < prod s -> ravel (skipn k s) (skipn k (unravel s i)) = i mod prod (skipn k s).
Proof. induction s as [|d s IH]; intros k i Hi.
  - destruct k; cbn; lia.
  - destruct k as [|k].
    + cbn [skipn]. rewrite ravel_unravel by exact Hi. symmetry. apply Nat.mod_small. exact Hi.
    + cbn [skipn unravel]. rewrite prod_cons in Hi. assert (Hp : prod s <> 0) by (intros E; rewrite E in Hi; lia).
      rewrite IH by (apply Nat.mod_upper_bound; exact Hp).
      destruct (prod_skipn_divides s k) as [a Ha]. rewrite Ha at 1.
      apply mod_mod_mul. intros E. rewrite E in Ha. lia. Qed.
Lemma stretch_id rs : forall ix, Forall2 (fun i d => i < d) ix rs ->
  map (fun de => if Nat.eqb (fst de) 1 then 0 else snd de) (combine rs ix) = ix.
Proof. induction rs as [|d rs IH]; intros ix H; inversion H as [|i d' ix' rs' Hi Hr]; subst; [reflexivity|].
  cbn [combine map fst snd]. rewrite (IH _ Hr). destruct (Nat.eqb d 1) eqn:E; [apply Nat.eqb_eq in E; f_equal; lia|reflexivity]. Qed.
Lemma Forall2_skipn {A B} (P : A -> B -> Prop) l : forall m k, Forall2 P l m -> Forall2 P (skipn k l) (skipn k m).
Proof. induction l as [|a l IH]; intros m k H; inversion H; subst; [destruct k; constructor|].
  destruct k as [|k]; [exact H|]. cbn [skipn]. apply IH. assumption. Qed.

Theorem leading_block_keys shape k i : k <= length shape -> i < prod shape ->
  gkey_of shape (seq 0 k) i = i mod prod (skipn k shape) /\
  bkey_of shape (seq 0 k) i = i mod prod (skipn k shape) /\
  groups_of shape (seq 0 k) = prod (skipn k shape).
Proof. intros Hk Hi. unfold gkey_of, bkey_of, groups_of. rewrite !remaining_leading.
  split; [apply ravel_skipn; exact Hi|]. split; [|reflexivity].
  cbv zeta. rewrite skipn_length. replace (length shape - (length shape - k)) with k by lia.
  rewrite stretch_id; [apply ravel_skipn; exact Hi|].
  apply Forall2_skipn. exact (unravel_in_range shape i Hi). Qed.
Lemma broadcast_ok_leading shape k : k <= length shape -> broadcast_ok shape (seq 0 k) = true.
Proof. intros Hk. unfold broadcast_ok. rewrite remaining_leading. cbv zeta. rewrite skipn_length.
  replace (length shape - (length shape - k)) with k by lia.
  induction (skipn k shape) as [|d l IH]; [reflexivity|]. cbn [combine forallb fst snd]. rewrite Nat.eqb_refl, orb_true_r. exact IH. Qed.

Section Leading.
Variables (shape : list nat) (k : nat) (cs : list rcell).
Hypothesis Hk : k <= length shape.
Hypothesis Hlen : length cs = prod shape.
Let axes := seq 0 k.
Let G := groups_of shape axes.
(* G divides the number of cells, so where there is a cell there is a group *)
Lemma leading_aligned : aligned_keys (gkey_of shape axes) G cs (bkey_of shape axes).
Proof. intros i Hi. rewrite Hlen in Hi. destruct (leading_block_keys shape k i Hk Hi) as (E1 & E2 & E3).
  unfold G, axes. rewrite E1, E2, E3. split; [|reflexivity]. apply Nat.mod_upper_bound.
  destruct (prod_skipn_divides shape k) as [a Ha]. intros E. rewrite E in Ha. lia. Qed.

Theorem distribution_post_leading g : observed (gkey_of shape axes) cs g -> gstd R_ops (gkey_of shape axes) cs g <> 0%R ->
  let out := fst (normalize_distribution R_ops (gkey_of shape axes) (bkey_of shape axes) G cs) in
  gmean R_ops (gkey_of shape axes) out g = 0%R /\ gstd R_ops (gkey_of shape axes) out g = 1%R.
Proof. exact (distribution_post_aligned _ G cs _ g leading_aligned). Qed.
Theorem distribution_mask_unchanged_leading :
  map cm (fst (normalize_distribution R_ops (gkey_of shape axes) (bkey_of shape axes) G cs)) = map cm cs.
Proof. exact (distribution_mask_unchanged_aligned _ G cs _ leading_aligned). Qed.
Theorem unnormalize_inverse_leading :
  (forall g, observed (gkey_of shape axes) cs g -> gstd R_ops (gkey_of shape axes) cs g <> 0%R) ->
  let r := normalize_distribution R_ops (gkey_of shape axes) (bkey_of shape axes) G cs in
  cfilled R_ops (unnormalize_distribution R_ops (bkey_of shape axes) (fst (snd r)) (snd (snd r)) (fst r)) = cfilled R_ops cs.
Proof. exact (unnormalize_inverse_aligned _ G cs _ leading_aligned). Qed.
End Leading.
