(* The header of the reference encoders (C04_Spec.spec_header, the same layout in docs/specs/v0.0.md, v0.1.md), for
   every representable header content: its components are what Pose.write writes for a pose that was read
   (C02_Content.wpose_of_read), so the implementation's decoder reads them back; the whole header differs from the
   written one in the version word only.  Last, with that header: the bytes Pose.write produces for a pose that was read
   (write_pose_of_read), which C04_Rewrite reads back. *)
From Coq Require Import ZArith NArith List Lia ZifyBool ZifyN ZifyNat Bool.
Require Import ListN Result Bytes Utf8 Utf8S F32 Prog Codec ProgLemmas CodecRT C02_Content C04_Spec.
Import ListNotations.
Open Scope N_scope.

Definition u16 (n : N) : Prop := n < 65536.
Definition wf_str (s : str) : Prop := exists b, enc_utf8 s = Some b /\ lenN b < 65536.
Definition wf_component (c : component) : Prop :=
  wf_str (c_name c) /\ wf_str (c_format c) /\ Forall wf_str (c_points c) /\
  u16 (lenN (c_points c)) /\ u16 (lenN (c_limbs c)) /\ u16 (lenN (c_colors c)) /\
  Forall (fun l => u16 (fst l) /\ u16 (snd l)) (c_limbs c) /\
  Forall (fun k => u16 (fst (fst k)) /\ u16 (snd (fst k)) /\ u16 (snd k)) (c_colors c).
Definition wf_header (h : header) : Prop :=
  h_version h < 4294967296 /\
  u16 (fst (fst (h_dims h))) /\ u16 (snd (fst (h_dims h))) /\ u16 (snd (h_dims h)) /\
  u16 (lenN (h_comps h)) /\ Forall wf_component (h_comps h).

Lemma spec_str_written s : wf_str s -> write_str s = Ok (spec_str s).
Proof. intros [b [Hb Hl]]. unfold write_str, spec_str. rewrite Hb.
  destruct (N.ltb_spec (lenN b) 65536); [reflexivity|lia]. Qed.
Lemma spec_str_rt s : wf_str s -> RTp rd_str (spec_str s) s.
Proof. intros H. apply rd_str_rt. now apply spec_str_written. Qed.

Lemma u16_ok_N n : u16 n -> u16_ok (Z.of_N n) = true.
Proof. unfold u16, u16_ok. lia. Qed.
Lemma pack_u16s_N (l : list N) : Forall u16 l -> pack_u16s (map Z.of_N l) = Ok (flat_map enc_u16 l).
Proof.
  intros H. unfold pack_u16s.
  replace (forallb u16_ok (map Z.of_N l)) with true.
  - f_equal. rewrite flat_map_map. apply flat_map_ext. intros n. now rewrite N2Z.id.
  - symmetry. rewrite forallb_forall. intros z Hz. apply in_map_iff in Hz. destruct Hz as [n [<- Hn]].
    rewrite Forall_forall in H. now apply u16_ok_N, H.
Qed.
Lemma pack_u16s_1 a : u16 a -> pack_u16s [Z.of_N a] = Ok (enc_u16 a).
Proof. intros Ha. rewrite <- (app_nil_r (enc_u16 a)). apply (pack_u16s_N [a]). repeat constructor; assumption. Qed.
Lemma pack_u16s_2 a b : u16 a -> u16 b -> pack_u16s [Z.of_N a; Z.of_N b] = Ok (enc_u16 a ++ enc_u16 b).
Proof. intros Ha Hb. rewrite <- (app_nil_r (enc_u16 b)). apply (pack_u16s_N [a; b]). repeat constructor; assumption. Qed.
Lemma pack_u16s_3 a b c : u16 a -> u16 b -> u16 c ->
  pack_u16s [Z.of_N a; Z.of_N b; Z.of_N c] = Ok (enc_u16 a ++ enc_u16 b ++ enc_u16 c).
Proof. intros Ha Hb Hc. rewrite <- (app_nil_r (enc_u16 c)). apply (pack_u16s_N [a; b; c]). repeat constructor; assumption. Qed.

Lemma u16x3_rt a b c : u16 a -> u16 b -> u16 c -> RTp rd_u16x3 (enc_u16 a ++ enc_u16 b ++ enc_u16 c) (a, b, c).
Proof. intros Ha Hb Hc. pose proof (rd_u16x3_rt _ _ _ _ (pack_u16s_3 a b c Ha Hb Hc)) as H. now rewrite !N2Z.id in H. Qed.
Lemma u16x2_rt a b : u16 a -> u16 b -> RTp rd_u16x2 (enc_u16 a ++ enc_u16 b) (a, b).
Proof. intros Ha Hb. pose proof (rd_u16x2_rt _ _ _ (pack_u16s_2 a b Ha Hb)) as H. now rewrite !N2Z.id in H. Qed.

Lemma write_component_spec c : wf_component c -> write_component (wcomp_of_read c) = Ok (spec_component c).
Proof.
  intros [Hn [Hf [Hp [Hnp [Hnl [Hnc [Hl Hc]]]]]]]. unfold write_component, wcomp_of_read, spec_component.
  cbn [wc_name wc_format wc_points wc_limbs wc_colors app concat_r].
  unfold lenN at 2 3. rewrite !map_length. fold (lenN (c_limbs c)) (lenN (c_colors c)).
  rewrite (spec_str_written _ Hn), (spec_str_written _ Hf), (pack_u16s_3 _ _ _ Hnp Hnl Hnc). cbn [rbind].
  rewrite !concat_r_app_eq, !map_map.
  rewrite (concat_r_ok_map _ spec_str), (concat_r_ok_map _ spec_limb), (concat_r_ok_map _ spec_color).
  - cbn [rbind]. now rewrite <- !app_assoc.
  - eapply Forall_impl; [|exact Hc]. intros [[a b] d] [Ha [Hb Hd]]. now apply pack_u16s_3.
  - eapply Forall_impl; [|exact Hl]. intros [a b] [Ha Hb]. now apply pack_u16s_2.
  - eapply Forall_impl; [|exact Hp]. intros s. apply spec_str_written.
Qed.

Lemma canon_wcomp_of_read c : canon_comp (wcomp_of_read c) = c.
Proof.
  destruct c as [nm fm pts limbs cols]. unfold canon_comp, wcomp_of_read. cbn [wc_name wc_format wc_points wc_limbs wc_colors]. f_equal.
  - rewrite map_map. rewrite <- (map_id limbs) at 2. apply map_ext. intros [a b]. cbn [fst snd]. now rewrite !N2Z.id.
  - rewrite map_map. rewrite <- (map_id cols) at 2. apply map_ext. intros [[a b] d]. cbn [fst snd]. now rewrite !N2Z.id.
Qed.

Lemma spec_component_rt c : wf_component c -> RTp rd_component (spec_component c) c.
Proof. intros H. rewrite <- (canon_wcomp_of_read c) at 2. apply rd_component_rt, write_component_spec, H. Qed.

Theorem spec_header_rt h : wf_header h -> RTp rd_header (spec_header h) h.
Proof.
  intros [Hv [Hw [Hh [Hd [Hn Hc]]]]]. unfold spec_header, rd_header.
  destruct h as [v [[w hh] d] comps]. cbn [h_version h_dims h_comps fst snd] in *.
  apply RTp_bind with (a := v); [now apply rd_u32_rt|].
  rewrite (app_assoc (enc_u16 hh)), (app_assoc (enc_u16 w)).
  apply RTp_bind with (a := (w, hh, d)); [now apply u16x3_rt|].
  apply RTp_bind with (a := lenN comps); [now apply rd_u16_rt|].
  rewrite <- (app_nil_r (concat (map spec_component comps))).
  apply RTp_bind with (a := comps); [|apply RTp_ret].
  rewrite to_nat_lenN. apply RTp_prep.
  clear - Hc. induction Hc as [|c l Hc1 _ IH]; cbn [map]; constructor; [now apply spec_component_rt|exact IH].
Qed.

Lemma spec_points_total h : spec_points h = total_points h.
Proof. reflexivity. Qed.

(* everything of the reference header after the version word *)
Definition spec_header_tail (h : header) : bytes :=
  enc_u16 (fst (fst (h_dims h))) ++ enc_u16 (snd (fst (h_dims h))) ++ enc_u16 (snd (h_dims h)) ++
  enc_u16 (lenN (h_comps h)) ++ concat (map spec_component (h_comps h)).
Lemma write_header_spec h : wf_header h ->
  write_header (Z.of_N (fst (fst (h_dims h))), Z.of_N (snd (fst (h_dims h))), Z.of_N (snd (h_dims h))) (map wcomp_of_read (h_comps h))
  = Ok (enc_u32 version_word ++ spec_header_tail h).
Proof.
  intros [_ [Hw [Hh [Hd [Hn Hc]]]]]. unfold write_header, spec_header_tail.
  assert (H2 : write_dims (Z.of_N (fst (fst (h_dims h))), Z.of_N (snd (fst (h_dims h))), Z.of_N (snd (h_dims h)))
               = Ok (enc_u16 (fst (fst (h_dims h))) ++ enc_u16 (snd (fst (h_dims h))) ++ enc_u16 (snd (h_dims h))))
    by (unfold write_dims; rewrite !u16_ok_N by assumption; now apply pack_u16s_3).
  assert (H3 : pack_u16s [Z.of_N (lenN (map wcomp_of_read (h_comps h)))] = Ok (enc_u16 (lenN (h_comps h))))
    by (unfold lenN at 1; rewrite map_length; now apply pack_u16s_1).
  assert (H4 : concat_r (map write_component (map wcomp_of_read (h_comps h))) = Ok (concat (map spec_component (h_comps h)))).
  { rewrite map_map. apply concat_r_ok_map. eapply Forall_impl; [|exact Hc]. intros c. apply write_component_spec. }
  cbn [app concat_r]. rewrite H2, H3, H4. cbn [rbind]. rewrite <- !app_assoc. reflexivity.
Qed.

(* Pose.write accepts a pose that was read when its shape fits its header, the counts fit their fields and the frame
   rate packs *)
Lemma write_pose_of_read p F P D fw :
  wf_header (p_header p) -> b_shape (p_body p) = [F; P; total_points (p_header p); D] ->
  num_dims (p_header p) = Ok (Z.of_N D) -> F < 4294967296 -> u16 P ->
  pack_f32 (f32_to_f64 (b_fps (p_body p))) = Some fw ->
  write_pose (wpose_of_read p) =
  Ok ((enc_u32 version_word ++ spec_header_tail (p_header p)) ++ enc_u32 fw ++ enc_u32 F ++ enc_u16 P ++
      flat_map (fun w => enc_u32 (f64_to_f32 w)) (map f32_to_f64 (b_data (p_body p))) ++
      flat_map (fun w => enc_u32 (f64_to_f32 w)) (map f32_to_f64 (b_conf (p_body p)))).
Proof.
  intros Hh Hs Hnd HF HP Hfw. unfold write_pose, wpose_of_read. cbn [w_shape w_comps w_cshape w_dims]. rewrite Hs.
  replace (num_dims_of (map wc_format (map wcomp_of_read (h_comps (p_header p))))) with (num_dims (p_header p))
    by (unfold num_dims; now rewrite map_map).
  rewrite Hnd. cbn [rbind]. rewrite Z.eqb_refl. cbn [negb].
  replace (total_points_w (map wcomp_of_read (h_comps (p_header p)))) with (total_points (p_header p))
    by (unfold total_points_w, total_points; now rewrite map_map).
  rewrite N.eqb_refl. cbn [negb firstn]. rewrite eq_shape_refl. cbn [negb].
  rewrite (write_header_spec _ Hh). cbn [rbind]. unfold write_body. cbn [w_shape w_fps w_data w_conf].
  destruct (N.ltb_spec 4294967295 F) as [|_]; [lia|]. rewrite Hfw.
  destruct (N.ltb_spec 65535 P) as [|_]; [unfold u16 in HP; lia|]. reflexivity.
Qed.
