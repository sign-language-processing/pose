From Coq Require Import ZArith NArith List Lia ZifyBool ZifyN ZifyNat.
Import ListNotations.
Open Scope N_scope.
(* N-indexed list helpers (extraction-friendly), with bridges to the nat-indexed stdlib ones *)
Section L.
Context {A : Type}.
Fixpoint dropN (n : N) (l : list A) {struct l} : list A :=
  match l with [] => [] | x :: r => if n =? 0 then l else dropN (n - 1) r end.
Fixpoint takeN (n : N) (l : list A) {struct l} : list A :=
  match l with [] => [] | x :: r => if n =? 0 then [] else x :: takeN (n - 1) r end.
Definition lenN (l : list A) : N := N.of_nat (length l).
Lemma dropN_skipn n l : dropN n l = skipn (N.to_nat n) l.
Proof. revert n; induction l as [|x r IH]; intros n; cbn [dropN].
  - now rewrite skipn_nil.
  - destruct (N.eqb_spec n 0) as [->|Hn]; [reflexivity|].
    replace (N.to_nat n) with (S (N.to_nat (n - 1))) by lia. cbn [skipn]. apply IH. Qed.
Lemma takeN_firstn n l : takeN n l = firstn (N.to_nat n) l.
Proof. revert n; induction l as [|x r IH]; intros n; cbn [takeN].
  - now rewrite firstn_nil.
  - destruct (N.eqb_spec n 0) as [->|Hn]; [reflexivity|].
    replace (N.to_nat n) with (S (N.to_nat (n - 1))) by lia. cbn [firstn]. f_equal. apply IH. Qed.
Lemma lenN_app l1 l2 : lenN (l1 ++ l2) = lenN l1 + lenN l2.
Proof. unfold lenN. rewrite app_length. lia. Qed.
Lemma lenN_takeN n l : lenN (takeN n l) = N.min n (lenN l).
Proof. unfold lenN. rewrite takeN_firstn, firstn_length. lia. Qed.
Lemma lenN_dropN n l : lenN (dropN n l) = lenN l - n.
Proof. unfold lenN. rewrite dropN_skipn, skipn_length. lia. Qed.
Lemma takeN_all n l : lenN l <= n -> takeN n l = l.
Proof. unfold lenN. intros. rewrite takeN_firstn. apply firstn_all2. lia. Qed.
Lemma dropN_app_le n l1 l2 : n <= lenN l1 -> dropN n (l1 ++ l2) = dropN n l1 ++ l2.
Proof. unfold lenN; intros. rewrite !dropN_skipn, skipn_app. replace (N.to_nat n - length l1)%nat with 0%nat by lia. reflexivity. Qed.
Lemma skipn_skipn' (a b : nat) (l : list A) : skipn a (skipn b l) = skipn (a + b) l.
Proof. revert l; induction b as [|b IH]; intros l; [now rewrite Nat.add_0_r|].
  destruct l as [|x l]; [now rewrite !skipn_nil|]. rewrite Nat.add_succ_r. cbn [skipn]. apply IH. Qed.
Lemma dropN_dropN a b l : dropN a (dropN b l) = dropN (a + b) l.
Proof. rewrite !dropN_skipn, skipn_skipn'. f_equal. lia. Qed.
Lemma takeN_takeN_le a b l : a <= b -> takeN a (takeN b l) = takeN a l.
Proof. intros. rewrite !takeN_firstn, firstn_firstn. f_equal. lia. Qed.
Lemma take_drop_split n l : takeN n l ++ dropN n l = l.
Proof. rewrite takeN_firstn, dropN_skipn. apply firstn_skipn. Qed.
Lemma takeN_app_le n l1 l2 : n <= lenN l1 -> takeN n (l1 ++ l2) = takeN n l1.
Proof. unfold lenN; intros. rewrite !takeN_firstn, firstn_app. replace (N.to_nat n - length l1)%nat with 0%nat by lia. cbn. apply app_nil_r. Qed.
Lemma dropN_all n l : lenN l <= n -> dropN n l = [].
Proof. unfold lenN; intros. rewrite dropN_skipn. apply skipn_all2. lia. Qed.
Lemma dropN_takeN a b l : dropN a (takeN b l) = takeN (b - a) (dropN a l).
Proof. rewrite !takeN_firstn, !dropN_skipn, skipn_firstn_comm. f_equal. lia. Qed.
Lemma firstn_app_firstn (a b : nat) (l : list A) : firstn a l ++ firstn b (skipn a l) = firstn (a + b) l.
Proof. revert l; induction a as [|a IH]; intros l; [reflexivity|].
  destruct l as [|x r]; [now rewrite skipn_nil, !firstn_nil|]. cbn [firstn skipn Nat.add app]. f_equal. apply IH. Qed.
Lemma takeN_app_takeN a b l : takeN a l ++ takeN b (dropN a l) = takeN (a + b) l.
Proof. rewrite !takeN_firstn, dropN_skipn, firstn_app_firstn. f_equal. lia. Qed.
Lemma takeN_over a b l : lenN l <= a -> lenN l <= b -> takeN a l = takeN b l.
Proof. intros. now rewrite !takeN_all. Qed.
Lemma takeN_clip n l : takeN n l = takeN (N.min n (lenN l)) l.
Proof. destruct (N.le_gt_cases n (lenN l)); [f_equal; lia|]. rewrite !takeN_all by lia. reflexivity. Qed.
Lemma takeN_0 l : takeN 0 l = [].
Proof. destruct l; reflexivity. Qed.
Lemma dropN_0 l : dropN 0 l = l.
Proof. destruct l; reflexivity. Qed.
(* a prefix of [q], written with its own length *)
Lemma pre_takeN q n : takeN n q = takeN (lenN (takeN n q)) q.
Proof. rewrite lenN_takeN. apply takeN_clip. Qed.
Lemma drop_pre pre x : dropN (lenN pre) (pre ++ x) = x.
Proof. rewrite dropN_app_le by lia. rewrite dropN_all by lia. reflexivity. Qed.
Lemma take_mid pre e post : takeN (lenN e) (dropN (lenN pre) (pre ++ e ++ post)) = e.
Proof. rewrite drop_pre, takeN_app_le by lia. apply takeN_all. lia. Qed.
Lemma split3 (a b : N) ws : ws = takeN a ws ++ takeN b (dropN a ws) ++ dropN (a + b) ws.
Proof. replace (a + b) with (b + a) by lia. rewrite <- (dropN_dropN b a ws).
  rewrite (take_drop_split b (dropN a ws)). symmetry. apply take_drop_split. Qed.
Lemma Forall_takeN (P : A -> Prop) n l : Forall P l -> Forall P (takeN n l).
Proof. intros H. rewrite <- (take_drop_split n l) in H. apply Forall_app in H. tauto. Qed.
Lemma Forall_dropN (P : A -> Prop) n l : Forall P l -> Forall P (dropN n l).
Proof. intros H. rewrite <- (take_drop_split n l) in H. apply Forall_app in H. tauto. Qed.
Lemma to_nat_lenN l : N.to_nat (lenN l) = length l.
Proof. unfold lenN. lia. Qed.
Lemma ZN_lenN l : Z.to_N (Z.of_N (lenN l)) = lenN l.
Proof. lia. Qed.
End L.
Lemma lenN_map {X Y} (f : X -> Y) l : lenN (map f l) = lenN l.
Proof. unfold lenN. now rewrite map_length. Qed.
Lemma lenN_repeat {X} (x : X) n : lenN (repeat x n) = N.of_nat n.
Proof. unfold lenN. now rewrite repeat_length. Qed.
Lemma takeN_map {X Y} (f : X -> Y) n l : takeN n (map f l) = map f (takeN n l).
Proof. rewrite !takeN_firstn. apply firstn_map. Qed.
Lemma dropN_map {X Y} (f : X -> Y) n l : dropN n (map f l) = map f (dropN n l).
Proof. rewrite !dropN_skipn. apply skipn_map. Qed.
