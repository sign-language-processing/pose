(* Non-vacuity of the C03 theorems: a concrete 3-frame file and concrete windows meeting every hypothesis. *)
From Coq Require Import ZArith NArith List Lia Bool.
Require Import ListN Result Bytes Utf8 Utf8S F32 Prog Codec ProgLemmas CodecRT PoseRead PoseReadLemmas WindowLemmas StreamRead C03_Window.
Import ListNotations.
Open Scope N_scope.

Definition ex3 : wpose :=
  {| w_dims := (10, 20, 0)%Z;
     w_comps := [ {| wc_name := [66]; wc_format := [88; 89; 67]; wc_points := [[97]; [98]];
                     wc_limbs := [(0, 1)%Z]; wc_colors := [(1, 2, 3)%Z] |} ];
     w_fps := 4629137466983448576;              (* 30.0 *)
     w_shape := [3; 1; 2; 2];
     w_data := [4607182418800017408; 4611686018427387904; 4613937818241073152; 4616189618054758400;
                4617315517961601024; 4618441417868443648; 4619567317775286272; 4620693217682128896;
                4621256167635550208; 4621819117588971520; 4622382067542392832; 4622945017495814144];
     w_cshape := [3; 1; 2];
     w_conf := [4607182418800017408; 0; 4607182418800017408; 4607182418800017408; 0; 4607182418800017408] |}.
Definition ex3_frames : rargs := {| a_sf := Some 1%Z; a_st := None; a_ef := Some 2%Z; a_et := None |}.
Definition ex3_times : rargs := {| a_sf := None; a_st := Some 34%Z; a_ef := None; a_et := Some 66%Z |}.
(* the window [1,2) given in frames suits every pose with more than one frame *)
Lemma frames_1_2_hyps p : (1 < frames_of p)%Z ->
  any_arg ex3_frames = true /\
  conflict (a_sf ex3_frames) (a_st ex3_frames) = false /\ conflict (a_ef ex3_frames) (a_et ex3_frames) = false /\
  resolve_start (fps_word p) (a_sf ex3_frames) (a_st ex3_frames) = Ok (Some 1%Z) /\
  resolve_end (fps_word p) (a_ef ex3_frames) (a_et ex3_frames) = Ok (Some 2%Z) /\
  valid_window p (Some 1%Z) (Some 2%Z).
Proof.
  intros H. split; [reflexivity|]. split; [reflexivity|]. split; [reflexivity|]. split; [reflexivity|]. split; [reflexivity|].
  unfold valid_window. cbn [start0 end0 Z.ltb Z.compare]. lia.
Qed.
Lemma ex3_frames_hyps :
  any_arg ex3_frames = true /\
  conflict (a_sf ex3_frames) (a_st ex3_frames) = false /\ conflict (a_ef ex3_frames) (a_et ex3_frames) = false /\
  resolve_start (fps_word ex3) (a_sf ex3_frames) (a_st ex3_frames) = Ok (Some 1%Z) /\
  resolve_end (fps_word ex3) (a_ef ex3_frames) (a_et ex3_frames) = Ok (Some 2%Z) /\
  valid_window ex3 (Some 1%Z) (Some 2%Z).
Proof. exact (frames_1_2_hyps ex3 eq_refl). Qed.
