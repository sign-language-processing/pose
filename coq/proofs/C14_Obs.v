(* C14 - pointwise description of interp_obs over exact reals: sample j of the result is the interpolant at
   the j-th new time when that time lies in [first observation, last observation], and the zero row otherwise. *)
From Coq Require Import Reals List Arith Bool Lia Lra Sorted.
Require Import ListFacts Num RealFacts C14_Interp C14_Index C14_Grid C14_Lerp C14_Eval.
Import ListNotations.
Local Open Scope R_scope.

Definition zrow (w : nat) : list R := repeat 0 w.
Definition first_x (obs : obsR) : R := fst (nth 0 obs dflt).
Definition last_x (obs : obsR) : R := last (xs_of obs) 0.
(* new_steps >= first_step, and not new_steps > last_step *)
Definition in_span (obs : obsR) (x : R) : bool := inside (Rleb (first_x obs)) (Rltb (last_x obs)) x.
Lemma in_span_iff obs x : in_span obs x = true <-> first_x obs <= x <= last_x obs.
Proof. unfold in_span, inside. rewrite andb_true_iff, negb_true_iff, Rleb_true, Rltb_false. tauto. Qed.

Section Obs.
Variable sp : spline_t.
Variables (new : list R) (w : nat) (k : kind).
Hypothesis Hnew : StronglySorted Rlt new.
Hypothesis Hnew01 : forall j, (j < length new)%nat -> 0 <= nth j new 0 <= 1.

Lemma new_le i j : (i <= j)%nat -> (j < length new)%nat -> nth i new 0 <= nth j new 0.
Proof. intros Hij Hj. destruct (Nat.eq_dec i j) as [->|NE]; [lra|]. left.
  apply (StronglySorted_nth Rlt new 0 Hnew); lia. Qed.
Lemma mono_ge a : mono_along (Rleb a) new.
Proof. intros i j d Hij Hj H.
  rewrite (nth_indep new d 0) by lia. rewrite (nth_indep new d 0) in H by lia. rewrite Rleb_true in *. pose proof (new_le i j Hij Hj). lra. Qed.
Lemma mono_gt a : mono_along (Rltb a) new.
Proof. intros i j d Hij Hj H.
  rewrite (nth_indep new d 0) by lia. rewrite (nth_indep new d 0) in H by lia. rewrite Rltb_true in *. pose proof (new_le i j Hij Hj). lra. Qed.

Variable obs : obsR.
Hypothesis Hsort : StronglySorted Rlt (xs_of obs).

Lemma first_le_last : (1 <= length obs)%nat -> first_x obs <= last_x obs.
Proof. intros H. unfold first_x, last_x. rewrite (xs_last obs). apply (xs_le obs Hsort); lia. Qed.
Lemma l_f_span : (1 <= length obs)%nat -> forall x, Rltb (last_x obs) x = true -> Rleb (first_x obs) x = true.
Proof. intros H x. rewrite Rltb_true, Rleb_true. pose proof (first_le_last H). lra. Qed.

Lemma interp_obs_nil : interp_obs R_ops sp k w new [] = repeat (zrow w) (length new).
Proof. reflexivity. Qed.

Lemma interp_obs_cases : (1 <= length obs)%nat ->
  interp_obs R_ops sp k w new obs =
    if Reqb (first_x obs) 0 && Reqb (last_x obs) 1 then f_of R_ops sp k obs new
    else padded (Rleb (first_x obs)) (Rltb (last_x obs)) new (zrow w) (f_of R_ops sp k obs).
Proof. intros H. destruct obs as [|[x0 y0] rest]; [cbn in H; lia|]. reflexivity. Qed.

(* interp1d is only ever evaluated inside its interpolation range: no bounds error to model *)
Lemma no_bounds_error : (1 <= length obs)%nat ->
  forall x, In x (slice (first_index R_ops (first_x obs) new) (last_index R_ops (last_x obs) new) new) ->
    first_x obs <= x <= last_x obs.
Proof. intros H x Hin. apply in_span_iff.
  apply (slice_inside (Rleb (first_x obs)) (Rltb (last_x obs)) new (mono_ge _) (mono_gt _) (l_f_span H)). exact Hin. Qed.

(* :353-355 with one observation f returns its single row whatever it is given; eval_f returns that row too, so f is the
   pointwise map of eval_f as soon as it is given exactly one sample *)
Lemma f_of_map l : (1 <= length obs)%nat -> (length obs = 1%nat -> length l = 1%nat) ->
  f_of R_ops sp k obs l = map (eval_f R_ops sp k obs) l.
Proof. destruct obs as [|[s y0] [|b rest]]; intros H H1; [cbn in H; lia| |reflexivity].
  destruct l as [|x [|x' l]]; try (specialize (H1 eq_refl); discriminate). reflexivity. Qed.
(* ... and it is: the new times are distinct, so at most one equals the time of the only observation *)
Lemma one_obs_uniq : length obs = 1%nat -> forall i j d, (i < length new)%nat -> (j < length new)%nat ->
  inside (Rleb (first_x obs)) (Rltb (last_x obs)) (nth i new d) = true ->
  inside (Rleb (first_x obs)) (Rltb (last_x obs)) (nth j new d) = true -> i = j.
Proof. intros H1 i j d Hi Hj Ha Hb. rewrite (nth_indep new d 0) in Ha by lia. rewrite (nth_indep new d 0) in Hb by lia.
  apply in_span_iff in Ha, Hb. unfold last_x in Ha, Hb. rewrite (xs_last_one obs H1) in Ha, Hb. unfold first_x in Ha, Hb.
  destruct (lt_eq_lt_dec i j) as [[H|H]|H]; [|exact H|].
  - pose proof (StronglySorted_nth Rlt new 0 Hnew i j H Hj). lra.
  - pose proof (StronglySorted_nth Rlt new 0 Hnew j i H Hi). lra. Qed.

Lemma interp_obs_padded : (1 <= length obs)%nat ->
  interp_obs R_ops sp k w new obs =
    if Reqb (first_x obs) 0 && Reqb (last_x obs) 1 then map (eval_f R_ops sp k obs) new
    else padded (Rleb (first_x obs)) (Rltb (last_x obs)) new (zrow w) (map (eval_f R_ops sp k obs)).
Proof. intros H. rewrite interp_obs_cases by exact H.
  destruct (Reqb (first_x obs) 0 && Reqb (last_x obs) 1) eqn:E.
  - apply f_of_map; [exact H|]. intros H1. exfalso.
    apply andb_true_iff in E. destruct E as [E0 E1]. apply Reqb_true in E0, E1.
    unfold last_x in E1. rewrite (xs_last_one obs H1) in E1. unfold first_x in E0. lra.
  - unfold padded. destruct (Nat.eqb_spec (fidx (Rleb (first_x obs)) new) (fidx (Rltb (last_x obs)) new)) as [|NE]; [reflexivity|].
    rewrite f_of_map; [reflexivity|exact H|]. intros H1. rewrite slice_length by apply fidx_le.
    rewrite (one_inside _ _ new (mono_ge _) (mono_gt _) (l_f_span H) (one_obs_uniq H1) NE). lia. Qed.

Lemma interp_obs_length : length (interp_obs R_ops sp k w new obs) = length new.
Proof. destruct (Nat.eq_dec (length obs) 0) as [H0|H0].
  - destruct obs; [apply repeat_length|discriminate].
  - rewrite interp_obs_padded by lia. destruct (_ && _); [apply map_length|].
    apply padded_map_length; [apply mono_ge|apply mono_gt|apply l_f_span; lia]. Qed.
Lemma interp_obs_nth j : (1 <= length obs)%nat -> (j < length new)%nat ->
  nth j (interp_obs R_ops sp k w new obs) (zrow w) =
    if in_span obs (nth j new 0) then eval_f R_ops sp k obs (nth j new 0) else zrow w.
Proof. intros Hl Hj. rewrite interp_obs_padded by exact Hl.
  destruct (Reqb (first_x obs) 0 && Reqb (last_x obs) 1) eqn:E.
  - apply andb_true_iff in E. destruct E as [E0 E1]. apply Reqb_true in E0, E1.
    rewrite (nth_map_lt _ _ _ 0) by exact Hj.
    replace (in_span obs (nth j new 0)) with true; [reflexivity|].
    symmetry. apply in_span_iff. rewrite E0, E1. apply Hnew01. exact Hj.
  - apply padded_map_nth; [apply mono_ge|apply mono_gt|apply l_f_span; exact Hl|exact Hj]. Qed.
End Obs.
