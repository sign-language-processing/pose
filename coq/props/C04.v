(* C04 - files in the older v0.0 and v0.1 layouts decode to what their spec describes; the decoded pose rewritten as
   v0.2 reads back to the same content; a file declaring any other version is refused.
   Statements, each followed by Print Assumptions; the proofs are in proofs/C04_*.v, short ones are given here.

   [spec00] / [spec01] are reference encoders written from docs/specs/v0.0.md and v0.1.md (model/C04_Spec.v);
   [c04_legacy] is the Gallina model of NumPyPoseBody.read_v0_0 and PoseBody.read_v0_1 (model/C04_Legacy.v) plugged
   into the Pose.read model of C01/C03 (model/PoseRead.v); [read_stream4] is Pose.read on a seekable stream whose
   reader answers bytes_remaining() from the stream's length (utils/reader.py BytesIOReader).
   [wf00] / [wf01] say that the content is representable in the layout (16-bit counts, 32-bit words, UTF-8 names that fit
   their length prefix, every person lists every point of every component, at least one component, a format of >= 2
   letters, the same number of letters in every component) - the property's "valid file"; for v0.1 additionally
   people >= 1 and points >= 1 (the frame count is a quotient by people * points * (dims + 1) * 4). *)
From Coq Require Import ZArith NArith List Bool.
Require Import ListN Result Bytes Utf8 Utf8S F32 Prog Codec PoseRead ProgLemmas CodecRT PoseReadLemmas WindowLemmas
  C04_Legacy C04_Spec C04_SpecRT C04_Div C04_Stream C04_Handoff C04_V00 C04_V01 C04_Rewrite C04_Unknown
  C04_GenTie C04_Examples.
Require Gen_C04.
Import ListNotations.
Open Scope N_scope.

(* The window a set of read arguments denotes: [window_of fps F a] (proofs/C04_V01.v): start_frame / end_frame as given,
   start_time / end_time (milliseconds) as floor / ceil of t / 1000 * fps in binary64 (Codec.time_to_frame, the rule of the v0.2 reader), a start below 0 is 0,
   an end beyond the F frames is F; [Err] when a frame and a time bound are given for the same end.
   [window00 c a] / [window01 c a] instantiate it with the file's frame rate and frame count;
   [valid_window F s0 e0]: s0 = 0 or s0 < F, and s0 <= e0. *)

(* v0.0: every frame's FIRST person, zeros (all missing) for frames without people *)
(* a windowed read - frame bounds, time bounds or one of each - returns frames [s0, e0) of that view; from a byte string,
   whatever follows the file ([x]), whatever the header memo holds *)
Theorem C04_v00_decodes_window_bytes :
  forall c m a x s0 e0, wf00 c -> MemoOK m -> window00 c a = Ok (s0, e0) -> valid_window (frames00 c) s0 e0 ->
  fst (read_bytes c04_legacy m (spec00 c ++ x) a) = Ok (v00_window_view c s0 e0).
Proof. intros c m a x s0 e0 Hwf Hm Hw Hv. exact (proj1 (v00_read_window c m a x s0 e0 Hwf Hm Hw Hv)). Qed.
Print Assumptions C04_v00_decodes_window_bytes.
(* from a seekable stream (any prefetch relation: the stream reader simulates the byte reader on read/advance programs) *)
Theorem C04_v00_decodes_window_stream :
  forall c m a x s0 e0, wf00 c -> MemoOK m -> window00 c a = Ok (s0, e0) -> valid_window (frames00 c) s0 e0 ->
  fst (fst (read_stream4 c04_legacy m (spec00 c ++ x) a)) = Ok (v00_window_view c s0 e0).
Proof. intros c m a x s0 e0 Hwf Hm Hw Hv. exact (proj2 (v00_read_window c m a x s0 e0 Hwf Hm Hw Hv)). Qed.
Print Assumptions C04_v00_decodes_window_stream.
Theorem C04_v00_decodes_bytes :
  forall c m a x, wf00 c -> MemoOK m -> any_arg a = false ->
  fst (read_bytes c04_legacy m (spec00 c ++ x) a) = Ok (first_person_view c).
Proof. intros c m a x Hwf Hm Ha. exact (proj1 (v00_read_full c m a x Hwf Hm Ha)). Qed.
Print Assumptions C04_v00_decodes_bytes.
Theorem C04_v00_decodes_stream :
  forall c m a x, wf00 c -> MemoOK m -> any_arg a = false ->
  fst (fst (read_stream4 c04_legacy m (spec00 c ++ x) a)) = Ok (first_person_view c).
Proof. intros c m a x Hwf Hm Ha. exact (proj2 (v00_read_full c m a x Hwf Hm Ha)). Qed.
Print Assumptions C04_v00_decodes_stream.
Theorem C04_v00_window_full : forall c, wf00 c -> v00_window_view c 0 (frames00 c) = first_person_view c.
Proof. exact v00_window_full. Qed.
Print Assumptions C04_v00_window_full.
(* the decoder's body alone, as a round trip of the reference encoder's body *)
Theorem C04_v00_body_roundtrip :
  forall c, wf00 c ->
  RTp (read_v0_0 (k0_header c) None None None None) (spec_body00 c) (p_body (first_person_view c)).
Proof. exact v00_body_rt. Qed.
Print Assumptions C04_v00_body_roundtrip.
(* in particular a file that declares zero frames decodes to the empty pose of shape (0, 1, points, dims) *)
Theorem C04_v00_zero_frames :
  forall c m a, wf00 c -> k0_frames c = [] -> MemoOK m -> any_arg a = false ->
  fst (read_bytes c04_legacy m (spec00 c) a) = Ok (first_person_view c) /\
  b_shape (p_body (first_person_view c)) = [0; 1; spec_points (k0_header c); spec_dims (k0_header c)] /\
  b_data (p_body (first_person_view c)) = [] /\ b_conf (p_body (first_person_view c)) = [] /\
  b_mask (p_body (first_person_view c)) = [].
Proof.
  intros c m a Hwf H0 Hm Ha. split.
  - rewrite <- (app_nil_r (spec00 c)). exact (proj1 (v00_read_full c m a [] Hwf Hm Ha)).
  - unfold first_person_view. cbn [p_body b_shape b_data b_conf b_mask]. rewrite H0. repeat split.
Qed.
Print Assumptions C04_v00_zero_frames.
(* a start at or beyond the last frame - given as a frame or as a time - is refused (ValueError), bytes and stream *)
Theorem C04_v00_start_beyond_bytes :
  forall c m a x s0 e0, wf00 c -> MemoOK m -> window00 c a = Ok (s0, e0) -> (0 < s0)%Z -> (frames00 c <= s0)%Z ->
  fst (read_bytes c04_legacy m (spec00 c ++ x) a) = Err Value.
Proof. intros c m a x s0 e0 Hwf Hm Hw H0 HF. exact (proj1 (v00_read_beyond c m a x s0 e0 Hwf Hm Hw H0 HF)). Qed.
Print Assumptions C04_v00_start_beyond_bytes.
Theorem C04_v00_start_beyond_stream :
  forall c m a x s0 e0, wf00 c -> MemoOK m -> window00 c a = Ok (s0, e0) -> (0 < s0)%Z -> (frames00 c <= s0)%Z ->
  fst (fst (read_stream4 c04_legacy m (spec00 c ++ x) a)) = Err Value.
Proof. intros c m a x s0 e0 Hwf Hm Hw H0 HF. exact (proj2 (v00_read_beyond c m a x s0 e0 Hwf Hm Hw H0 HF)). Qed.
Print Assumptions C04_v00_start_beyond_stream.
(* a frame and a time bound for the same end are refused (ValueError), bytes and stream *)
Theorem C04_v00_conflict_bytes :
  forall c m a x, wf00 c -> MemoOK m -> conflict (a_sf a) (a_st a) || conflict (a_ef a) (a_et a) = true ->
  fst (read_bytes c04_legacy m (spec00 c ++ x) a) = Err Value.
Proof. intros c m a x Hwf Hm Hc. exact (proj1 (v00_read_conflict c m a x Hwf Hm Hc)). Qed.
Print Assumptions C04_v00_conflict_bytes.
Theorem C04_v00_conflict_stream :
  forall c m a x, wf00 c -> MemoOK m -> conflict (a_sf a) (a_st a) || conflict (a_ef a) (a_et a) = true ->
  fst (fst (read_stream4 c04_legacy m (spec00 c ++ x) a)) = Err Value.
Proof. intros c m a x Hwf Hm Hc. exact (proj2 (v00_read_conflict c m a x Hwf Hm Hc)). Qed.
Print Assumptions C04_v00_conflict_stream.

(* v0.1: the frame count is (bytes remaining) / (people * points * (dims + 1) * 4), not the 16-bit field *)
(* any number of frames below 2^53 (in particular more than 65535); a windowed read - frame bounds, time bounds or one of
   each - returns frames [s0, e0) *)
Theorem C04_v01_decodes_bytes :
  forall c m a s0 e0, wf01 c -> MemoOK m -> window01 c a = Ok (s0, e0) -> valid_window (frames01 c) s0 e0 ->
  fst (read_bytes c04_legacy m (spec01 c) a) = Ok (v01_view c (Z.to_N s0) (Z.to_N e0)).
Proof. intros c m a s0 e0 Hwf Hm Hw Hv. exact (proj1 (v01_read_window c m a s0 e0 Hwf Hm Hw Hv)). Qed.
Print Assumptions C04_v01_decodes_bytes.
Theorem C04_v01_decodes_stream :
  forall c m a s0 e0, wf01 c -> MemoOK m -> window01 c a = Ok (s0, e0) -> valid_window (frames01 c) s0 e0 ->
  fst (fst (read_stream4 c04_legacy m (spec01 c) a)) = Ok (v01_view c (Z.to_N s0) (Z.to_N e0)).
Proof. intros c m a s0 e0 Hwf Hm Hw Hv. exact (proj2 (v01_read_window c m a s0 e0 Hwf Hm Hw Hv)). Qed.
Print Assumptions C04_v01_decodes_stream.
Theorem C04_v01_decodes_frames :
  forall c m a, wf01 c -> MemoOK m -> a_st a = None -> a_et a = None ->
  valid_window (frames01 c) (start0 (a_sf a)) (end0 (a_ef a) (frames01 c)) ->
  fst (read_bytes c04_legacy m (spec01 c) a) = Ok (v01_expected c a) /\
  fst (fst (read_stream4 c04_legacy m (spec01 c) a)) = Ok (v01_expected c a).
Proof. intros c m a Hwf Hm Hs He Hv. exact (v01_read_window c m a _ _ Hwf Hm (window_of_frames _ _ a Hs He) Hv). Qed.
Print Assumptions C04_v01_decodes_frames.
Theorem C04_v01_decodes_full :
  forall c m a, wf01 c -> MemoOK m -> any_arg a = false ->
  fst (read_bytes c04_legacy m (spec01 c) a) = Ok (v01_full c) /\
  fst (fst (read_stream4 c04_legacy m (spec01 c) a)) = Ok (v01_full c).
Proof.
  intros c m a Hwf Hm Ha. unfold v01_full. rewrite <- (N2Z.id (lenN (k1_data c))).
  apply (v01_read_window c m a 0 (frames01 c) Hwf Hm (no_args_window _ _ a Ha)). split; [now left|apply N2Z.is_nonneg].
Qed.
Print Assumptions C04_v01_decodes_full.
(* a start at or beyond the last frame - given as a frame or as a time - is refused (ValueError), bytes and stream *)
Theorem C04_v01_start_beyond_bytes :
  forall c m a s0 e0, wf01 c -> MemoOK m -> window01 c a = Ok (s0, e0) -> (0 < s0)%Z -> (frames01 c <= s0)%Z ->
  fst (read_bytes c04_legacy m (spec01 c) a) = Err Value.
Proof. intros c m a s0 e0 Hwf Hm Hw H0 HF. exact (proj1 (v01_read_beyond c m a s0 e0 Hwf Hm Hw H0 HF)). Qed.
Print Assumptions C04_v01_start_beyond_bytes.
Theorem C04_v01_start_beyond_stream :
  forall c m a s0 e0, wf01 c -> MemoOK m -> window01 c a = Ok (s0, e0) -> (0 < s0)%Z -> (frames01 c <= s0)%Z ->
  fst (fst (read_stream4 c04_legacy m (spec01 c) a)) = Err Value.
Proof. intros c m a s0 e0 Hwf Hm Hw H0 HF. exact (proj2 (v01_read_beyond c m a s0 e0 Hwf Hm Hw H0 HF)). Qed.
Print Assumptions C04_v01_start_beyond_stream.
(* a frame and a time bound for the same end are refused (ValueError), bytes and stream *)
Theorem C04_v01_conflict_bytes :
  forall c m a, wf01 c -> MemoOK m -> conflict (a_sf a) (a_st a) || conflict (a_ef a) (a_et a) = true ->
  fst (read_bytes c04_legacy m (spec01 c) a) = Err Value.
Proof. intros c m a Hwf Hm Hc. exact (proj1 (v01_read_conflict c m a Hwf Hm Hc)). Qed.
Print Assumptions C04_v01_conflict_bytes.
Theorem C04_v01_conflict_stream :
  forall c m a, wf01 c -> MemoOK m -> conflict (a_sf a) (a_st a) || conflict (a_ef a) (a_et a) = true ->
  fst (fst (read_stream4 c04_legacy m (spec01 c) a)) = Err Value.
Proof. intros c m a Hwf Hm Hc. exact (proj2 (v01_read_conflict c m a Hwf Hm Hc)). Qed.
Print Assumptions C04_v01_conflict_stream.
Theorem C04_window_of_frames :
  forall fps F a, a_st a = None -> a_et a = None -> window_of fps F a = Ok (start0 (a_sf a), end0 (a_ef a) F).
Proof. exact window_of_frames. Qed.
Print Assumptions C04_window_of_frames.
Theorem C04_window_of_no_args : forall fps F a, any_arg a = false -> window_of fps F a = Ok (0%Z, F).
Proof. exact no_args_window. Qed.
Print Assumptions C04_window_of_no_args.
(* CPython's int(a / b) on exact multiples: the float quotient is exact below 2^53 (binary64 division, SpecFloat) *)
Theorem C04_py_int_truediv_exact :
  forall F b : Z, (0 <= F < 2 ^ 53)%Z -> (0 < b)%Z -> py_int_truediv (F * b) b = Ok F.
Proof. exact py_int_truediv_exact. Qed.
Print Assumptions C04_py_int_truediv_exact.

(* Pose.write accepts the decoded pose and the written file reads back to the same header (version 0.2), fps, values, confidences
   and missing pattern ([rewrite_view]); for every legacy decoder plugged in and every memo state; for the whole decoded
   pose and for every decoded window *)
Theorem C04_legacy_rewrite_v00 :
  forall c, wf00 c ->
  exists bs, write_pose (to_wpose (first_person_view c)) = Ok bs /\
    forall legacy m, MemoOK m -> fst (read_bytes legacy m bs no_args) = Ok (rewrite_view (first_person_view c)).
Proof. exact legacy_rewrite_v00. Qed.
Print Assumptions C04_legacy_rewrite_v00.
Theorem C04_legacy_rewrite_v00_window :
  forall c s0 e0, wf00 c -> (0 <= s0 <= e0)%Z -> (e0 <= frames00 c)%Z ->
  exists bs, write_pose (to_wpose (v00_window_view c s0 e0)) = Ok bs /\
    forall legacy m, MemoOK m -> fst (read_bytes legacy m bs no_args) = Ok (rewrite_view (v00_window_view c s0 e0)).
Proof. exact legacy_rewrite_v00_window. Qed.
Print Assumptions C04_legacy_rewrite_v00_window.
Theorem C04_legacy_rewrite_v01 :
  forall c s0 e0, wf01 c -> (0 <= s0 <= e0)%Z -> (e0 <= frames01 c)%Z -> (e0 - s0 < 4294967296)%Z ->
  exists bs, write_pose (to_wpose (v01_view c (Z.to_N s0) (Z.to_N e0))) = Ok bs /\
    forall legacy m, MemoOK m ->
    fst (read_bytes legacy m bs no_args) = Ok (rewrite_view (v01_view c (Z.to_N s0) (Z.to_N e0))).
Proof. exact legacy_rewrite_v01. Qed.
Print Assumptions C04_legacy_rewrite_v01.
(* a 16-bit fps survives the float32 round trip of the v0.2 writer: its float32 is a finite value, and every finite
   word is itself after widening and packing (C02_F32RT.f32_widen_pack) *)
Theorem C04_fps_roundtrip :
  forall n, u16 n -> pack_f32 (f32_to_f64 (f32_of_u16 n)) = Some (f32_of_u16 n).
Proof. exact fps_roundtrip. Qed.
Print Assumptions C04_fps_roundtrip.

(* whatever legacy decoders are plugged in: once the header parses and its version float is none of 0, 0.1, 0.2 (at the
   3-decimal granularity both readers define), Pose.read raises NotImplementedError - bytes and stream *)
Theorem C04_unknown_version_bytes :
  forall legacy m q a h o, MemoOK m ->
  run_plain rd_header {| pbuf := q; poff := 0 |} = Ok (h, {| pbuf := q; poff := o |}) ->
  version_class (h_version h) = VUnknown ->
  fst (read_bytes legacy m q a) = Err NotImplemented.
Proof. intros legacy m q a h o Hm Hh Hv. exact (proj1 (unknown_version legacy m q a h o Hm Hh Hv)). Qed.
Print Assumptions C04_unknown_version_bytes.
Theorem C04_unknown_version_stream :
  forall legacy m q a h o, MemoOK m ->
  run_plain rd_header {| pbuf := q; poff := 0 |} = Ok (h, {| pbuf := q; poff := o |}) ->
  version_class (h_version h) = VUnknown ->
  fst (fst (read_stream4 legacy m q a)) = Err NotImplemented.
Proof. intros legacy m q a h o Hm Hh Hv. exact (proj2 (unknown_version legacy m q a h o Hm Hh Hv)). Qed.
Print Assumptions C04_unknown_version_stream.
(* which floats are which version: the written ones, the 3-decimal boundaries on both sides, and clearly foreign ones.
   As float32: 0 = +0.0, 2147483648 = -0.0, v01w = 0.1, version_word = 0.2; 1036812288 = 0.09985..., 1045236941 = 0.20024...;
   1050253722 = 0.3, 1065353216 = 1.0, 3184315597 = -0.1, 1 = 2^-149, 2143289344 = NaN, 2139095040 = +inf;
   1036764839 / 1036764840 are the floats next below / above 0.0995, 1036899057 / 1036899058 next below / above 0.1005. *)
Theorem C04_version_classes :
  version_class 0 = V00 /\ version_class 2147483648 = V00 /\ version_class v01w = V01 /\ version_class version_word = V02 /\
  version_class 1036812288 = V01 /\ version_class 1045236941 = V02 /\
  version_class 1050253722 = VUnknown /\ version_class 1065353216 = VUnknown /\
  version_class 3184315597 = VUnknown /\ version_class 1 = VUnknown /\
  version_class 2143289344 = VUnknown /\ version_class 2139095040 = VUnknown /\
  version_class 1036764839 = VUnknown /\ version_class 1036764840 = V01 /\
  version_class 1036899057 = V01 /\ version_class 1036899058 = VUnknown.
Proof. vm_compute. repeat split. Qed.
Print Assumptions C04_version_classes.

(* non-vacuity: concrete files meeting the hypotheses *)
Theorem C04_example_v00 :
  (wf00 ex00 /\ k0_frames ex00 <> []) /\
  fst (read_bytes c04_legacy None (spec00 ex00) no_args) = Ok (first_person_view ex00) /\
  b_shape (p_body (first_person_view ex00)) = [3; 1; 3; 2] /\
  b_data (p_body (first_person_view ex00)) = [f1; f2; f1; f1; f2; f2; 0; 0; 0; 0; 0; 0; f2; f1; fh; fh; f1; f1] /\
  b_conf (p_body (first_person_view ex00)) = [f1; 0; fm1; 0; 0; 0; fnan; fh; f1] /\
  b_mask (p_body (first_person_view ex00)) = [false; true; false; true; true; true; false; false; false].
Proof. split; [exact ex00_wf|]. split; [vm_compute; reflexivity|]. repeat split. Qed.
Print Assumptions C04_example_v00.
Theorem C04_example_v00_zero_frames :
  (wf00 ex00_empty /\ k0_frames ex00_empty = []) /\
  fst (read_bytes c04_legacy None (spec00 ex00_empty) no_args) = Ok (first_person_view ex00_empty) /\
  b_shape (p_body (first_person_view ex00_empty)) = [0; 1; 3; 2] /\ b_data (p_body (first_person_view ex00_empty)) = [].
Proof. split; [exact ex00_empty_wf|]. split; [vm_compute; reflexivity|]. split; reflexivity. Qed.
Print Assumptions C04_example_v00_zero_frames.
Theorem C04_example_v01 :
  wf01 ex01 /\
  window01 ex01 ex_win01 = Ok (1, 2)%Z /\ valid_window (frames01 ex01) 1 2 /\
  window01 ex01 no_args = Ok (0, 3)%Z /\ valid_window (frames01 ex01) 0 3 /\
  b_shape (p_body (v01_view ex01 1 2)) = [1; 1; 3; 2] /\
  b_data (p_body (v01_view ex01 1 2)) = [fh; fh; fh; fh; fh; fh] /\
  b_shape (p_body (v01_view ex01 0 3)) = [3; 1; 3; 2].
Proof. exact (conj ex01_wf ex01_window). Qed.
Print Assumptions C04_example_v01.
(* windows are honoured: v0.0, three frames with 2, 0 and 1 people at 30 fps - frames [1,2) by frame bounds and by [34 ms, 66 ms), frames [2,3)
   by start_frame = 2 and end_time = 100 ms, from bytes and from a stream *)
Theorem C04_example_v00_window :
  window00 ex00 ex_win = Ok (1, 2)%Z /\ window00 ex00 ex_time00 = Ok (1, 2)%Z /\ window00 ex00 ex_mixed00 = Ok (2, 3)%Z /\
  time_to_frame true 100 (fps_value (k0_fps ex00)) = Ok 3%Z /\
  valid_window (frames00 ex00) 1 2 /\ valid_window (frames00 ex00) 2 3 /\
  fst (read_bytes c04_legacy None (spec00 ex00) ex_win) = Ok (v00_window_view ex00 1 2) /\
  fst (fst (read_stream4 c04_legacy None (spec00 ex00) ex_win)) = Ok (v00_window_view ex00 1 2) /\
  fst (read_bytes c04_legacy None (spec00 ex00) ex_time00) = Ok (v00_window_view ex00 1 2) /\
  fst (fst (read_stream4 c04_legacy None (spec00 ex00) ex_time00)) = Ok (v00_window_view ex00 1 2) /\
  fst (fst (read_stream4 c04_legacy None (spec00 ex00) ex_mixed00)) = Ok (v00_window_view ex00 2 3) /\
  b_shape (p_body (v00_window_view ex00 1 2)) = [1; 1; 3; 2] /\
  b_data (p_body (v00_window_view ex00 1 2)) = [0; 0; 0; 0; 0; 0] /\
  b_mask (p_body (v00_window_view ex00 1 2)) = [true; true; true] /\
  b_data (p_body (v00_window_view ex00 2 3)) = [f2; f1; fh; fh; f1; f1] /\
  b_conf (p_body (v00_window_view ex00 2 3)) = [fnan; fh; f1].
Proof. exact ex00_window. Qed.
Print Assumptions C04_example_v00_window.
(* v0.1, three frames at 25 fps: [40 ms, 80 ms) is frames [1,2) *)
Theorem C04_example_v01_time_window :
  time_to_frame false 40 (fps_value (k1_fps ex01)) = Ok 1%Z /\ time_to_frame true 80 (fps_value (k1_fps ex01)) = Ok 2%Z /\
  window01 ex01 ex_time01 = Ok (1, 2)%Z /\
  fst (read_bytes c04_legacy None (spec01 ex01) ex_time01) = Ok (v01_view ex01 1 2) /\
  fst (fst (read_stream4 c04_legacy None (spec01 ex01) ex_time01)) = Ok (v01_view ex01 1 2) /\
  b_shape (p_body (v01_view ex01 1 2)) = [1; 1; 3; 2] /\
  b_conf (p_body (v01_view ex01 1 2)) = [f1; f1; f1].
Proof. exact ex01_time_window. Qed.
Print Assumptions C04_example_v01_time_window.
(* refused arguments on the same files: a start at the frame count by frame and by time, both bounds for one end *)
Theorem C04_example_v00_rejected :
  window00 ex00 ex_beyond00 = Ok (3, 3)%Z /\ window00 ex00 ex_beyond_time00 = Ok (3, 3)%Z /\ frames00 ex00 = 3%Z /\
  fst (read_bytes c04_legacy None (spec00 ex00) ex_beyond00) = Err Value /\
  fst (fst (read_stream4 c04_legacy None (spec00 ex00) ex_beyond_time00)) = Err Value /\
  conflict (a_sf ex_conflict) (a_st ex_conflict) || conflict (a_ef ex_conflict) (a_et ex_conflict) = true /\
  conflict (a_sf ex_conflict_end) (a_st ex_conflict_end) || conflict (a_ef ex_conflict_end) (a_et ex_conflict_end) = true /\
  fst (read_bytes c04_legacy None (spec00 ex00) ex_conflict) = Err Value /\
  fst (fst (read_stream4 c04_legacy None (spec00 ex00) ex_conflict_end)) = Err Value.
Proof. exact ex00_rejected. Qed.
Print Assumptions C04_example_v00_rejected.
Theorem C04_example_v01_rejected :
  window01 ex01 ex_beyond01 = Ok (3, 3)%Z /\ window01 ex01 ex_beyond_time01 = Ok (3, 3)%Z /\ frames01 ex01 = 3%Z /\
  fst (read_bytes c04_legacy None (spec01 ex01) ex_beyond01) = Err Value /\
  fst (fst (read_stream4 c04_legacy None (spec01 ex01) ex_beyond_time01)) = Err Value /\
  fst (read_bytes c04_legacy None (spec01 ex01) ex_conflict) = Err Value /\
  fst (fst (read_stream4 c04_legacy None (spec01 ex01) ex_conflict_end)) = Err Value.
Proof. exact ex01_rejected. Qed.
Print Assumptions C04_example_v01_rejected.
(* a recording of 70 000 frames (16-bit field = 70000 mod 65536) is a valid v0.1 content *)
Theorem C04_example_v01_long : wf01 ex01_long /\ frames01 ex01_long = 70000%Z /\ (65535 < frames01 ex01_long)%Z.
Proof. exact ex01_long_wf. Qed.
Print Assumptions C04_example_v01_long.
Theorem C04_example_unknown :
  wf_header (hdr 1050253722) /\ version_class (h_version (hdr 1050253722)) = VUnknown /\
  fst (read_bytes c04_legacy None (spec_header (hdr 1050253722) ++ spec_body01 ex01) no_args) = Err NotImplemented.
Proof. split; [apply hdr_wf; reflexivity|]. split; vm_compute; reflexivity. Qed.
Print Assumptions C04_example_unknown.
Theorem C04_example_rewrite :
  (exists bs, write_pose (to_wpose (first_person_view ex00)) = Ok bs /\ lenN bs = 184) /\
  b_mask (p_body (rewrite_view (first_person_view ex00))) = b_mask (p_body (first_person_view ex00)) /\
  b_conf (p_body (rewrite_view (first_person_view ex00))) = b_conf (p_body (first_person_view ex00)).
Proof. exact ex_rewrite. Qed.
Print Assumptions C04_example_rewrite.

(* ties to the current source (regenerated on every run into gen/Gen_C04.v) *)
Theorem C04_tie_read_v0_1_signature : Gen_C04.read_v0_1_signature = exp_read_v0_1_signature.
Proof. reflexivity. Qed.
Print Assumptions C04_tie_read_v0_1_signature.
Theorem C04_tie_read_v0_1_body : Gen_C04.read_v0_1_body = exp_read_v0_1_body.
Proof. reflexivity. Qed.
Print Assumptions C04_tie_read_v0_1_body.
Theorem C04_tie_read_dispatch : Gen_C04.read_dispatch = exp_read_dispatch.
Proof. reflexivity. Qed.
Print Assumptions C04_tie_read_dispatch.
Theorem C04_tie_read_v0_0_signature : Gen_C04.read_v0_0_signature = exp_read_v0_0_signature.
Proof. reflexivity. Qed.
Print Assumptions C04_tie_read_v0_0_signature.
Theorem C04_tie_read_v0_0_body : Gen_C04.read_v0_0_body = exp_read_v0_0_body.
Proof. reflexivity. Qed.
Print Assumptions C04_tie_read_v0_0_body.
Theorem C04_tie_reader_bytes_left : Gen_C04.reader_bytes_left = exp_reader_bytes_left.
Proof. reflexivity. Qed.
Print Assumptions C04_tie_reader_bytes_left.
Theorem C04_tie_reader_bytes_remaining : Gen_C04.reader_bytes_remaining = exp_reader_bytes_remaining.
Proof. reflexivity. Qed.
Print Assumptions C04_tie_reader_bytes_remaining.
Theorem C04_tie_stream_reader_bytes_remaining : Gen_C04.stream_reader_bytes_remaining = exp_stream_reader_bytes_remaining.
Proof. reflexivity. Qed.
Print Assumptions C04_tie_stream_reader_bytes_remaining.
Theorem C04_tie_reader_advance : Gen_C04.reader_advance = exp_reader_advance.
Proof. reflexivity. Qed.
Print Assumptions C04_tie_reader_advance.
Theorem C04_tie_stream_reader_methods : Gen_C04.stream_reader_methods = exp_stream_reader_methods.
Proof. reflexivity. Qed.
Print Assumptions C04_tie_stream_reader_methods.
