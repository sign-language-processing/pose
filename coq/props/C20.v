(* C20 - Batch collation pads without altering or unmasking anything.
   Each statement is followed by Print Assumptions; the longer proofs stand in proofs/C20_*.v.
   Vocabulary (proofs/C20_Spec.v): [good masked tail x] = one example's tensor of the field (kind, trailing shape,
   well-formed values and validity); [good_batch masked tail pv batch] = non-empty batch of such, pad value
   representable in every example's dtype; [Lmax] = longest length; [len_of] = an example's length; [spec_out] = the
   collated batch as the property describes it, [out_t] / [out_m] / [out_dt] / [out_masked] its parts; [sc_sound] = a
   shortcut taken only when nothing needs padding; [get_path] / [out_path] = lookup along nested keys; [same_lookups]
   is in proofs/C20_DictOrder.v; [tget] = cell at a multi-index (base/Tensor.v).
   [pad_tensors] takes its shortcut when every length equals the longest ([sc_repaired], what the source does:
   gen_shortcut_kind_tie); the shortcut on `max_len == 1` ([sc_pinned], defect F15) is refuted below. *)
From Coq Require Import String List ZArith Arith Bool Lia.
Require Import Result ResultFacts Tensor C20_Collate C20_Spec C20_Pad C20_Rows C20_Dispatch C20_Repair C20_Examples Gen_C20.
From Coq Require Import Permutation.
Require Import C20_DictOrder.
Import ListNotations.

(* ---- one field: tensors (batch axes, rows reproduced, padding) *)
(* on a well-formed homogeneous batch pad_tensors, with any shortcut that is only taken when nothing needs padding, returns exactly the specified batch *)
Theorem pad_tensors_master :
  forall masked tail pv batch sc,
  sc_sound sc -> good_batch masked tail pv batch ->
  pad_tensors_with sc batch pv = Ok (spec_out masked tail pv batch).
Proof. exact C20_Pad.pad_tensors_master. Qed.
Print Assumptions pad_tensors_master.

(* collation of a well-formed homogeneous batch succeeds (what F15 violated) and keeps the kind *)
Theorem collate_total :
  forall masked tail pv batch,
  good_batch masked tail pv batch -> exists o, pad_tensors batch pv = Ok o /\ out_masked o = masked.
Proof.
  intros masked tail pv batch G. exists (spec_out masked tail pv batch). split.
  - exact (pad_tensors_master masked tail pv batch sc_repaired sc_repaired_sound G).
  - unfold spec_out. now destruct masked.
Qed.
Print Assumptions collate_total.

(* first axis = example, second = longest length (attained, and an upper bound), then the trailing shape; values and validity both *)
Theorem batch_axes :
  forall masked tail pv batch o,
  good_batch masked tail pv batch -> pad_tensors batch pv = Ok o ->
  shape (out_t o) = length batch :: Lmax batch :: tail /\ wf (out_t o) /\
  (masked = true -> shape (out_m o) = length batch :: Lmax batch :: tail /\ wf (out_m o)) /\
  (forall x, In x batch -> len_of x <= Lmax batch) /\ (exists x, In x batch /\ len_of x = Lmax batch).
Proof. exact C20_Rows.batch_axes. Qed.
Print Assumptions batch_axes.

(* row i starts with example i's values and validity, cell by cell, unchanged (any default: the cells are in range) *)
Theorem collate_rows :
  forall masked tail pv batch o,
  good_batch masked tail pv batch -> pad_tensors batch pv = Ok o ->
  forall i x j ix (dz dz' : Z) (db db' : bool),
    nth_error batch i = Some x -> j < len_of x -> in_range tail ix ->
    tget dz (out_t o) (i :: j :: ix) = tget dz' (tl_t x) (j :: ix) /\
    (masked = true -> tget db (out_m o) (i :: j :: ix) = tget db' (tl_m x) (j :: ix)).
Proof. exact C20_Rows.collate_rows. Qed.
Print Assumptions collate_rows.

(* every padded position holds the pad value (converted to the example's dtype) and is invalid *)
Theorem padding_invalid_and_pad_value :
  forall masked tail pv batch o,
  good_batch masked tail pv batch -> pad_tensors batch pv = Ok o ->
  forall i x j ix (dz : Z) (db : bool),
    nth_error batch i = Some x -> len_of x <= j -> j < Lmax batch -> in_range tail ix ->
    tget dz (out_t o) (i :: j :: ix) = pad_val (tl_dt x) pv /\
    (masked = true -> tget db (out_m o) (i :: j :: ix) = false).
Proof. exact C20_Rows.padding_invalid_and_pad_value. Qed.
Print Assumptions padding_invalid_and_pad_value.

(* the same two clauses in flat form: each row is the example's cells followed by padding cells only *)
Theorem collate_row_layout :
  forall masked tail pv batch o,
  good_batch masked tail pv batch -> pad_tensors batch pv = Ok o ->
  data (out_t o) = concat (map (fun x => data (tl_t x) ++ repeat (pad_val (tl_dt x) pv) ((Lmax batch - len_of x) * prod tail)) batch) /\
  (masked = true ->
   data (out_m o) = concat (map (fun x => data (tl_m x) ++ repeat false ((Lmax batch - len_of x) * prod tail)) batch)).
Proof.
  intros masked tail pv batch o G H. rewrite (pad_tensors_spec _ _ _ _ _ G H). split.
  - rewrite out_t_spec. reflexivity.
  - intros ->. reflexivity.
Qed.
Print Assumptions collate_row_layout.

(* dtype of the batch: promotion over the examples; the common dtype when they agree *)
Theorem result_dtype :
  forall masked tail pv batch o d,
  good_batch masked tail pv batch -> pad_tensors batch pv = Ok o ->
  out_dt o = dts (map tl_dt batch) /\ (Forall (fun x => tl_dt x = d) batch -> out_dt o = d).
Proof. exact C20_Rows.result_dtype. Qed.
Print Assumptions result_dtype.

(* the default pad value 0 fits every dtype and stays 0 *)
Theorem pad_zero :
  forall dt, pad_fits dt 0 = true /\ pad_val dt 0 = 0%Z.
Proof. exact C20_Rows.pad_zero. Qed.
Print Assumptions pad_zero.

(* ---- type dispatch and recursion (integers, strings and the per-field structure) *)
(* a field of masked / plain tensors is collated by pad_tensors *)
Theorem collate_field_tensors :
  forall d rest pv xs,
  rmapM as_tl (d :: rest) = Ok xs -> collate_t d rest pv = pad_tensors xs pv.
Proof. exact C20_Dispatch.collate_field_tensors. Qed.
Print Assumptions collate_field_tensors.

(* integers become one int64 tensor of the batch size, in order *)
Theorem ints_one_integer_tensor :
  forall z zs pv,
  Forall (fun n => in_i64 n = true) (z :: zs) ->
  collate_t (VInt z) (map VInt zs) pv = Ok (OPlain DI64 (mkT [length (z :: zs)] (z :: zs))).
Proof.
  intros z zs pv HF. cbn [collate_t].
  change (VInt z :: map VInt zs) with (map VInt (z :: zs)).
  rewrite (rmapM_map as_int (fun v => match v with VInt n => n | _ => 0%Z end)).
  - cbn [rbind]. rewrite map_map, map_id, !map_length. reflexivity.
  - intros v Hv. apply in_map_iff in Hv. destruct Hv as (n & <- & Hn). rewrite Forall_forall in HF.
    cbn [as_int]. now rewrite (HF n Hn).
Qed.
Print Assumptions ints_one_integer_tensor.

(* strings are passed through in order, as a field and as whole examples *)
Theorem strings_passed_through_in_order :
  forall s rest pv,
  collate_t (VStr s) rest pv = Ok (OList (VStr s :: rest)) /\
  zero_pad_collator (VStr s :: rest) = Ok (OList (VStr s :: rest)).
Proof. split; reflexivity. Qed.
Print Assumptions strings_passed_through_in_order.

(* a batch of dictionaries yields a dictionary with the first example's keys in order; field k is the collation of the examples' k entries *)
Theorem dict_fields :
  forall kvs rest pv o,
  collate_t (VDict kvs) rest pv = Ok o ->
  exists os, o = ODict os /\ map fst os = map fst kvs /\
    forall k v, assoc k kvs = Some v ->
      exists vs ok, rmapM (field k) rest = Ok vs /\ collate_t v vs 0%Z = Ok ok /\ assoc k os = Some ok.
Proof. exact C20_Dispatch.dict_fields. Qed.
Print Assumptions dict_fields.

(* ... and the fields are gathered BY KEY: later examples whose dictionaries answer every key lookup alike - in particular the same
   items in another insertion order, keys distinct - give the same batch *)
Theorem dict_batch_by_key :
  forall kvs rest rest' pv, Forall2 same_lookups rest rest' ->
  collate_t (VDict kvs) rest pv = collate_t (VDict kvs) rest' pv.
Proof. exact C20_DictOrder.dict_batch_by_key. Qed.
Print Assumptions dict_batch_by_key.
Theorem dict_items_order_irrelevant :
  forall kvs kvs', NoDup (map fst kvs) -> Permutation kvs kvs' -> same_lookups (VDict kvs) (VDict kvs').
Proof. intros kvs kvs' ND HP k. unfold field. now rewrite (assoc_perm kvs kvs' ND HP k). Qed.
Print Assumptions dict_items_order_irrelevant.

(* dictionaries nested in dictionaries, any depth: the entry at a path is the collation of the examples' entries at that path *)
Theorem nested_dicts :
  forall p, forall d rest o leaf leaves,
  p <> [] -> collate_t d rest 0%Z = Ok o ->
  get_path p d = Some leaf -> Forall2 (fun b l => get_path p b = Some l) rest leaves ->
  exists o', out_path p o = Some o' /\ collate_t leaf leaves 0%Z = Ok o'.
Proof. exact C20_Dispatch.nested_dicts. Qed.
Print Assumptions nested_dicts.

(* end to end: a tensor field at any depth of a batch of dictionaries is exactly the specified padded batch (pad value 0) *)
Theorem zpc_nested_tensor_field :
  forall p d rest o leaf leaves xs masked tail,
  p <> [] -> zero_pad_collator (d :: rest) = Ok o ->
  get_path p d = Some leaf -> Forall2 (fun b l => get_path p b = Some l) rest leaves ->
  rmapM as_tl (leaf :: leaves) = Ok xs -> Forall (good masked tail) xs ->
  out_path p o = Some (spec_out masked tail 0%Z xs).
Proof. exact C20_Dispatch.zpc_nested_tensor_field. Qed.
Print Assumptions zpc_nested_tensor_field.

(* a batch of tuples yields a tuple of the first example's size; item i is the collation of the examples' items i *)
Theorem tuple_fields :
  forall ds rest o,
  zero_pad_collator (VTuple ds :: rest) = Ok o ->
  exists os, o = OTuple os /\ length os = length ds /\
    forall i di, nth_error ds i = Some di ->
      exists vs oi, rmapM (tuple_item i) rest = Ok vs /\ collate_t di vs 0%Z = Ok oi /\ nth_error os i = Some oi.
Proof.
  intros ds rest o. cbn [zero_pad_collator]. intros H. destruct (tuple_go 0 ds rest) as [os|e] eqn:E; cbn [rmap] in H; [|discriminate].
  inversion H; subst. exists os. split; [reflexivity|]. exact (tuple_go_spec rest ds 0 os E).
Qed.
Print Assumptions tuple_fields.

(* a batch of bare masked tensors is collated like a field *)
Theorem zpc_masked :
  forall dt t m rest, zero_pad_collator (VMasked dt t m :: rest) = collate_t (VMasked dt t m) rest 0%Z.
Proof. reflexivity. Qed.
Print Assumptions zpc_masked.

(* ---- defect F15: the two shortcuts *)
(* the [sc_repaired] shortcut never changes the result *)
Theorem shortcut_is_only_an_optimisation :
  forall masked tail pv batch,
  good_batch masked tail pv batch -> pad_tensors_with sc_repaired batch pv = pad_tensors_with sc_none batch pv.
Proof.
  intros masked tail pv batch G.
  rewrite (pad_tensors_master _ _ _ _ _ sc_repaired_sound G). now rewrite (pad_tensors_master _ _ _ _ _ sc_none_sound G).
Qed.
Print Assumptions shortcut_is_only_an_optimisation.

(* whenever [sc_pinned] returns a result on a well-formed batch, [sc_repaired] returns the same *)
Theorem repair_conservative :
  forall masked tail pv batch o,
  good_batch masked tail pv batch ->
  pad_tensors_with sc_pinned batch pv = Ok o -> pad_tensors batch pv = Ok o.
Proof. exact C20_Repair.repair_conservative. Qed.
Print Assumptions repair_conservative.

(* the `max_len == 1` shortcut ([sc_pinned]) rejects a well-formed batch (lengths 1 and 0): collate_total fails for it *)
Theorem f15_pinned_shortcut_refuted :
  (exists batch, good_batch true [2]%nat 0 batch /\ pad_tensors_with sc_pinned batch 0 = Err Value)%Z.
Proof. exists [ex_a; ex_b]. split; [exact good_batch_f15|]. vm_compute. reflexivity. Qed.
Print Assumptions f15_pinned_shortcut_refuted.

(* ---- non-vacuity: the hypotheses above are satisfiable by concrete non-trivial values *)
Example good_batch_f15 :
  (good_batch true [2]%nat 0 [ex_a; ex_b])%Z.
Proof. exact C20_Examples.good_batch_f15. Qed.
Print Assumptions good_batch_f15.

Example good_batch_three :
  (good_batch true [2]%nat 7 [ex_c; ex_b; ex_a])%Z.
Proof. split; [discriminate|]. split; repeat constructor. Qed.
Print Assumptions good_batch_three.

Example good_batch_plain :
  (good_batch false []%nat 7 [ex_p1; ex_p2; ex_p1])%Z.
Proof. split; [discriminate|]. split; repeat constructor; discriminate. Qed.
Print Assumptions good_batch_plain.

Example f15_repaired_collates :
  (pad_tensors [ex_a; ex_b] 0 =
  Ok (OMasked DF32 (mkT [2;1;2]%nat [1;2;0;0]) (mkT [2;1;2]%nat [true;false;false;false])))%Z.
Proof. vm_compute. reflexivity. Qed.
Print Assumptions f15_repaired_collates.

Example f15_plain_repaired_collates :
  (pad_tensors [ex_p1; ex_p2; ex_p1] 7 = Ok (OPlain DI64 (mkT [3;1]%nat [7;5;7])))%Z.
Proof. vm_compute. reflexivity. Qed.
Print Assumptions f15_plain_repaired_collates.

Example collate_three :
  (pad_tensors [ex_c; ex_b; ex_a] 7 =
  Ok (OMasked DF32 (mkT [3;2;2]%nat [3;4;5;6; 7;7;7;7; 1;2;7;7])
        (mkT [3;2;2]%nat [true;true;false;true; false;false;false;false; true;false;false;false])))%Z.
Proof. vm_compute. reflexivity. Qed.
Print Assumptions collate_three.

Example rows_hyps_example :
  (nth_error [ex_c; ex_b; ex_a] 2 = Some ex_a /\ (0 < len_of ex_a)%nat /\ in_range [2]%nat [1]%nat)%Z.
Proof. split; [reflexivity|]. split; [cbn; lia|]. repeat constructor. Qed.
Print Assumptions rows_hyps_example.

Example padding_hyps_example :
  (nth_error [ex_c; ex_b; ex_a] 2 = Some ex_a /\ (len_of ex_a <= 1)%nat /\ (1 < Lmax [ex_c; ex_b; ex_a])%nat /\ in_range [2]%nat [0]%nat)%Z.
Proof. split; [reflexivity|]. split; [cbn; lia|]. split; [cbn; lia|]. repeat constructor. Qed.
Print Assumptions padding_hyps_example.

Example nested_example :
  (zero_pad_collator [ex_d1; ex_d2] =
  Ok (ODict [(k_a, ODict [(k_b, OMasked DF32 (mkT [2;1;2]%nat [1;2;0;0]) (mkT [2;1;2]%nat [true;false;false;false]))]);
             (k_n, OPlain DI64 (mkT [2]%nat [5;6]));
             (k_s, OList [VStr [120]; VStr [121]])]))%Z.
Proof. vm_compute. reflexivity. Qed.
Print Assumptions nested_example.

Example nested_hyps_example :
  ([k_a; k_b] <> [] /\ get_path [k_a; k_b] ex_d1 = Some (v_of ex_a) /\
  Forall2 (fun b l => get_path [k_a; k_b] b = Some l) [ex_d2] [v_of ex_b] /\
  rmapM as_tl [v_of ex_a; v_of ex_b] = Ok [ex_a; ex_b] /\ Forall (good true [2]%nat) [ex_a; ex_b])%Z.
Proof. split; [discriminate|]. split; [reflexivity|]. split; [repeat constructor|]. split; [reflexivity|]. repeat constructor. Qed.
Print Assumptions nested_hyps_example.

Example ints_hyps_example :
  (Forall (fun n => in_i64 n = true) [5; -2147483648; 9223372036854775807])%Z.
Proof. repeat constructor. Qed.
Print Assumptions ints_hyps_example.

Example tuple_example :
  (zero_pad_collator [VTuple [v_of ex_p1; VInt 1; VStr [120]]; VTuple [v_of ex_p2; VInt 0; VStr []]] =
  Ok (OTuple [OPlain DI64 (mkT [2;1]%nat [0;5]); OPlain DI64 (mkT [2]%nat [1;0]); OList [VStr [120]; VStr []]]))%Z.
Proof. vm_compute. reflexivity. Qed.
Print Assumptions tuple_example.

(* outside the property (a field mixing masked and plain tensors; the first element decides the dispatch):
   the plain example is padded with a plain tensor that MaskedTorch.cat wraps in an all-True mask *)
Example heterogeneous_field_first_masked :
  (pad_tensors [TM DF32 (mkT [2]%nat [1;2]) (mkT [2]%nat [true;false]); TP DF32 (mkT [1]%nat [3])] 0 =
  Ok (OMasked DF32 (mkT [2;2]%nat [1;2;3;0]) (mkT [2;2]%nat [true;false;true;true])))%Z.
Proof. vm_compute. reflexivity. Qed.
Print Assumptions heterogeneous_field_first_masked.

(* ---- ties to the source as regenerated on this run (coq/gen/Gen_C20.v) *)
Theorem gen_pad_tensors_src_tie :
  (Gen_C20.pad_tensors_src = 
  [ "batch: List[Union[torch.Tensor, MaskedTensor]], pad_value=0";
    "datum = batch[0]";
    "torch_cls = MaskedTorch if isinstance(datum, MaskedTensor) else torch";
    "max_len = max((len(t) for t in batch))";
    "if all((len(t) == max_len for t in batch)):
    return torch_cls.stack(batch, dim=0)";
    "new_batch = []";
    "for tensor in batch:
    missing = list(tensor.shape)
    missing[0] = max_len - tensor.shape[0]
    if missing[0] > 0:
        padding_tensor = torch.full(missing, fill_value=pad_value, dtype=tensor.dtype, device=tensor.device)
        if isinstance(tensor, MaskedTensor):
            padding_tensor = MaskedTensor(tensor=padding_tensor, mask=torch.zeros_like(padding_tensor, dtype=torch.bool))
        tensor = torch_cls.cat([tensor, padding_tensor], dim=0)
    new_batch.append(tensor)";
    "return torch_cls.stack(new_batch, dim=0)" ])%string.
Proof. reflexivity. Qed.
Print Assumptions gen_pad_tensors_src_tie.

Theorem gen_collate_tensors_src_tie :
  (Gen_C20.collate_tensors_src = 
  [ "batch: List, pad_value=0";
    "datum = batch[0]";
    "if isinstance(datum, dict):
    return zero_pad_collator(batch)";
    "if isinstance(datum, (int, np.int32)):
    return torch.tensor(batch, dtype=torch.long)";
    "if isinstance(datum, (MaskedTensor, torch.Tensor)):
    return pad_tensors(batch, pad_value=pad_value)";
    "return batch" ])%string.
Proof. reflexivity. Qed.
Print Assumptions gen_collate_tensors_src_tie.

Theorem gen_zero_pad_collator_src_tie :
  (Gen_C20.zero_pad_collator_src = 
  [ "batch";
    "datum = batch[0]";
    "if isinstance(datum, str):
    return batch";
    "if isinstance(datum, tuple):
    return tuple((collate_tensors([b[i] for b in batch]) for i in range(len(datum))))";
    "if isinstance(datum, MaskedTensor):
    return collate_tensors(batch)";
    "keys = datum.keys()";
    "return {k: collate_tensors([b[k] for b in batch]) for k in keys}" ])%string.
Proof. reflexivity. Qed.
Print Assumptions gen_zero_pad_collator_src_tie.

Theorem gen_masked_cat_src_tie :
  (Gen_C20.masked_cat_src = 
  [ "tensors: List[Union[MaskedTensor, torch.Tensor]], dim: int";
    "tensors: List[MaskedTensor] = [t if isinstance(t, MaskedTensor) else MaskedTensor(tensor=t) for t in tensors]";
    "tensor = torch.cat([t.tensor for t in tensors], dim=dim)";
    "mask = torch.cat([t.mask for t in tensors], dim=dim)";
    "return MaskedTensor(tensor=tensor, mask=mask)" ])%string.
Proof. reflexivity. Qed.
Print Assumptions gen_masked_cat_src_tie.

Theorem gen_masked_stack_src_tie :
  (Gen_C20.masked_stack_src = 
  [ "tensors: List[MaskedTensor], dim: int";
    "tensor = torch.stack([t.tensor for t in tensors], dim=dim)";
    "mask = torch.stack([t.mask for t in tensors], dim=dim)";
    "return MaskedTensor(tensor=tensor, mask=mask)" ])%string.
Proof. reflexivity. Qed.
Print Assumptions gen_masked_stack_src_tie.

Theorem gen_masked_init_src_tie :
  (Gen_C20.masked_init_src = 
  [ "self, tensor: torch.Tensor, mask: torch.Tensor=None";
    "self.tensor = tensor";
    "self.mask = mask if mask is not None else torch.ones(tensor.shape, dtype=torch.bool).to(tensor.device)" ])%string.
Proof. reflexivity. Qed.
Print Assumptions gen_masked_init_src_tie.

Theorem gen_masked_len_src_tie :
  (Gen_C20.masked_len_src = 
  [ "self";
    "return self.tensor.shape[0]" ])%string.
Proof. reflexivity. Qed.
Print Assumptions gen_masked_len_src_tie.

Theorem gen_pad_default_tie :
  (Gen_C20.pad_default = 0%Z)%string.
Proof. reflexivity. Qed.
Print Assumptions gen_pad_default_tie.

Theorem gen_collate_pad_default_tie :
  (Gen_C20.collate_pad_default = 0%Z)%string.
Proof. reflexivity. Qed.
Print Assumptions gen_collate_pad_default_tie.

Theorem gen_shortcut_kind_tie :
  (Gen_C20.shortcut_kind = "AllLenEqualMax")%string.
Proof. reflexivity. Qed.
Print Assumptions gen_shortcut_kind_tie.

Theorem gen_max_len_src_tie :
  (Gen_C20.max_len_src = "max((len(t) for t in batch))")%string.
Proof. reflexivity. Qed.
Print Assumptions gen_max_len_src_tie.

Theorem gen_full_fill_src_tie :
  (Gen_C20.full_fill_src = "pad_value")%string.
Proof. reflexivity. Qed.
Print Assumptions gen_full_fill_src_tie.

Theorem gen_full_dtype_src_tie :
  (Gen_C20.full_dtype_src = "tensor.dtype")%string.
Proof. reflexivity. Qed.
Print Assumptions gen_full_dtype_src_tie.

Theorem gen_pad_mask_fill_src_tie :
  (Gen_C20.pad_mask_fill_src = C20_Collate.pad_mask_fill)%string.
Proof. reflexivity. Qed.
Print Assumptions gen_pad_mask_fill_src_tie.

Theorem gen_pad_at_end_src_tie :
  (Gen_C20.pad_at_end_src = true)%string.
Proof. reflexivity. Qed.
Print Assumptions gen_pad_at_end_src_tie.

Theorem gen_cat_dim_src_tie :
  (Gen_C20.cat_dim_src = "0")%string.
Proof. reflexivity. Qed.
Print Assumptions gen_cat_dim_src_tie.

Theorem gen_stack_dims_src_tie :
  (Gen_C20.stack_dims_src = [ "0" ])%string.
Proof. reflexivity. Qed.
Print Assumptions gen_stack_dims_src_tie.

Theorem gen_missing_src_tie :
  (Gen_C20.missing_src = 
  [ "missing = list(tensor.shape)";
    "missing[0] = max_len - tensor.shape[0]" ])%string.
Proof. reflexivity. Qed.
Print Assumptions gen_missing_src_tie.

Theorem gen_pad_guard_src_tie :
  (Gen_C20.pad_guard_src = "missing[0] > 0")%string.
Proof. reflexivity. Qed.
Print Assumptions gen_pad_guard_src_tie.

Theorem gen_collate_dispatch_src_tie :
  (Gen_C20.collate_dispatch_src = 
  [ "dict => zero_pad_collator(batch)";
    "(int, np.int32) => torch.tensor(batch, dtype=torch.long)";
    "(MaskedTensor, torch.Tensor) => pad_tensors(batch, pad_value=pad_value)";
    "_ => batch" ])%string.
Proof. reflexivity. Qed.
Print Assumptions gen_collate_dispatch_src_tie.

Theorem gen_zero_pad_dispatch_src_tie :
  (Gen_C20.zero_pad_dispatch_src = 
  [ "let datum = batch[0]";
    "str => batch";
    "tuple => tuple((collate_tensors([b[i] for b in batch]) for i in range(len(datum))))";
    "MaskedTensor => collate_tensors(batch)";
    "let keys = datum.keys()";
    "_ => {k: collate_tensors([b[k] for b in batch]) for k in keys}" ])%string.
Proof. reflexivity. Qed.
Print Assumptions gen_zero_pad_dispatch_src_tie.

Theorem gen_default_mask_fill_src_tie :
  (Gen_C20.default_mask_fill_src = C20_Collate.default_mask_fill)%string.
Proof. reflexivity. Qed.
Print Assumptions gen_default_mask_fill_src_tie.

(* class structure of the source: overrides and attribute hooks (proofs/ClassesTie.v) *)
Require Import ClassesTie.
Theorem C20_tie_class_attr_hooks : Gen_Classes.attr_hooks = exp_attr_hooks.
Proof. exact attr_hooks_tie. Qed.
Print Assumptions C20_tie_class_attr_hooks.

