(* Concrete witnesses that the hypotheses of the C01 / C07 theorems are satisfiable (non-vacuity). *)
From Coq Require Import ZArith NArith List Lia.
Require Import ListN Result Bytes Utf8 Utf8S F32 Prog Codec ProgLemmas CodecRT PoseRead PoseReadLemmas.
Import ListNotations.
Open Scope N_scope.

(* two components, a 2-byte and a 3-byte-per-character name, mixed formats (XYC / XC), one frame, two people,
   NaN / -0.0 / subnormal data, a zero and a non-zero confidence *)
Definition ex_pose : wpose :=
  {| w_dims := (640, 480, 0)%Z;
     w_comps := [ {| wc_name := [233; 8364]; wc_format := [88; 89; 67]; wc_points := [[97]; [26085; 26412]];
                     wc_limbs := [(0, 1)%Z]; wc_colors := [(255, 0, 65535)%Z] |};
                  {| wc_name := []; wc_format := [88; 67]; wc_points := [[98]]; wc_limbs := []; wc_colors := [] |} ];
     w_fps := 4629137466983448576;              (* 30.0 *)
     w_shape := [1; 2; 3; 2];
     w_data := [9221120237041090560; 9223372036854775808; 1; 4607182418800017408; 4611686018427387904; 0;
                4613937818241073152; 4616189618054758400; 4617315517961601024; 0; 0; 4607182418800017408];
     w_cshape := [1; 2; 3];
     w_conf := [4607182418800017408; 0; 4602678819172646912; 0; 9223372036854775808; 4607182418800017408] |}.
Lemma ex_pose_written : exists bs, write_pose ex_pose = Ok bs /\ lenN bs = 148.
Proof. eexists. split; vm_compute; reflexivity. Qed.
Lemma ex_pose_wf : wf_arrays ex_pose /\ 1 <= nth 3 (w_shape ex_pose) 0.
Proof. split; [split; reflexivity|]. cbn. lia. Qed.
(* zero frames and zero people are representable too *)
Definition ex_empty : wpose :=
  {| w_dims := (0, 0, 0)%Z;
     w_comps := [ {| wc_name := [65]; wc_format := [88; 89; 90; 67]; wc_points := []; wc_limbs := []; wc_colors := [] |} ];
     w_fps := 0; w_shape := [0; 0; 0; 3]; w_data := []; w_cshape := [0; 0; 0]; w_conf := [] |}.
(* two poses the writer refuses: a surrogate code point in a name (UnicodeEncodeError), a shape whose point count is
   not the header's (ValueError) *)
Lemma ex_rejected_surrogate :
  write_pose {| w_dims := (1, 1, 0)%Z;
                w_comps := [ {| wc_name := [55296]; wc_format := [88; 67]; wc_points := []; wc_limbs := []; wc_colors := [] |} ];
                w_fps := 0; w_shape := [0; 1; 0; 1]; w_data := []; w_cshape := [0; 1; 0]; w_conf := [] |} = Err Unicode.
Proof. vm_compute. reflexivity. Qed.
Lemma ex_rejected_points_mismatch :
  write_pose {| w_dims := (1, 1, 0)%Z;
                w_comps := [ {| wc_name := [65]; wc_format := [88; 67]; wc_points := [[97]]; wc_limbs := []; wc_colors := [] |} ];
                w_fps := 0; w_shape := [1; 1; 2; 1]; w_data := [0; 0]; w_cshape := [1; 1; 2]; w_conf := [0; 0] |} = Err Value.
Proof. vm_compute. reflexivity. Qed.
(* a memo holding another file's header is a consistent memo *)
Definition ex_empty_bytes : bytes := match write_pose ex_empty with Ok b => b | Err _ => [] end.
Definition ex_memo : option memo := snd (read_bytes no_legacy None ex_empty_bytes no_args).
Lemma ex_memo_ok : exists m, m <> None /\ MemoOK m.
Proof.
  exists ex_memo. split.
  - assert (exists c, ex_memo = Some c) as [c ->] by (vm_compute; eexists; reflexivity). discriminate.
  - unfold ex_memo. apply read_bytes_memo_ok. exact I.
Qed.
