(* C05 - the JavaScript reader src/js/pose_format/src/parser.ts, as it runs against binary-parser 2.2.1
   (the subset re-implemented in /verif/js/binary_parser_shim.js).  Definitions only.

   JavaScript values are [value]s; a binary-parser Parser is a [schema] (a chain of field readers), [run] is
   Parser.parse.  The header / info schemas below are the literals the generated file coq/gen/Gen_C05.v must be
   equal to (theorems C05_tie_header_schema / C05_tie_info_schema of props/C05.v; the function texts of parser.ts are the
   literals of proofs/C05_GenTie.v); everything else follows parser.ts statement by statement. *)
From Coq Require Import ZArith NArith List Bool String Ascii SpecFloat.
Require Import ListN Result Bytes Utf8 Utf8S F32 Codec.
Import ListNotations.
Open Scope N_scope.

(* ---------- JavaScript values ---------- *)
Definition key := list N.                          (* a property name: code points *)
Definition K (s : string) : key := map (fun a => N.of_nat (nat_of_ascii a)) (list_ascii_of_string s).
(* property names used below, as code-point lists (computed here so that Coq's [string] never reaches the extracted code) *)
Definition k_B : key := Eval vm_compute in K "B".
Definition k_C : key := Eval vm_compute in K "C".
Definition k_G : key := Eval vm_compute in K "G".
Definition k_R : key := Eval vm_compute in K "R".
Definition k__chars : key := Eval vm_compute in K "_chars".
Definition k__colors : key := Eval vm_compute in K "_colors".
Definition k__components : key := Eval vm_compute in K "_components".
Definition k__format : key := Eval vm_compute in K "_format".
Definition k__frames : key := Eval vm_compute in K "_frames".
Definition k__limbs : key := Eval vm_compute in K "_limbs".
Definition k__name : key := Eval vm_compute in K "_name".
Definition k__people : key := Eval vm_compute in K "_people".
Definition k__points : key := Eval vm_compute in K "_points".
Definition k_colors : key := Eval vm_compute in K "colors".
Definition k_components : key := Eval vm_compute in K "components".
Definition k_depth : key := Eval vm_compute in K "depth".
Definition k_format : key := Eval vm_compute in K "format".
Definition k_fps : key := Eval vm_compute in K "fps".
Definition k_frames : key := Eval vm_compute in K "frames".
Definition k_from : key := Eval vm_compute in K "from".
Definition k_headerLength : key := Eval vm_compute in K "headerLength".
Definition k_height : key := Eval vm_compute in K "height".
Definition k_id : key := Eval vm_compute in K "id".
Definition k_limbs : key := Eval vm_compute in K "limbs".
Definition k_name : key := Eval vm_compute in K "name".
Definition k_people : key := Eval vm_compute in K "people".
Definition k_points : key := Eval vm_compute in K "points".
Definition k_text : key := Eval vm_compute in K "text".
Definition k_to : key := Eval vm_compute in K "to".
Definition k_version : key := Eval vm_compute in K "version".
Definition k_width : key := Eval vm_compute in K "width".
Inductive value :=
| VNum (z : Z)                                     (* an integer-valued number (uint16/int16/uint32 field, offset) *)
| VF32 (w : N)                                     (* a number that is the widening of this float32 word *)
| VStr (s : list N)
| VArr (l : list value)
| VObj (o : list (key * value))                    (* own properties in insertion order *)
| VUndef.
Definition obj := list (key * value).
Fixpoint keq (a b : key) : bool :=
  match a, b with
  | [], [] => true
  | x :: a', y :: b' => (x =? y) && keq a' b'
  | _, _ => false
  end.
(* o[k] = v : an existing property keeps its place *)
Fixpoint obj_set (o : obj) (k : key) (v : value) : obj :=
  match o with
  | [] => [(k, v)]
  | (k', v') :: r => if keq k' k then (k', v) :: r else (k', v') :: obj_set r k v
  end.
Fixpoint obj_get (o : obj) (k : key) : option value :=
  match o with
  | [] => None
  | (k', v') :: r => if keq k' k then Some v' else obj_get r k
  end.
Definition get_num (o : obj) (k : key) : option Z := match obj_get o k with Some (VNum z) => Some z | _ => None end.

(* ---------- binary-parser ---------- *)
Inductive fkind := KU16 | KI16 | KU32 | KF32.      (* uint16 / int16 / uint32 / floatle *)
Inductive lenexp := LenVar (k : key) | LenConst (n : Z).   (* length: "name" of an earlier field | a number *)
Inductive fmt := FmtNone | FmtPluck (k : key).     (* formatter: none | arr => arr.map(item => item.k) *)
Inductive schema :=
| Done
| Fld (k : fkind) (name : key) (rest : schema)
| Str (name : key) (len : lenexp) (rest : schema)                       (* .string(name, {length}) , utf8 *)
| Arr (name : key) (elem : schema) (len : lenexp) (f : fmt) (rest : schema)   (* .array(name, {type, length, formatter}) *)
| Seek (n : N) (rest : schema)                                          (* .seek(n): relative *)
| SaveOffset (name : key) (rest : schema).
(* p.method(...) appends at the end of the chain p *)
Fixpoint sapp (a b : schema) : schema :=
  match a with
  | Done => b
  | Fld k n r => Fld k n (sapp r b)
  | Str n l r => Str n l (sapp r b)
  | Arr n e l f r => Arr n e l f (sapp r b)
  | Seek n r => Seek n (sapp r b)
  | SaveOffset n r => SaveOffset n (sapp r b)
  end.

Definition dec_i16_be (b : bytes) : Z := let u := Z.of_N (dec_u16_be b) in if (u <? 32768)%Z then u else (u - 65536)%Z.
(* DataView.getUint16/getInt16/getUint32/getFloat32(offset, little): RangeError when offset + size > byteLength *)
Definition rd_field (le : bool) (k : fkind) (buf : bytes) (off : N) : option (value * N) :=
  let sz := match k with KU16 | KI16 => 2 | KU32 | KF32 => 4 end in
  if off + sz <=? lenN buf then
    let b := dropN off buf in
    Some (match k with
          | KU16 => VNum (Z.of_N (if le then dec_u16 b else dec_u16_be b))
          | KI16 => VNum (if le then dec_i16 b else dec_i16_be b)
          | KU32 => VNum (Z.of_N (if le then dec_u32 b else dec_u32_be b))
          | KF32 => VF32 (dec_u32 b)                       (* floatle: always little-endian *)
          end, off + sz)
  else None.
Definition eval_len (vars : obj) (l : lenexp) : option N :=
  match l with
  | LenConst n => if (n <? 0)%Z then None else Some (Z.to_N n)
  | LenVar k => match get_num vars k with Some z => if (z <? 0)%Z then None else Some (Z.to_N z) | None => None end
  end.
(* new TextDecoder("utf8").decode(...): drops one leading U+FEFF.  (Invalid UTF-8 is replaced by U+FFFD in
   JavaScript; that is outside the files the property speaks about and [run] gives None there.) *)
Definition strip_bom (s : list N) : list N := match s with 65279 :: r => r | _ => s end.
Definition apply_fmt (f : fmt) (items : list obj) : value :=
  match f with
  | FmtNone => VArr (map VObj items)
  | FmtPluck k => VArr (map (fun it => match obj_get it k with Some v => v | None => VUndef end) items)
  end.
Fixpoint rep {A} (p : N -> option (A * N)) (n : nat) (off : N) : option (list A * N) :=
  match n with
  | O => Some ([], off)
  | S k => match p off with
           | None => None
           | Some (a, off1) => match rep p k off1 with None => None | Some (l, off2) => Some (a :: l, off2) end
           end
  end.
(* Parser.parse: variables object, buffer, offset *)
Fixpoint run (le : bool) (s : schema) (vars : obj) (buf : bytes) (off : N) {struct s} : option (obj * N) :=
  match s with
  | Done => Some (vars, off)
  | Fld k name rest =>
      match rd_field le k buf off with
      | None => None
      | Some (v, off') => run le rest (obj_set vars name v) buf off'
      end
  | Str name len rest =>
      match eval_len vars len with
      | None => None
      | Some n =>
          match dec_utf8 (takeN n (dropN off buf)) with          (* buffer.subarray(offset, offset + n): clipped *)
          | None => None
          | Some s => run le rest (obj_set vars name (VStr (strip_bom s))) buf (off + n)
          end
      end
  | Arr name elem len f rest =>
      match eval_len vars len with
      | None => None
      | Some n =>
          match rep (fun o => run le elem [] buf o) (N.to_nat n) off with
          | None => None
          | Some (items, off') => run le rest (obj_set vars name (apply_fmt f items)) buf off'
          end
      end
  | Seek n rest => run le rest vars buf (off + n)
  | SaveOffset name rest => run le rest (obj_set vars name (VNum (Z.of_N off))) buf off
  end.
Definition js_little : bool := true.               (* parser.ts:5-7 newParser(): endianess("little") *)
Definition parse (s : schema) (buf : bytes) : option obj :=
  match run js_little s [] buf 0 with Some (o, _) => Some o | None => None end.

(* ---------- parser.ts:9-61 the header parser ---------- *)
Definition limb_schema : schema := Fld KU16 k_from (Fld KU16 k_to Done).
Definition color_schema : schema := Fld KU16 k_R (Fld KU16 k_G (Fld KU16 k_B Done)).
Definition str_schema : schema := Fld KU16 k__chars (Str k_text (LenVar k__chars) Done).
Definition component_schema : schema :=
  Fld KU16 k__name (Str k_name (LenVar k__name)
  (Fld KU16 k__format (Str k_format (LenVar k__format)
  (Fld KU16 k__points (Fld KU16 k__limbs (Fld KU16 k__colors
  (Arr k_points str_schema (LenVar k__points) (FmtPluck k_text)
  (Arr k_limbs limb_schema (LenVar k__limbs) FmtNone
  (Arr k_colors color_schema (LenVar k__colors) FmtNone Done))))))))).
Definition header_schema : schema :=
  Fld KF32 k_version (Fld KU16 k_width (Fld KU16 k_height (Fld KU16 k_depth
  (Fld KU16 k__components
  (Arr k_components component_schema (LenVar k__components) FmtNone
  (SaveOffset k_headerLength Done)))))).

(* what the body parsers take from the parsed header *)
Record jcomp := { jc_name : key; jc_format : list N; jc_npoints : Z (* _points *); jc_plen : Z (* points.length *) }.
Definition arr_len (v : value) : option Z := match v with VArr l => Some (Z.of_nat (List.length l)) | _ => None end.
Definition jcomp_of (v : value) : option jcomp :=
  match v with
  | VObj o =>
      match obj_get o k_name, obj_get o k_format, get_num o k__points, obj_get o k_points with
      | Some (VStr n), Some (VStr f), Some np, Some pts =>
          match arr_len pts with Some pl => Some {| jc_name := n; jc_format := f; jc_npoints := np; jc_plen := pl |} | None => None end
      | _, _, _, _ => None
      end
  | _ => None
  end.
Fixpoint all_some {A} (l : list (option A)) : option (list A) :=
  match l with
  | [] => Some []
  | Some a :: r => match all_some r with Some l' => Some (a :: l') | None => None end
  | None :: _ => None
  end.
Definition header_comps (h : obj) : option (list jcomp) :=
  match obj_get h k_components with Some (VArr l) => all_some (map jcomp_of l) | _ => None end.

(* ---------- parser.ts:64-98 version 0.0 body ---------- *)
(* pointParser: newParser() then .floatle(c) for every c of Array.from(component.format) (code points) *)
Definition point_schema (format : list N) : schema := fold_right (fun c r => Fld KF32 [c] r) Done format.
(* personParser: .int16("id") then, per component, .array(component.name, {type: pointParser, length: component._points}) *)
Definition person_schema (comps : list jcomp) : schema :=
  Fld KI16 k_id
      (fold_right (fun c r => Arr (jc_name c) (point_schema (jc_format c)) (LenConst (jc_npoints c)) FmtNone r) Done comps).
Definition frame_schema (comps : list jcomp) : schema :=
  Fld KU16 k__people (Arr k_people (person_schema comps) (LenVar k__people) FmtNone Done).
Definition body_v00_schema (hl : N) (comps : list jcomp) : schema :=
  Seek hl (Fld KU16 k_fps (Fld KU16 k__frames
  (Arr k_frames (frame_schema comps) (LenVar k__frames) FmtNone Done))).

(* ---------- parser.ts:100-182 version 0.1 / 0.2 body ---------- *)
Definition info_v01_schema (hl : N) : schema :=
  Seek hl (Fld KU16 k_fps (Fld KU16 k__frames (Fld KU16 k__people Done))).
Definition info_v02_schema (hl : N) : schema :=
  Seek hl (Fld KF32 k_fps (Fld KU32 k__frames (Fld KU16 k__people Done))).
Definition info_size_v01 : Z := 6.
Definition info_size_v02 : Z := 10.
(* "abc".length counts UTF-16 code units *)
Definition utf16_len (s : list N) : Z := fold_right (fun (c : N) (a : Z) => ((if (c <? 65536)%N then 1 else 2) + a)%Z) 0%Z s.
(* _points = sum of c.points.length ; _dims = Math.max(...format lengths) - 1 (no component: -Infinity, [None]) *)
Definition js_points (comps : list jcomp) : Z := fold_right Z.add 0%Z (map jc_plen comps).
Definition js_dims (comps : list jcomp) : option Z :=
  match comps with
  | [] => None
  | c :: r => Some (fold_right Z.max (utf16_len (jc_format c)) (map (fun c => utf16_len (jc_format c)) r) - 1)%Z
  end.
(* the index expressions of parser.ts:138-156 *)
Definition js_data_len (frames people points dims : Z) : Z := (frames * people * points * dims)%Z.
Definition js_conf_len (frames people points : Z) : Z := (frames * people * points)%Z.
Definition js_data_start (header_length info_size : Z) : Z := (header_length + info_size)%Z.
Definition js_offset (i people points j : Z) : Z := (i * (people * points) + j * points)%Z.
Definition js_place (offset k l : Z) : Z := (offset + k + l)%Z.
Definition js_data_index (place dims dim_index : Z) : Z := (place * dims + dim_index)%Z.

(* parseFloat32Array(length, offset): new Float32Array(length) (RangeError for a negative length), then
   [length] reads dataView.getFloat32(currentOffset, true); returns the array and the end offset *)
Definition read_f32_array (buf : bytes) (length offset : Z) : option (list N * Z) :=
  if (length <? 0)%Z then None
  else if (length =? 0)%Z then Some ([], offset)
  else if (offset <? 0)%Z then None
  else if (offset + 4 * length <=? Z.of_N (lenN buf))%Z
       then Some (words32 (Z.to_nat length) (dropN (Z.to_N offset) buf), (offset + 4 * length)%Z)
       else None.
(* typedArray[index]: undefined outside 0 .. length-1 *)
Definition f32_at (a : list N) (idx : Z) : value :=
  if (idx <? 0)%Z then VUndef
  else match nth_error a (Z.to_nat idx) with Some w => VF32 w | None => VUndef end.
Fixpoint zrange (start : Z) (n : nat) : list Z := match n with O => [] | S k => start :: zrange (start + 1) k end.
Fixpoint enumerate {A} (i : Z) (l : list A) : list (A * Z) :=
  match l with [] => [] | x :: r => (x, i) :: enumerate (i + 1) r end.
(* frameRepresentation's coordinate counter (parser.ts, after fix F5): `let dimIndex = 0` before the loop over the format
   letters, `dimIndex++` inside the `dim !== "C"` branch only - the k-th coordinate letter reads the k-th coordinate *)
Fixpoint enum_coords (i : Z) (l : list N) : list (N * Z) :=
  match l with [] => [] | x :: r => (x, i) :: enum_coords (if (x =? 67)%N then i else (i + 1)%Z) r end.

Record jbody := { jb_info : obj; jb_frames : Z; jb_people : Z; jb_points : Z; jb_dims : Z;
                  jb_data : list N; jb_conf : list N }.
(* frameRepresentation(i).people[j][component.name][l] *)
Definition js_point (b : jbody) (format : list N) (i j k l : Z) : value :=
  let offset := js_offset i (jb_people b) (jb_points b) j in
  let place := js_place offset k l in
  VObj (fold_left (fun pt (dd : N * Z) =>
                     let '(dim, dim_index) := dd in
                     if dim =? 67 then pt                                   (* dim !== "C" *)
                     else obj_set pt [dim] (f32_at (jb_data b) (js_data_index place (jb_dims b) dim_index)))
                  (enum_coords 0 format)
                  [(k_C, f32_at (jb_conf b) place)]).
Definition js_person (comps : list jcomp) (b : jbody) (i j : Z) : value :=
  VObj (fst (fold_left (fun (acc : obj * Z) c =>
                          let '(person, k) := acc in
                          (obj_set person (jc_name c)
                                   (VArr (map (fun l => js_point b (jc_format c) i j k l) (zrange 0 (Z.to_nat (jc_plen c))))),
                           (k + jc_plen c)%Z))
                       comps ([], 0%Z))).
Definition js_frame_rep (comps : list jcomp) (b : jbody) (i : Z) : value :=
  VObj [(k_people, VArr (map (fun j => js_person comps b i j) (zrange 0 (Z.to_nat (jb_people b)))))].

Definition parse_body_v01 (h : obj) (comps : list jcomp) (buf : bytes) (v02 : bool) : option jbody :=
  match get_num h k_headerLength, js_dims comps with
  | Some hl, Some dims =>
      let points := js_points comps in
      let sch := if v02 then info_v02_schema (Z.to_N hl) else info_v01_schema (Z.to_N hl) in
      let info_size := if v02 then info_size_v02 else info_size_v01 in
      match parse sch buf with
      | None => None
      | Some info =>
          match get_num info k__frames, get_num info k__people with
          | Some frames, Some people =>
              match read_f32_array buf (js_data_len frames people points dims) (js_data_start hl info_size) with
              | None => None
              | Some (data, doff) =>
                  match read_f32_array buf (js_conf_len frames people points) doff with
                  | None => None
                  | Some (conf, _) =>
                      Some {| jb_info := info; jb_frames := frames; jb_people := people; jb_points := points; jb_dims := dims;
                              jb_data := data; jb_conf := conf |}
                  end
              end
          | _, _ => None
          end
      end
  | _, _ => None
  end.

(* ---------- parser.ts:184-206 parsePose ---------- *)
(* Math.round(x): floor(x + 1/2), exact *)
Definition sf_round_half_up (x : spec_float) : option Z :=
  match x with
  | S754_zero _ => Some 0%Z
  | S754_finite s m e =>
      let v := if s then Z.neg m else Z.pos m in
      Some (match e with
            | Z0 => v
            | Zpos p => (v * Z.pow_pos 2 p)%Z
            | Zneg p => ((2 * v + Z.pow_pos 2 p) / (2 * Z.pow_pos 2 p))%Z
            end)
  | _ => None
  end.
Definition sf_is (x : spec_float) (word64 : N) : bool :=
  match SFcompare x (sf_of_b64 word64) with Some Eq => true | _ => false end.
(* const version = Math.round(header.version * 1000) / 1000; switch (version) { case 0: case 0.1: case 0.2: default } *)
Definition js_version_class (w : N) : vclass :=
  let x := sf64_mul (sf_of_b64 (f32_to_f64 w)) (sf64_of_Z 1000) in
  match sf_round_half_up x with
  | None => VUnknown
  | Some r =>
      let v := sf64_div (sf64_of_Z r) (sf64_of_Z 1000) in
      if sf_is v 0 then V00
      else if sf_is v 4591870180066957722 then V01          (* 0.1 = 0x3FB999999999999A *)
      else if sf_is v 4596373779694328218 then V02          (* 0.2 = 0x3FC999999999999A *)
      else VUnknown
  end.

Record jpose := { jp_header : obj; jp_info : obj; jp_nframes : Z; jp_frame : Z -> value }.
Definition without (o : obj) (k : key) : obj := filter (fun kv => negb (keq (fst kv) k)) o.
Definition parse_pose (buf : bytes) : option jpose :=
  match parse header_schema buf with
  | None => None
  | Some h =>
      match obj_get h k_version, header_comps h, get_num h k_headerLength with
      | Some (VF32 w), Some comps, Some hl =>
          match js_version_class w with
          | V00 =>
              match parse (body_v00_schema (Z.to_N hl) comps) buf with
              | None => None
              | Some body =>
                  match obj_get body k_frames with
                  | Some (VArr frames) =>
                      Some {| jp_header := h; jp_info := without body k_frames;
                              jp_nframes := Z.of_nat (List.length frames);
                              jp_frame := fun i => if (i <? 0)%Z then VUndef else nth (Z.to_nat i) frames VUndef |}
                  | _ => None
                  end
              end
          | VUnknown => None
          | v =>
              match parse_body_v01 h comps buf (match v with V02 => true | _ => false end) with
              | None => None
              | Some b => Some {| jp_header := h; jp_info := jb_info b; jp_nframes := jb_frames b;
                                  jp_frame := js_frame_rep comps b |}
              end
          end
      | _, _, _ => None
      end
  end.
