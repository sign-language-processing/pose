(* C14 - whole bodies (every person, every point) over exact reals: the vocabulary of the clauses in props/C14.v, and what
   they all start from - a row of the result is the row of its track's result. *)
From Coq Require Import Reals List Arith Bool Lia Lra Sorted PrimFloat.
Require Import Num RealFacts Result C14_Count C14_Interp C14_Index C14_Grid C14_Lerp C14_Eval C14_Obs C14_Track C14_Body.
Import ListNotations.
Local Open Scope R_scope.

Definition spline_ok (sp : spline_t) : Prop := spline_shape sp /\ spline_nodes sp /\ spline_poly sp.
Definition interpolated (sp : spline_t) (b : bodyR) (new_fps : option float) (k : kind) (o : outR) (n : nat) : Prop :=
  wf_body b /\ interpolate R_ops sp b new_fps k = Ok o /\
  new_frame_count (frames_of b) (target b new_fps) (b_fps R_ops b) = Ok n.
Definition in_body (b : bodyR) (p t : nat) : Prop := (p < b_people R_ops b)%nat /\ (t < b_points R_ops b)%nat.
Definition seen (b : bodyR) (i p t : nat) : Prop := (i < frames_of b)%nat /\ observedR (in_row b i p t) = true.
Definition width (b : bodyR) : nat := S (b_dims R_ops b).

Section Main.
Variable sp : spline_t.
Hypothesis Hsp : spline_ok sp.
Variables (b : bodyR) (new_fps : option float) (k : kind) (o : outR) (n : nat).
Hypothesis Hi : interpolated sp b new_fps k o n.
Variables (p t : nat).
Hypothesis Hpt : in_body b p t.
Local Notation F := (frames_of b).
Local Notation rows := (track R_ops b p t).

Lemma rows_wf : wf_rows (width b) F rows.
Proof. destruct Hi as [Hwf _]. destruct Hpt. apply track_wf; assumption. Qed.
Lemma row_eq j : (j < n)%nat -> out_row o j p t = nth j (track_out sp k (width b) F n rows) [] /\
                               out_mask o j p t = Reqb (out_conf o j p t) 0.
Proof. intros Hj. destruct Hsp as [Hs _]. destruct Hi as [Hwf [Ho Hn]]. destruct Hpt.
  apply (interpolate_row sp Hs b new_fps k Hwf o n j p t); assumption. Qed.
Lemma conf_of_out_row j : confR (out_row o j p t) = out_conf o j p t.
Proof. unfold confR, conf_of, out_row. apply last_last. Qed.

Theorem node_body j i : (j < n)%nat -> seen b i p t -> t_new n j = t_old F i ->
  out_row o j p t = in_row b i p t /\ out_mask o j p t = false.
Proof. intros Hj [Hi' Ho] Et. destruct (row_eq j Hj) as [Er Em]. destruct Hsp as [_ [Hn _]].
  assert (E : out_row o j p t = in_row b i p t).
  { rewrite Er. apply (track_node sp Hn k (width b) F n rows rows_wf j i Hj Hi' Ho Et). }
  split; [exact E|]. rewrite Em, <- conf_of_out_row, E. apply Reqb_false. apply observedR_iff. exact Ho. Qed.

Theorem ends_times : (2 <= F)%nat -> (2 <= n)%nat ->
  t_new n 0 = t_old F 0 /\ t_new n (n - 1) = t_old F (F - 1) /\ t_new n 0 = 0 /\ t_new n (n - 1) = 1.
Proof. apply t_ends. Qed.
End Main.
