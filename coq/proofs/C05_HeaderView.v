(* C05: reading the header fields off the JavaScript object gives the Python header record. *)
From Coq Require Import ZArith NArith List Lia ZifyBool ZifyN ZifyNat Bool.
Require Import ListN Result Bytes Utf8 Utf8S F32 Prog Codec ProgLemmas CodecRT C05_JsParser C05_View C05_Lemmas C05_Header.
Import ListNotations.
Open Scope N_scope.

(* evaluates obj_get / get_num at a literal key (the k_... constants of C05_JsParser) on an object whose keys are literals,
   leaving the values untouched *)
Ltac kred :=
  cbv beta iota delta [obj_get get_num keq andb N.eqb Pos.eqb
    k_B k_C k_G k_R k__chars k__colors k__components k__format k__frames k__limbs k__name k__people k__points
    k_colors k_components k_depth k_format k_fps k_frames k_from k_headerLength k_height k_id k_limbs k_name
    k_people k_points k_text k_to k_version k_width].

Lemma vnum_of_N n : vnum (Some (VNum (Z.of_N n))) = Some n.
Proof. unfold vnum. destruct (Z.ltb_spec (Z.of_N n) 0); [lia|]. f_equal. lia. Qed.
Lemma strip_no_bom s : no_bom s -> strip_bom s = s.
Proof.
  destruct s as [|[|p] r]; try reflexivity. cbn [no_bom strip_bom].
  (* both are the same match on the bits of p, one branch of which is 65279 *)
  do 16 (destruct p as [p|p|]; try reflexivity). intros [].
Qed.
Lemma all_some_map {A B C} (f : A -> option B) (g : C -> A) (k : C -> B) l :
  (forall c, In c l -> f (g c) = Some (k c)) -> all_some (map f (map g l)) = Some (map k l).
Proof. induction l as [|c l IH]; intros H; [reflexivity|]. cbn [map all_some].
  rewrite H by (left; reflexivity). rewrite IH; [reflexivity|]. intros c' Hc'. apply H. now right. Qed.

Lemma limb_view_obj l : limb_view (VObj (js_limb_obj l)) = Some l.
Proof. destruct l as [a b]. unfold limb_view, js_limb_obj. kred. cbn [fst snd]. now rewrite !vnum_of_N. Qed.
Lemma color_view_obj c : color_view (VObj (js_color_obj c)) = Some c.
Proof. destruct c as [[r g] b]. unfold color_view, js_color_obj. kred. cbn [fst snd]. now rewrite !vnum_of_N. Qed.
Lemma comp_view_obj c : comp_no_bom c -> comp_view (VObj (js_comp_obj c)) = Some c.
Proof.
  intros [Hn [Hf Hp]]. unfold comp_view, js_comp_obj. kred. unfold js_strv at 1 2, vstr, varr.
  rewrite (strip_no_bom _ Hn), (strip_no_bom _ Hf).
  rewrite (all_some_map str_view js_strv id).
  2:{ intros s Hs. unfold str_view, vstr, js_strv. rewrite strip_no_bom; [reflexivity|]. rewrite Forall_forall in Hp. now apply Hp. }
  rewrite (all_some_map limb_view _ id) by (intros; apply limb_view_obj).
  rewrite (all_some_map color_view _ id) by (intros; apply color_view_obj).
  rewrite !map_id. destruct c; reflexivity.
Qed.
Lemma header_view_obj h hl : Forall comp_no_bom (h_comps h) -> header_view (js_header_obj h hl) = Some (h, hl).
Proof.
  intros Hc. unfold header_view, js_header_obj. destruct h as [v [[w hh] d] comps]. cbn [h_dims h_version h_comps] in *. kred.
  rewrite !vnum_of_N. unfold varr.
  rewrite (all_some_map comp_view _ id), map_id; [reflexivity|].
  intros c Hin. apply comp_view_obj. rewrite Forall_forall in Hc. now apply Hc.
Qed.
(* the fields parsePose itself reads off the header object *)
Lemma header_obj_version h hl : obj_get (js_header_obj h hl) k_version = Some (VF32 (h_version h)).
Proof. unfold js_header_obj. destruct (h_dims h) as [[w hh] d]. reflexivity. Qed.
Lemma header_obj_length h hl : get_num (js_header_obj h hl) k_headerLength = Some (Z.of_N hl).
Proof. unfold js_header_obj. destruct (h_dims h) as [[w hh] d]. reflexivity. Qed.

(* [canon_comp] does not change strings *)
Definition wcomp_no_bom (c : wcomponent) : Prop := no_bom (wc_name c) /\ no_bom (wc_format c) /\ Forall no_bom (wc_points c).
Lemma canon_no_bom comps : Forall wcomp_no_bom comps -> Forall comp_no_bom (map canon_comp comps).
Proof. induction 1 as [|c l Hc _ IH]; cbn [map]; constructor; [exact Hc|exact IH]. Qed.

(* The JavaScript header parser and the Python header reader, on the same bytes (anything may follow the header):
   same version word, dimensions, components (name, format, point names, limbs, colours), and headerLength is
   the offset at which the Python reader stops. *)
Theorem js_header_eq dims comps h r : write_header dims comps = Ok h -> Forall wcomp_no_bom comps ->
  exists hd,
    run_plain rd_header {| pbuf := h ++ r; poff := 0 |} = Ok (hd, {| pbuf := h ++ r; poff := lenN h |}) /\
    exists o, parse header_schema (h ++ r) = Some o /\ header_view o = Some (hd, lenN h).
Proof.
  intros H Hb. exists (header_of dims comps). split.
  - pose proof (rd_header_rt _ _ _ H [] r) as HR. cbn [app] in HR. exact HR.
  - eexists. split; [exact (js_header_obj_eq _ _ _ r H)|].
    apply header_view_obj. unfold header_of. cbn [h_comps]. now apply canon_no_bom.
Qed.
