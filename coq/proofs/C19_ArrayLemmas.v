(* C19 - lemmas about the nested-list arrays: [upd] against [nth_error], rectangularity, stores through several list levels. *)
From Coq Require Import List Arith NArith Bool Lia.
Require Import ListFacts Result F32 C19_Layout C19_FrameId C19_OpenPose C19_Spec.
Import ListNotations.
Local Open Scope nat_scope.

Section Upd.
Context {A : Type}.
Lemma upd_inv (i : nat) (g : A -> option A) (l l' : list A) :
  upd i g l = Some l' ->
  exists x y, nth_error l i = Some x /\ g x = Some y /\ length l' = length l /\
              (forall j, nth_error l' j = if Nat.eqb j i then Some y else nth_error l j).
Proof.
  revert i l'. induction l as [|a r IH]; intros i l' H; [destruct i; discriminate|].
  destruct i as [|i]; cbn [upd] in H.
  - destruct (g a) as [y|] eqn:Hg; [|discriminate]. injection H as <-.
    exists a, y. repeat split; try reflexivity; try assumption. intros [|j]; reflexivity.
  - destruct (upd i g r) as [r'|] eqn:Hu; [|discriminate]. injection H as <-.
    destruct (IH _ _ Hu) as (x & y & Hx & Hg & Hl & Hj).
    exists x, y. repeat split; try assumption.
    + cbn [length]. now rewrite Hl.
    + intros [|j]; [reflexivity|]. cbn [nth_error]. rewrite Hj. reflexivity.
Qed.
Lemma upd_ok (i : nat) (g : A -> option A) (l : list A) x y :
  nth_error l i = Some x -> g x = Some y -> exists l', upd i g l = Some l'.
Proof.
  revert i. induction l as [|a r IH]; intros i Hx Hg; [destruct i; discriminate|].
  destruct i as [|i]; cbn [upd nth_error] in *.
  - injection Hx as ->. rewrite Hg. eauto.
  - destruct (IH _ Hx Hg) as [r' Hr]. rewrite Hr. eauto.
Qed.
Lemma upd_Forall (Q : A -> Prop) i g (l l' : list A) :
  upd i g l = Some l' -> Forall Q l -> (forall x y, Q x -> g x = Some y -> Q y) -> Forall Q l'.
Proof.
  revert i l'. induction l as [|a r IH]; intros i l' H HF Hg; [destruct i; discriminate|].
  inversion HF as [|a' r' Ha Hr]; subst.
  destruct i as [|i]; cbn [upd] in H.
  - destruct (g a) as [y|] eqn:E; [|discriminate]. injection H as <-. constructor; eauto.
  - destruct (upd i g r) as [r2|] eqn:E; [|discriminate]. injection H as <-. constructor; eauto.
Qed.
End Upd.

Lemma nth_error_repeat {A} (x : A) n i : nth_error (repeat x n) i = if i <? n then Some x else None.
Proof.
  revert i; induction n as [|n IH]; intros i; cbn [repeat]; [destruct i; reflexivity|].
  destruct i as [|i]; [reflexivity|]. cbn [nth_error]. rewrite IH.
  destruct (Nat.ltb_spec i n), (Nat.ltb_spec (S i) (S n)); try reflexivity; lia.
Qed.
Lemma nth_error_lt_some {A} (l : list A) i : i < length l -> exists x, nth_error l i = Some x.
Proof. intros H. destruct (nth_error l i) eqn:E; [eauto|]. apply nth_error_None in E. lia. Qed.

Ltac nth_some l i x Hx :=
  let H := fresh in assert (H : i < length l) by lia; destruct (nth_error_lt_some l i H) as [x Hx]; clear H.

(* [g] succeeds on every element satisfying [Q], keeps [Q], and changes the reads [get _ idx] exactly at the
   indices [hit], to [v]; one more list level around such a [g] is again of this form *)
Definition stores {A I V} (Q : A -> Prop) (get : A -> I -> option V) (hit : I -> bool) (v : V) (g : A -> option A) : Prop :=
  forall x, Q x -> exists y, g x = Some y /\ Q y /\ forall idx, get y idx = if hit idx then Some v else get x idx.

Lemma stores_leaf {V} n i (v : V) : i < n ->
  stores (fun l => length l = n) (@nth_error V) (fun j => Nat.eqb j i) v (upd i (put v)).
Proof.
  intros Hi l Hl. nth_some l i x Hx. destruct (upd_ok i (put v) l x v Hx eq_refl) as [l' E].
  destruct (upd_inv _ _ _ _ E) as (_ & y & _ & [= <-] & Ll & G). exists l'. split; [exact E|]. split; [lia|exact G].
Qed.
Lemma stores_upd {A I V} (Q : A -> Prop) (get : A -> I -> option V) hit v g n i : i < n -> stores Q get hit v g ->
  stores (fun l => length l = n /\ Forall Q l)
         (fun l ji => match nth_error l (fst ji) with Some x => get x (snd ji) | None => None end)
         (fun ji => Nat.eqb (fst ji) i && hit (snd ji)) v (upd i g).
Proof.
  intros Hi Hg l [Hl HQ]. nth_some l i x Hx. destruct (Hg x (Forall_nth_error _ _ _ _ HQ Hx)) as (y & Ey & _ & Hy).
  destruct (upd_ok i g l x y Hx Ey) as [l' E]. exists l'. split; [exact E|].
  destruct (upd_inv _ _ _ _ E) as (x0 & y0 & Ex0 & Ey0 & Ll & G). rewrite Hx in Ex0. injection Ex0 as <-.
  rewrite Ey in Ey0. injection Ey0 as <-. split; [split; [lia|]|].
  - eapply upd_Forall; [exact E|exact HQ|]. intros u u' Hu Eu. destruct (Hg u Hu) as (u2 & Eu2 & Hu2 & _). congruence.
  - intros [j idx]. cbn [fst snd]. rewrite G. destruct (Nat.eqb_spec j i) as [->|_]; cbn [andb]; [rewrite Hx; apply Hy|reflexivity].
Qed.

Definition cell (a : arrays) (f p k : nat) : option triple :=
  match get4 (a_data a) f p k 0, get4 (a_data a) f p k 1, get3 (a_conf a) f p k with
  | Some x, Some y, Some c => Some (x, y, c)
  | _, _, _ => None
  end.
Definition shaped (F P K : nat) (a : arrays) : Prop := rect4 F P K 2 (a_data a) /\ rect3 F P K (a_conf a).
Definition hit (f p k f' p' k' : nat) : bool := Nat.eqb f' f && (Nat.eqb p' p && Nat.eqb k' k).

Lemma store3_spec {A} F P K f p k (v : A) a :
  rect3 F P K a -> f < F -> p < P -> k < K ->
  exists a', store3 f p k v a = Some a' /\ rect3 F P K a' /\
             forall f' p' k', get3 a' f' p' k' = if hit f p k f' p' k' then Some v else get3 a f' p' k'.
Proof.
  intros Ha Hf Hp Hk.
  destruct (stores_upd _ _ _ _ _ F f Hf (stores_upd _ _ _ _ _ P p Hp (stores_leaf K k v Hk)) a Ha) as (a' & E & Ha' & G).
  exists a'. split; [exact E|]. split; [exact Ha'|]. intros f' p' k'. exact (G (f', (p', k'))).
Qed.
Lemma get4_nested {A} (a : list (list (list (list A)))) f p k d :
  get4 a f p k d =
  match nth_error a f with
  | Some x => match nth_error x p with
              | Some y => match nth_error y k with Some z => nth_error z d | None => None end
              | None => None
              end
  | None => None
  end.
Proof. unfold get4, get3. destruct (nth_error a f) as [x|]; [destruct (nth_error x p)|]; reflexivity. Qed.
Lemma store4_spec {A} F P K D f p k d (v : A) a :
  rect4 F P K D a -> f < F -> p < P -> k < K -> d < D ->
  exists a', store4 f p k d v a = Some a' /\ rect4 F P K D a' /\
             forall f' p' k' d', get4 a' f' p' k' d' =
               if Nat.eqb f' f && (Nat.eqb p' p && (Nat.eqb k' k && Nat.eqb d' d)) then Some v else get4 a f' p' k' d'.
Proof.
  intros Ha Hf Hp Hk Hd.
  destruct (stores_upd _ _ _ _ _ F f Hf (stores_upd _ _ _ _ _ P p Hp (stores_upd _ _ _ _ _ K k Hk (stores_leaf D d v Hd))) a Ha)
    as (a' & E & Ha' & G).
  exists a'. split; [exact E|]. split; [exact Ha'|]. intros f' p' k' d'. rewrite !get4_nested. exact (G (f', (p', (k', d')))).
Qed.

(* the arrays of openpose.py:263-264 *)
Definition zeros (F P K : nat) : arrays := mkA (repeat (repeat (repeat [0%N; 0%N] K) P) F) (repeat (repeat (repeat 0%N K) P) F).
Lemma zeros_shaped F P K : shaped F P K (zeros F P K).
Proof.
  split; cbn [zeros a_data a_conf]; (split; [apply repeat_length|]); apply Forall_repeat; (split; [apply repeat_length|]);
    apply Forall_repeat; [split; [apply repeat_length|]; apply Forall_repeat; reflexivity | apply repeat_length].
Qed.
Lemma zeros_cell F P K f p k :
  cell (zeros F P K) f p k = if (f <? F) && (p <? P) && (k <? K) then Some (0%N, 0%N, 0%N) else None.
Proof.
  unfold cell, get4, get3; cbn [zeros a_data a_conf]. rewrite !nth_error_repeat.
  destruct (f <? F); cbn [andb]; [|reflexivity]. rewrite !nth_error_repeat.
  destruct (p <? P); cbn [andb]; [|reflexivity]. rewrite !nth_error_repeat.
  destruct (k <? K); reflexivity.
Qed.
Lemma cell_some_iff F P K a f p k : shaped F P K a -> (cell a f p k <> None <-> f < F /\ p < P /\ k < K).
Proof.
  intros [[HF HR] [HF' HR']]. unfold cell, get4, get3. split.
  - intros H. destruct (nth_error (a_data a) f) as [x|] eqn:Ex; [|congruence].
    destruct (Forall_nth_error _ _ _ _ HR Ex) as [HxP HxR].
    destruct (nth_error x p) as [y|] eqn:Ey; [|congruence].
    destruct (Forall_nth_error _ _ _ _ HxR Ey) as [HyK HyR].
    destruct (nth_error y k) as [z|] eqn:Ez; [|congruence].
    pose proof (proj1 (nth_error_Some _ _) ltac:(rewrite Ex; discriminate) : f < length (a_data a)).
    pose proof (proj1 (nth_error_Some _ _) ltac:(rewrite Ey; discriminate) : p < length x).
    pose proof (proj1 (nth_error_Some _ _) ltac:(rewrite Ez; discriminate) : k < length y). lia.
  - intros (Hf & Hp & Hk).
    destruct (nth_error_lt_some (a_data a) f ltac:(lia)) as [x Hx]. rewrite Hx.
    destruct (Forall_nth_error _ _ _ _ HR Hx) as [HxP HxR].
    nth_some x p y Hy. rewrite Hy.
    destruct (Forall_nth_error _ _ _ _ HxR Hy) as [HyK HyR].
    nth_some y k z Hz. rewrite Hz.
    pose proof (Forall_nth_error _ _ _ _ HyR Hz) as HzD; cbv beta in HzD.
    destruct z as [|z0 [|z1 [|]]]; cbn in HzD; try lia. cbn [nth_error].
    destruct (nth_error_lt_some (a_conf a) f ltac:(lia)) as [x' Hx']. rewrite Hx'.
    destruct (Forall_nth_error _ _ _ _ HR' Hx') as [HxP' HxR'].
    nth_some x' p y' Hy'. rewrite Hy'.
    pose proof (Forall_nth_error _ _ _ _ HxR' Hy') as HyK'; cbv beta in HyK'.
    nth_some y' k z' Hz'. rewrite Hz'. discriminate.
Qed.
