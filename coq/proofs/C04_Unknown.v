(* A file whose header declares a version other than 0, 0.1 or 0.2 (at the format's three-decimal granularity)
   is refused with NotImplementedError - from bytes and from a stream, under every memo state and whatever legacy
   decoders are plugged in. *)
From Coq Require Import ZArith NArith List Bool.
Require Import ListN Result Bytes Prog Codec ProgLemmas PoseRead PoseReadLemmas StreamLemmas StreamRead
  C03_Window C04_Legacy C04_Stream C04_Handoff.
Import ListNotations.
Open Scope N_scope.

Section WithLegacy.
Variable legacy : vclass -> header -> rargs -> prog body.

Lemma read_body_unknown h a : version_class (h_version h) = VUnknown -> read_body legacy h a = Fail NotImplemented.
Proof. intros H. unfold read_body, read_body_with. now rewrite H. Qed.

Theorem unknown_version m q a h o : MemoOK m ->
  run_plain rd_header {| pbuf := q; poff := 0 |} = Ok (h, {| pbuf := q; poff := o |}) ->
  version_class (h_version h) = VUnknown ->
  fst (read_bytes legacy m q a) = Err NotImplemented /\ fst (fst (read_stream4 legacy m q a)) = Err NotImplemented.
Proof.
  intros Hm Hh Hv.
  apply (read_ends legacy m q a h o (Err NotImplemented) Hm Hh); rewrite (read_body_unknown h a Hv); [left; exact I|reflexivity].
Qed.
(* the same for the stream reader of base/Prog.v (the one the v0.2 checks run) *)
Theorem unknown_version_stream_base m q a h o : MemoOK m ->
  run_plain rd_header {| pbuf := q; poff := 0 |} = Ok (h, {| pbuf := q; poff := o |}) ->
  version_class (h_version h) = VUnknown ->
  exists e, fst (fst (read_stream legacy m q a)) = Err e.
Proof.
  intros Hm Hh Hv. exists NotImplemented. destruct (any_arg a) eqn:Ha.
  - destruct (stream_handoff legacy m q a h o Hm Ha Hh) as [sr [_ [_ [_ [_ ->]]]]].
    now rewrite (read_body_unknown h a Hv).
  - rewrite (C03_Window.read_stream_noargs legacy m q a Ha). exact (proj1 (unknown_version m q a h o Hm Hh Hv)).
Qed.
End WithLegacy.
