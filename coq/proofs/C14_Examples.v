(* C14 - non-vacuity: one concrete body on which the hypotheses of every theorem hold.
   8 frames at 10 fps, one person, two points, one coordinate x = 2 * frame + 1 (affine in time);
   point 0 is observed at frames 0 1 3 4 6, point 1 at frames 2 and 7.  Target rates: 15 fps (12 frames) and 10 fps. *)
From Coq Require Import Reals List Arith Bool Lia Lra Sorted PrimFloat ZArith.
Require Import Num Result C14_Count C14_Interp C14_Index C14_Grid C14_Lerp C14_Eval C14_Obs C14_Track C14_Body C14_CountP
               C14_Main C14_Witness.
Import ListNotations.
Local Open Scope R_scope.
Set Warnings "-inexact-float".

Definition ex_conf0 : list R := [1; 1; 0; 1; 1; 0; 1; 0].
Definition ex_conf1 : list R := [0; 0; 1; 0; 0; 0; 0; 1].
Definition ex_body : bodyR :=
  mkBody R_ops 10%float 1 2 1
    (map (fun i => [[[2 * INR i + 1]; [2 * INR i + 1]]]) (seq 0 8))
    (map (fun cc => [[fst cc; snd cc]]) (combine ex_conf0 ex_conf1)).

Lemma wit_ok : spline_ok wit.
Proof. split; [exact wit_shape|]. split; [exact wit_nodes|exact wit_poly]. Qed.
Lemma ex_wf : wf_body ex_body.
Proof. unfold wf_body, ex_body, frames_of; cbn. repeat (split || constructor). Qed.
Lemma ex_count15 : new_frame_count 8 15%float 10%float = Ok 12%nat.
Proof. vm_compute. reflexivity. Qed.
Lemma ex_count10 : new_frame_count 8 10%float 10%float = Ok 8%nat.
Proof. vm_compute. reflexivity. Qed.
Lemma ex_interpolated new_fps k n : new_frame_count 8 (target ex_body new_fps) 10%float = Ok n ->
  exists o, interpolated wit ex_body new_fps k o n.
Proof. intros Hn. destruct (interpolate_defined wit ex_body new_fps k ex_wf n) as [o Ho]; [cbn; lia|cbn; lia|cbn; lia|exact Hn|].
  exists o. split; [exact ex_wf|]. split; [exact Ho|exact Hn]. Qed.

Lemma ex_row0 i : (i < 8)%nat -> in_row ex_body i 0 0 = [2 * INR i + 1; nth i ex_conf0 0].
Proof. intros H. do 8 (destruct i as [|i]; [reflexivity|]). lia. Qed.
Lemma ex_row1 i : (i < 8)%nat -> in_row ex_body i 0 1 = [2 * INR i + 1; nth i ex_conf1 0].
Proof. intros H. do 8 (destruct i as [|i]; [reflexivity|]). lia. Qed.
Lemma obs_row x c : observedR [x; c] = true <-> c <> 0.
Proof. apply observedR_iff. Qed.
Lemma ex_seen0 i : seen ex_body i 0 0 <-> (i = 0 \/ i = 1 \/ i = 3 \/ i = 4 \/ i = 6)%nat.
Proof. unfold seen. change (frames_of ex_body) with 8%nat. split.
  - intros [Hi Ho]. rewrite ex_row0 in Ho by exact Hi. apply obs_row in Ho.
    do 8 (destruct i as [|i]; [cbn in Ho; try lia; exfalso; apply Ho; reflexivity|]). lia.
  - intros H. assert (Hi : (i < 8)%nat) by lia. split; [exact Hi|]. rewrite ex_row0 by exact Hi. apply obs_row.
    destruct H as [->|[->|[->|[->| ->]]]]; cbn; lra. Qed.
Lemma ex_seen1 i : seen ex_body i 0 1 <-> (i = 2 \/ i = 7)%nat.
Proof. unfold seen. change (frames_of ex_body) with 8%nat. split.
  - intros [Hi Ho]. rewrite ex_row1 in Ho by exact Hi. apply obs_row in Ho.
    do 8 (destruct i as [|i]; [cbn in Ho; try lia; exfalso; apply Ho; reflexivity|]). lia.
  - intros H. assert (Hi : (i < 8)%nat) by lia. split; [exact Hi|]. rewrite ex_row1 by exact Hi. apply obs_row.
    destruct H as [->| ->]; cbn; lra. Qed.
Lemma t_old8 i : (i < 8)%nat -> t_old 8 i = INR i / 7.
Proof. intros H. unfold t_old. rewrite grid_nth by lia. replace (INR (8 - 1)) with 7 by (cbn; lra). reflexivity. Qed.
Lemma t_new12 j : (j < 12)%nat -> t_new 12 j = INR j / 11.
Proof. intros H. unfold t_new. rewrite grid_nth by lia. replace (INR (12 - 1)) with 11 by (cbn; lra). reflexivity. Qed.
