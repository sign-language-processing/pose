(* IEEE-754 bit patterns.  The codec never does arithmetic on float32 words; it needs (i) the
   double -> float32 conversion of struct.pack('<f') / ndarray.astype(float32), (ii) three predicates on
   the bit pattern, (iii) binary64 arithmetic for time -> frame conversion.  All are pure functions
   of Coq's SpecFloat (no primitive floats, closed under the global context). *)
From Coq Require Import ZArith NArith List Bool Lia SpecFloat.
Import ListNotations.
Open Scope N_scope.

Definition sign_of (w bits : N) : bool := N.testbit w (bits - 1).
(* binary64 word -> spec_float *)
Definition sf_of_b64 (w : N) : spec_float :=
  let s := N.testbit w 63 in
  let e := (w / 4503599627370496) mod 2048 in
  let m := w mod 4503599627370496 in
  if e =? 0 then (match m with N0 => S754_zero s | Npos p => S754_finite s p (-1074) end)
  else if e =? 2047 then (match m with N0 => S754_infinity s | _ => S754_nan end)
  else match m + 4503599627370496 with N0 => S754_nan | Npos p => S754_finite s p (Z.of_N e - 1075) end.
(* binary32 word -> spec_float *)
Definition sf_of_b32 (w : N) : spec_float :=
  let s := N.testbit w 31 in
  let e := (w / 8388608) mod 256 in
  let m := w mod 8388608 in
  if e =? 0 then (match m with N0 => S754_zero s | Npos p => S754_finite s p (-149) end)
  else if e =? 255 then (match m with N0 => S754_infinity s | _ => S754_nan end)
  else match m + 8388608 with N0 => S754_nan | Npos p => S754_finite s p (Z.of_N e - 150) end.
Definition sbit (s : bool) (k : N) : N := if s then k else 0.
(* spec_float already in binary32 format -> word; NaN is canonical *)
Definition b32_of_sf (x : spec_float) : N :=
  match x with
  | S754_zero s => sbit s 2147483648
  | S754_infinity s => sbit s 2147483648 + 2139095040
  | S754_nan => 2143289344
  | S754_finite s m e =>
      if N.pos m <? 8388608 then sbit s 2147483648 + N.pos m
      else sbit s 2147483648 + Z.to_N (e + 150) * 8388608 + (N.pos m - 8388608)
  end.
Definition b64_of_sf (x : spec_float) : N :=
  match x with
  | S754_zero s => sbit s 9223372036854775808
  | S754_infinity s => sbit s 9223372036854775808 + 9218868437227405312
  | S754_nan => 9221120237041090560
  | S754_finite s m e =>
      if N.pos m <? 4503599627370496 then sbit s 9223372036854775808 + N.pos m
      else sbit s 9223372036854775808 + Z.to_N (e + 1075) * 4503599627370496 + (N.pos m - 4503599627370496)
  end.
Definition round32 (x : spec_float) : spec_float :=
  match x with S754_finite s m e => binary_round 24 128 s m e | _ => x end.
Definition is_finite_sf (x : spec_float) : bool :=
  match x with S754_finite _ _ _ | S754_zero _ => true | _ => false end.
(* [w32] is the identity on every word b32_of_sf produces from a rounded value (mantissa < 2^24, exponent
   <= 104; proofs/C02_F32RT.v, finite_word); it is applied so that "the result is a 32-bit word" holds by construction *)
Definition w32 (n : N) : N := n mod 4294967296.
(* ndarray.astype(float32) / np.array(x, dtype=float32): overflow gives +-inf *)
Definition f64_to_f32 (w : N) : N := w32 (b32_of_sf (round32 (sf_of_b64 w))).
(* struct.pack('<f', x): OverflowError when a finite double rounds to infinity *)
Definition pack_f32 (w : N) : option N :=
  let x := sf_of_b64 w in let y := round32 x in
  if is_finite_sf x && negb (is_finite_sf y) then None else Some (w32 (b32_of_sf y)).
(* widening; it is exact (proofs/C02_F32RT.v: finite_widen_narrow, f32_widen_narrow) *)
Definition f32_to_f64 (w : N) : N :=
  match sf_of_b32 w with
  | S754_finite s m e => b64_of_sf (binary_round 53 1024 s m e)
  | x => b64_of_sf x
  end.
(* predicates on float32 words *)
Definition is_zero32 (w : N) : bool := (w mod 2147483648 =? 0).
Definition is_nan32 (w : N) : bool := (2139095040 <? w mod 2147483648).
Definition is_pos32 (w : N) : bool := (w <? 2147483648) && negb (is_zero32 w) && negb (is_nan32 w).
Definition canon_nan32 (w : N) : N := if is_nan32 w then 2143289344 else w.

(* ---- binary64 arithmetic used by time -> frame conversion (pose_body.py:236-239) ---- *)
Definition sf64_of_Z (z : Z) : spec_float := binary_normalize 53 1024 z 0 false.
Definition sf64_mul := SFmul 53 1024.
Definition sf64_div := SFdiv 53 1024.
(* floor / ceil of a finite spec_float; None on inf/nan (math.floor raises) *)
Definition sf_floor (x : spec_float) : option Z :=
  match x with
  | S754_zero _ => Some 0%Z
  | S754_finite s m e =>
      let v := if s then Z.neg m else Z.pos m in
      Some (match e with Z0 => v | Zpos p => (v * Z.pow_pos 2 p)%Z | Zneg p => (v / Z.pow_pos 2 p)%Z end)
  | _ => None
  end.
Definition sf_ceil (x : spec_float) : option Z :=
  match sf_floor (SFopp x) with Some z => Some (- z)%Z | None => None end.

Lemma w32_lt n : w32 n < 4294967296.
Proof. unfold w32. apply N.mod_lt. discriminate. Qed.
Lemma f64_to_f32_lt w : f64_to_f32 w < 4294967296.
Proof. apply w32_lt. Qed.
Lemma pack_f32_lt w v : pack_f32 w = Some v -> v < 4294967296.
Proof. unfold pack_f32. destruct (_ && _); [discriminate|]. intros [= <-]. apply w32_lt. Qed.
