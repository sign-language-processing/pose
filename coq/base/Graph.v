(* Object graphs.  A heap is a list of cells; a cell has a payload (the object's own immutable-valued fields) and an
   ordered list of pointer fields (addresses of the mutable objects it refers to).  A value tree [vtree] is what an
   object denotes when its pointers are followed.  [Owns h a t S]: the heap contains the tree [t] at address [a] and
   [S] lists the addresses of the cells that make it up (the object's footprint).

   Used by C06 (objects handed out by separate reads / copy() share no cell, an in-place edit is local to its owner).
   Everything is generic in the payload type; nothing here knows about poses. *)
From Coq Require Import List Arith Lia Bool.
Import ListNotations.

Fixpoint upd {X} (n : nat) (g : X -> X) (l : list X) : list X :=
  match l, n with
  | [], _ => []
  | y :: r, O => g y :: r
  | y :: r, S m => y :: upd m g r
  end.
Lemma nth_error_upd_other {X} (l : list X) : forall n m g, n <> m -> nth_error (upd n g l) m = nth_error l m.
Proof. induction l as [|y l IH]; intros [|n] [|m] g H; cbn; try reflexivity; try congruence. apply IH. congruence. Qed.
Lemma nth_error_upd_map {X} (l : list X) : forall n g, nth_error (upd n g l) n = option_map g (nth_error l n).
Proof. induction l as [|y l IH]; intros [|n] g; cbn; try reflexivity. apply IH. Qed.
Lemma nth_error_upd_same {X} (l : list X) : forall n g x, nth_error l n = Some x -> nth_error (upd n g l) n = Some (g x).
Proof. intros n g x H. rewrite nth_error_upd_map, H. reflexivity. Qed.
Lemma length_upd {X} (l : list X) : forall n g, length (upd n g l) = length l.
Proof. induction l as [|y l IH]; intros [|n] g; cbn; try reflexivity. now rewrite IH. Qed.

Lemma NoDup_app_iff {X} (A B : list X) : NoDup (A ++ B) <-> NoDup A /\ NoDup B /\ (forall x, In x A -> ~ In x B).
Proof.
  induction A as [|a A IH]; cbn [app].
  - split; [intros H; repeat split; [constructor|exact H|intros x []]|intros [_ [H _]]; exact H].
  - rewrite !NoDup_cons_iff, IH, in_app_iff. split.
    + intros [Ha [NA [NB D]]]. repeat split; auto. intros x [<-|Hx]; auto.
    + intros [[Ha NA] [NB D]]. split; [|split; [exact NA|split; [exact NB|]]].
      * intros [H|H]; [exact (Ha H)|exact (D a (or_introl eq_refl) H)].
      * intros x Hx. apply D. right. exact Hx.
Qed.
Lemma NoDup_app_l {X} (A B : list X) : NoDup (A ++ B) -> NoDup A.
Proof. intros H. apply NoDup_app_iff in H. apply H. Qed.
Lemma NoDup_app_r {X} (A B : list X) : NoDup (A ++ B) -> NoDup B.
Proof. intros H. apply NoDup_app_iff in H. apply H. Qed.
Lemma notin_app_r {X} (x : X) (A B : list X) : NoDup (A ++ B) -> In x A -> ~ In x B.
Proof. intros H. apply NoDup_app_iff in H. apply H. Qed.
Lemma notin_app_l {X} (x : X) (A B : list X) : NoDup (A ++ B) -> In x B -> ~ In x A.
Proof. intros ND HB HA. exact (notin_app_r x A B ND HA HB). Qed.
Lemma NoDup_app_sep (A B : list nat) n : NoDup A -> NoDup B -> (forall x, In x A -> x < n) -> (forall x, In x B -> n <= x) ->
  NoDup (A ++ B) /\ NoDup (B ++ A).
Proof.
  intros HA HB LA LB. split; apply NoDup_app_iff; repeat split; try assumption; intros x H1 H2.
  - specialize (LA x H1). specialize (LB x H2). lia.
  - specialize (LA x H2). specialize (LB x H1). lia.
Qed.
Lemma in_concat_nth {X} (Ss : list (list X)) k S x : nth_error Ss k = Some S -> In x S -> In x (concat Ss).
Proof.
  revert k. induction Ss as [|S0 Ss IH]; intros [|k] H Hx; cbn in H; try discriminate; cbn [concat]; apply in_or_app.
  - injection H as ->. left. exact Hx.
  - right. eapply IH; eauto.
Qed.
Lemma NoDup_concat_nth {X} (Ss : list (list X)) : NoDup (concat Ss) -> forall i S, nth_error Ss i = Some S -> NoDup S.
Proof.
  induction Ss as [|S0 Ss IH]; intros ND [|i] S HS; cbn in HS; try discriminate; cbn [concat] in ND.
  - injection HS as <-. exact (NoDup_app_l _ _ ND).
  - exact (IH (NoDup_app_r _ _ ND) i S HS).
Qed.
Lemma concat_snoc {X} (Ss : list (list X)) S : concat (Ss ++ [S]) = concat Ss ++ S.
Proof. rewrite concat_app. cbn [concat]. now rewrite app_nil_r. Qed.

Section Graph.
Context {P : Type}.

Inductive vtree := VNode (p : P) (kids : list vtree).

Section VInd.
  Variable Q : vtree -> Prop.
  Hypothesis HQ : forall p kids, Forall Q kids -> Q (VNode p kids).
  Fixpoint vtree_ind' (t : vtree) : Q t :=
    match t with
    | VNode p kids =>
        HQ p kids ((fix go (l : list vtree) : Forall Q l :=
                      match l with [] => Forall_nil Q | k :: r => Forall_cons k (vtree_ind' k) (go r) end) kids)
    end.
End VInd.

Fixpoint depth (t : vtree) : nat :=
  match t with VNode _ kids => S (fold_right (fun k m => Nat.max (depth k) m) 0 kids) end.

Record cell := { c_pay : P; c_ptrs : list nat }.
Definition heap := list cell.

(* allocation: children first, left to right, then the node (copy.deepcopy / building a parsed object) *)
Fixpoint alloc_tree (t : vtree) (h : heap) : nat * heap :=
  match t with
  | VNode p kids =>
      let '(ptrs, h1) :=
        (fix go (ks : list vtree) (h : heap) {struct ks} : list nat * heap :=
           match ks with
           | [] => ([], h)
           | k :: r => let '(a, h1) := alloc_tree k h in let '(l, h2) := go r h1 in (a :: l, h2)
           end) kids h in
      (length h1, h1 ++ [{| c_pay := p; c_ptrs := ptrs |}])
  end.
Fixpoint alloc_list (ks : list vtree) (h : heap) : list nat * heap :=
  match ks with
  | [] => ([], h)
  | k :: r => let '(a, h1) := alloc_tree k h in let '(l, h2) := alloc_list r h1 in (a :: l, h2)
  end.
Lemma alloc_tree_node p kids h :
  alloc_tree (VNode p kids) h =
  let '(ptrs, h1) := alloc_list kids h in (length h1, h1 ++ [{| c_pay := p; c_ptrs := ptrs |}]).
Proof. reflexivity. Qed.

Lemma alloc_tree_root t h a h' : alloc_tree t h = (a, h') -> a = length h' - 1.
Proof.
  destruct t as [p kids]. rewrite alloc_tree_node. destruct (alloc_list kids h) as [ptrs h1]. intros [= <- <-].
  rewrite app_length. cbn [length]. lia.
Qed.

(* reading a tree back (executable; fuel bounds the depth) *)
Fixpoint mapM {A B} (f : A -> option B) (l : list A) : option (list B) :=
  match l with
  | [] => Some []
  | x :: r => match f x, mapM f r with Some y, Some ys => Some (y :: ys) | _, _ => None end
  end.
Fixpoint read_tree (fuel : nat) (h : heap) (a : nat) : option vtree :=
  match fuel with
  | O => None
  | S f => match nth_error h a with
           | None => None
           | Some c => match mapM (read_tree f h) (c_ptrs c) with Some ks => Some (VNode (c_pay c) ks) | None => None end
           end
  end.
Fixpoint footprint (fuel : nat) (h : heap) (a : nat) : list nat :=
  match fuel with
  | O => []
  | S f => match nth_error h a with
           | None => []
           | Some c => a :: concat (map (footprint f h) (c_ptrs c))
           end
  end.

Inductive Owns (h : heap) : nat -> vtree -> list nat -> Prop :=
| Owns_node a p ptrs kids fps :
    nth_error h a = Some {| c_pay := p; c_ptrs := ptrs |} ->
    OwnsL h ptrs kids fps ->
    Owns h a (VNode p kids) (a :: concat fps)
with OwnsL (h : heap) : list nat -> list vtree -> list (list nat) -> Prop :=
| OwnsL_nil : OwnsL h [] [] []
| OwnsL_cons a t S ptrs kids fps :
    Owns h a t S -> OwnsL h ptrs kids fps -> OwnsL h (a :: ptrs) (t :: kids) (S :: fps).
Scheme Owns_mut := Induction for Owns Sort Prop
  with OwnsL_mut := Induction for OwnsL Sort Prop.
Combined Scheme Owns_both from Owns_mut, OwnsL_mut.

(* frame: a derivation looks only at the cells of its footprint *)
Lemma owns_agree h h' :
  (forall a t S, Owns h a t S -> (forall x, In x S -> nth_error h' x = nth_error h x) -> Owns h' a t S) /\
  (forall ptrs kids fps, OwnsL h ptrs kids fps -> (forall x, In x (concat fps) -> nth_error h' x = nth_error h x) ->
                         OwnsL h' ptrs kids fps).
Proof.
  apply Owns_both.
  - intros a p ptrs kids fps Hc HL IH Hag. apply Owns_node with (ptrs := ptrs).
    + rewrite (Hag a (or_introl eq_refl)). exact Hc.
    + apply IH. intros x Hx. apply Hag. right. exact Hx.
  - intros _. constructor.
  - intros a t S ptrs kids fps HO IH1 HL IH2 Hag. constructor.
    + apply IH1. intros x Hx. apply Hag. cbn [concat]. apply in_or_app. left. exact Hx.
    + apply IH2. intros x Hx. apply Hag. cbn [concat]. apply in_or_app. right. exact Hx.
Qed.

Lemma owns_lt h :
  (forall a t S, Owns h a t S -> forall x, In x S -> x < length h) /\
  (forall ptrs kids fps, OwnsL h ptrs kids fps -> forall x, In x (concat fps) -> x < length h).
Proof.
  apply Owns_both.
  - intros a p ptrs kids fps Hc HL IH x [<-|Hx].
    + apply nth_error_Some. rewrite Hc. discriminate.
    + apply IH. exact Hx.
  - intros x [].
  - intros a t S ptrs kids fps HO IH1 HL IH2 x Hx. cbn [concat] in Hx. apply in_app_or in Hx. destruct Hx; auto.
Qed.

Lemma owns_ext h e a t S : Owns h a t S -> Owns (h ++ e) a t S.
Proof.
  intros H. apply (proj1 (owns_agree h (h ++ e)) a t S H). intros x Hx.
  apply nth_error_app1. exact (proj1 (owns_lt h) a t S H x Hx).
Qed.
Lemma ownsL_ext h e ptrs kids fps : OwnsL h ptrs kids fps -> OwnsL (h ++ e) ptrs kids fps.
Proof.
  intros H. apply (proj2 (owns_agree h (h ++ e)) ptrs kids fps H). intros x Hx.
  apply nth_error_app1. exact (proj2 (owns_lt h) ptrs kids fps H x Hx).
Qed.

Lemma owns_head h a t S : Owns h a t S -> exists S', S = a :: S'.
Proof. intros H. inversion H; subst. eexists. reflexivity. Qed.
(* an address denotes one tree with one footprint *)
Lemma owns_fun h :
  (forall a t S, Owns h a t S -> forall t' S', Owns h a t' S' -> t = t' /\ S = S') /\
  (forall ptrs kids fps, OwnsL h ptrs kids fps -> forall kids' fps', OwnsL h ptrs kids' fps' -> kids = kids' /\ fps = fps').
Proof.
  apply Owns_both.
  - intros a p ptrs kids fps Hc HL IH t' S' H'. inversion H'; subst.
    match goal with Hx : nth_error h a = Some _ |- _ => rewrite Hc in Hx; injection Hx as <- <- end.
    match goal with Hx : OwnsL h ptrs _ _ |- _ => destruct (IH _ _ Hx) as [<- <-] end. split; reflexivity.
  - intros kids' fps' H'. inversion H'; subst. split; reflexivity.
  - intros a t S ptrs kids fps HO IH1 HL IH2 kids' fps' H'. inversion H'; subst.
    match goal with Hx : Owns h a _ _ |- _ => destruct (IH1 _ _ Hx) as [<- <-] end.
    match goal with Hx : OwnsL h ptrs _ _ |- _ => destruct (IH2 _ _ Hx) as [<- <-] end. split; reflexivity.
Qed.

(* allocation only appends: the allocated tree is owned in the longer heap, and its footprint has no repetition and lies in
   the appended part, [fresh_in (length h) (length h')] - hence apart from every footprint of h (owns_lt) *)
Definition fresh_in (lo hi : nat) (S : list nat) : Prop := forall x, In x S -> lo <= x < hi.
Lemma alloc_owns : forall t h a h', alloc_tree t h = (a, h') ->
  exists e S, h' = h ++ e /\ Owns h' a t S /\ NoDup S /\ fresh_in (length h) (length h') S.
Proof.
  intros t. induction t as [p kids IHk] using vtree_ind'. intros h a h' Hal.
  rewrite alloc_tree_node in Hal.
  assert (HL : forall h ptrs h1, alloc_list kids h = (ptrs, h1) ->
            exists e fps, h1 = h ++ e /\ OwnsL h1 ptrs kids fps /\ NoDup (concat fps) /\ fresh_in (length h) (length h1) (concat fps)).
  { clear Hal h a h'. induction IHk as [|k r Hk Hr IHr]; intros h ptrs h1 Hl.
    - cbn in Hl. injection Hl as <- <-. exists [], []. rewrite app_nil_r.
      split; [reflexivity|]. split; [constructor|]. split; [constructor|]. intros x [].
    - cbn [alloc_list] in Hl. destruct (alloc_tree k h) as [a0 h0] eqn:E0. destruct (alloc_list r h0) as [l h2] eqn:E1.
      injection Hl as <- <-.
      destruct (Hk _ _ _ E0) as [e0 [S0 [-> [HO0 [ND0 FR0]]]]].
      destruct (IHr _ _ _ E1) as [e1 [fps [-> [HL1 [ND1 FR1]]]]].
      exists (e0 ++ e1), (S0 :: fps). rewrite app_assoc. split; [reflexivity|]. split; [|split].
      + constructor; [apply owns_ext; exact HO0|exact HL1].
      + cbn [concat]. apply (NoDup_app_sep S0 (concat fps) (length (h ++ e0))); [exact ND0|exact ND1|apply FR0|apply FR1].
      + cbn [concat]. intros x Hx. apply in_app_or in Hx. destruct Hx as [Hx|Hx].
        * specialize (FR0 x Hx). rewrite ?app_length in *. lia.
        * specialize (FR1 x Hx). rewrite ?app_length in *. lia. }
  destruct (alloc_list kids h) as [ptrs h1] eqn:E. injection Hal as <- <-.
  destruct (HL _ _ _ E) as [e [fps [-> [HO [ND FR]]]]].
  exists (e ++ [{| c_pay := p; c_ptrs := ptrs |}]), (length (h ++ e) :: concat fps). rewrite app_assoc.
  split; [reflexivity|]. split; [|split].
  - apply Owns_node with (ptrs := ptrs); [|apply ownsL_ext; exact HO]. rewrite nth_error_app2 by lia. rewrite Nat.sub_diag. reflexivity.
  - constructor; [|exact ND]. intros Hin. specialize (FR _ Hin). lia.
  - intros x [<-|Hx]; [|specialize (FR x Hx)]; rewrite ?app_length in *; cbn [length]; lia.
Qed.

(* Owns is what the executable read_tree / footprint compute once the fuel covers the depth *)
Lemma owns_read h :
  (forall a t S, Owns h a t S -> forall f, depth t <= f -> read_tree f h a = Some t /\ footprint f h a = S) /\
  (forall ptrs kids fps, OwnsL h ptrs kids fps -> forall f, Forall (fun k => depth k <= f) kids ->
                         mapM (read_tree f h) ptrs = Some kids /\ map (footprint f h) ptrs = fps).
Proof.
  apply Owns_both.
  - intros a p ptrs kids fps Hc HL IH f Hf. destruct f as [|f]; [cbn in Hf; lia|]. cbn [read_tree footprint]. rewrite Hc. cbn [c_ptrs c_pay].
    assert (Hk : Forall (fun k => depth k <= f) kids).
    { cbn [depth] in Hf. apply le_S_n in Hf. clear -Hf. induction kids as [|k r IHr]; constructor; cbn in Hf; [lia|apply IHr; lia]. }
    destruct (IH f Hk) as [-> ->]. split; reflexivity.
  - intros f _. split; reflexivity.
  - intros a t S ptrs kids fps HO IH1 HL IH2 f Hf. inversion Hf; subst. cbn [mapM map].
    destruct (IH1 f H1) as [-> ->]. destruct (IH2 f H2) as [-> ->]. split; reflexivity.
Qed.

Definition set_pay (x : nat) (g : P -> P) (h : heap) : heap :=
  upd x (fun c => {| c_pay := g (c_pay c); c_ptrs := c_ptrs c |}) h.

(* following pointer fields from an object *)
Fixpoint addr_at (h : heap) (a : nat) (path : list nat) : option nat :=
  match path with
  | [] => Some a
  | i :: r => match nth_error h a with
              | Some c => match nth_error (c_ptrs c) i with Some b => addr_at h b r | None => None end
              | None => None
              end
  end.
Fixpoint tmap_at (path : list nat) (f : vtree -> vtree) (t : vtree) : vtree :=
  match path with
  | [] => f t
  | i :: r => match t with VNode p kids => VNode p (upd i (tmap_at r f) kids) end
  end.
Definition pay (g : P -> P) (t : vtree) : vtree := match t with VNode p kids => VNode (g p) kids end.

Lemma owns_frame h x g a t S : Owns h a t S -> ~ In x S -> Owns (set_pay x g h) a t S.
Proof.
  intros H Hx. apply (proj1 (owns_agree h _) a t S H). intros y Hy. unfold set_pay.
  apply nth_error_upd_other. intros ->. contradiction.
Qed.
Lemma ownsL_frame h x g ptrs kids fps : OwnsL h ptrs kids fps -> ~ In x (concat fps) -> OwnsL (set_pay x g h) ptrs kids fps.
Proof.
  intros H Hx. apply (proj2 (owns_agree h _) ptrs kids fps H). intros y Hy. unfold set_pay.
  apply nth_error_upd_other. intros ->. contradiction.
Qed.

Lemma path_in h x :
  (forall a t S, Owns h a t S -> forall path, addr_at h a path = Some x -> In x S) /\
  (forall ptrs kids fps, OwnsL h ptrs kids fps -> forall i b r, nth_error ptrs i = Some b -> addr_at h b r = Some x -> In x (concat fps)).
Proof.
  apply Owns_both.
  - intros a p ptrs kids fps Hc HL IH [|i r] Hp; cbn [addr_at] in Hp.
    + injection Hp as <-. left. reflexivity.
    + rewrite Hc in Hp. cbn [c_ptrs] in Hp. destruct (nth_error ptrs i) as [b|] eqn:Eb; [|discriminate]. right. exact (IH i b r Eb Hp).
  - intros [|i] b r Eb; discriminate.
  - intros a t S ptrs kids fps HO IH1 HL IH2 [|i] b r Eb Hp; cbn in Eb; cbn [concat]; apply in_or_app.
    + injection Eb as <-. left. exact (IH1 r Hp).
    + right. exact (IH2 i b r Eb Hp).
Qed.
Lemma path_in_footprint h : forall path a t S x, Owns h a t S -> addr_at h a path = Some x -> In x S.
Proof. intros path a t S x HO. exact (proj1 (path_in h x) a t S HO path). Qed.
Lemma path_in_concat h r x ptrs kids fps i b :
  OwnsL h ptrs kids fps -> nth_error ptrs i = Some b -> addr_at h b r = Some x -> In x (concat fps).
Proof. intros HL. exact (proj2 (path_in h x) ptrs kids fps HL i b r). Qed.

(* editing the payload of the object at the end of a path edits exactly that node of the owner's tree: the cells on the way
   to it are not x (the footprint has no duplicates), and the siblings passed by do not contain x *)
Lemma owns_edit_both h g x :
  (forall a t S, Owns h a t S -> NoDup S -> forall path, addr_at h a path = Some x ->
                 Owns (set_pay x g h) a (tmap_at path (pay g) t) S) /\
  (forall ptrs kids fps, OwnsL h ptrs kids fps -> NoDup (concat fps) ->
                         forall i b r, nth_error ptrs i = Some b -> addr_at h b r = Some x ->
                         OwnsL (set_pay x g h) ptrs (upd i (tmap_at r (pay g)) kids) fps).
Proof.
  apply Owns_both.
  - intros a p ptrs kids fps Hc HL IH ND [|i r] Hp; cbn [addr_at] in Hp; inversion ND as [|? ? Hna NDf]; subst.
    + injection Hp as <-. apply Owns_node with (ptrs := ptrs); [|apply ownsL_frame; assumption].
      unfold set_pay. rewrite (nth_error_upd_same _ _ _ _ Hc). reflexivity.
    + rewrite Hc in Hp. cbn [c_ptrs] in Hp. destruct (nth_error ptrs i) as [b|] eqn:Eb; [|discriminate].
      apply Owns_node with (ptrs := ptrs); [|exact (IH NDf i b r Eb Hp)].
      unfold set_pay. rewrite nth_error_upd_other; [exact Hc|]. intros ->. exact (Hna (path_in_concat h r _ _ _ _ i b HL Eb Hp)).
  - intros _ [|i] b r Eb; discriminate.
  - intros a t S ptrs kids fps HO IH1 HL IH2 ND [|i] b r Eb Hp; cbn in Eb; cbn [concat] in ND; cbn [upd]; constructor.
    + injection Eb as <-. exact (IH1 (NoDup_app_l _ _ ND) r Hp).
    + injection Eb as <-. apply ownsL_frame; [exact HL|]. exact (notin_app_r x S _ ND (path_in_footprint h r a t S x HO Hp)).
    + apply owns_frame; [exact HO|]. exact (notin_app_l x S _ ND (path_in_concat h r x _ _ _ i b HL Eb Hp)).
    + exact (IH2 (NoDup_app_r _ _ ND) i b r Eb Hp).
Qed.
Lemma owns_edit h g x : forall path a t S, Owns h a t S -> NoDup S -> addr_at h a path = Some x ->
  Owns (set_pay x g h) a (tmap_at path (pay g) t) S.
Proof. intros path a t S HO ND. exact (proj1 (owns_edit_both h g x) a t S HO ND path). Qed.

Lemma ownsL_app h l1 T1 S1 : OwnsL h l1 T1 S1 -> forall l2 T2 S2, OwnsL h l2 T2 S2 -> OwnsL h (l1 ++ l2) (T1 ++ T2) (S1 ++ S2).
Proof. induction 1 as [|a t S ptrs kids fps HO HL IH]; intros l2 T2 S2 H2; [exact H2|]. cbn [app]. constructor; [exact HO|apply IH; exact H2]. Qed.
Lemma ownsL_app_inv h l1 : forall l2 Ts Ss, OwnsL h (l1 ++ l2) Ts Ss ->
  exists T1 T2 S1 S2, Ts = T1 ++ T2 /\ Ss = S1 ++ S2 /\ OwnsL h l1 T1 S1 /\ OwnsL h l2 T2 S2.
Proof.
  induction l1 as [|a l1 IH]; intros l2 Ts Ss H.
  - exists [], Ts, [], Ss. repeat split; try reflexivity; [constructor|exact H].
  - cbn [app] in H. inversion H as [|a' t S ptrs kids fps HO HL]; subst.
    destruct (IH _ _ _ HL) as [T1 [T2 [S1 [S2 [-> [-> [H1 H2]]]]]]].
    exists (t :: T1), T2, (S :: S1), S2. repeat split; try reflexivity; [constructor; assumption|exact H2].
Qed.
Lemma ownsL_length h l Ts Ss : OwnsL h l Ts Ss -> length Ts = length l /\ length Ss = length l.
Proof. induction 1 as [|a t S ptrs kids fps HO HL [IH1 IH2]]; [split; reflexivity|]. cbn [length]. split; congruence. Qed.
Lemma ownsL_nth h l Ts Ss : OwnsL h l Ts Ss -> forall k a, nth_error l k = Some a ->
  exists t S, nth_error Ts k = Some t /\ nth_error Ss k = Some S /\ Owns h a t S.
Proof.
  induction 1 as [|a0 t0 S0 ptrs kids fps HO HL IH]; intros k a Hk; [destruct k; discriminate|].
  destruct k as [|k]; cbn in Hk.
  - injection Hk as <-. exists t0, S0. repeat split; assumption.
  - destruct (IH _ _ Hk) as [t [S [H1 [H2 H3]]]]. exists t, S. repeat split; assumption.
Qed.
Lemma ownsL_alloc h l Ts Ss t a h' : OwnsL h l Ts Ss -> NoDup (concat Ss) -> alloc_tree t h = (a, h') ->
  exists S, OwnsL h' l Ts Ss /\ Owns h' a t S /\ NoDup S /\ fresh_in (length h) (length h') S /\ NoDup (concat (Ss ++ [S])) /\ NoDup (concat (S :: Ss)).
Proof.
  intros HL ND Hal. destruct (alloc_owns t h a h' Hal) as [e [S [-> [HO [NDS FR]]]]].
  exists S. split; [apply ownsL_ext; exact HL|]. split; [exact HO|]. split; [exact NDS|]. split; [exact FR|].
  destruct (NoDup_app_sep (concat Ss) S (length h) ND NDS (proj2 (owns_lt h) l Ts Ss HL) (fun x Hx => proj1 (FR x Hx))) as [N1 N2].
  split; [rewrite concat_snoc; exact N1|cbn [concat]; exact N2].
Qed.

Lemma depth_upd_same (f : vtree -> vtree) kids : forall i, (forall k, depth (f k) = depth k) ->
  fold_right (fun k m => Nat.max (depth k) m) 0 (upd i f kids) = fold_right (fun k m => Nat.max (depth k) m) 0 kids.
Proof. induction kids as [|k kids IH]; intros [|i] Hf; cbn [upd fold_right]; try reflexivity; [now rewrite Hf|now rewrite IH]. Qed.
Lemma depth_tmap_at g : forall path t, depth (tmap_at path (pay g) t) = depth t.
Proof.
  induction path as [|i r IH]; intros [p kids]; [reflexivity|]. cbn [tmap_at depth]. f_equal. apply depth_upd_same. exact (IH).
Qed.
(* the fold under the S of [depth]; an edit that deepens no child (node_edit, GraphEdit) deepens no tree *)
Definition maxd (kids : list vtree) : nat := fold_right (fun k m => Nat.max (depth k) m) 0 kids.
Lemma maxd_upd_le f kids : (forall k, depth (f k) <= depth k) -> forall i, maxd (upd i f kids) <= maxd kids.
Proof.
  intros Hf. induction kids as [|k kids IH]; intros [|i]; cbn [upd]; try apply Nat.le_refl.
  - change (Nat.max (depth (f k)) (maxd kids) <= Nat.max (depth k) (maxd kids)). specialize (Hf k). lia.
  - change (Nat.max (depth k) (maxd (upd i f kids)) <= Nat.max (depth k) (maxd kids)). specialize (IH i). lia.
Qed.
Lemma depth_tmap_at_le f : (forall t, depth (f t) <= depth t) -> forall path t, depth (tmap_at path f t) <= depth t.
Proof.
  intros Hf. induction path as [|i r IH]; intros t; [apply Hf|]. destruct t as [p kids]. cbn [tmap_at].
  change (S (maxd (upd i (tmap_at r f) kids)) <= S (maxd kids)). apply le_n_S. apply maxd_upd_le. exact IH.
Qed.
End Graph.

Arguments vtree : clear implicits.
Arguments cell : clear implicits.
Arguments heap : clear implicits.
