(* C11 - the name tables of utils/generic.py as they were when the Examples of props/C11.v were written (a literal copy).
   The theorems hold for every table; the runner uses the regenerated ones (gen/Gen_C11.v); the tie lemma
   [tables_tie] (props/C11.v) states that the regenerated tables still equal this copy. *)
From Coq Require Import List ZArith.
Require Import C11_Str C11_Select C11_Helpers.
Import ListNotations.
Open Scope str_scope.
Open Scope list_scope.

Definition pinned_tables : tables := mkTables
  ["POSE_LANDMARKS"; "FACE_LANDMARKS"; "LEFT_HAND_LANDMARKS"; "RIGHT_HAND_LANDMARKS"; "POSE_WORLD_LANDMARKS"]
  ["pose_keypoints_2d"; "face_keypoints_2d"; "hand_left_keypoints_2d"; "hand_right_keypoints_2d"]
  ["BODY_135"]
  [("POSE_LANDMARKS", ["LEFT_KNEE"; "LEFT_ANKLE"; "LEFT_HEEL"; "LEFT_FOOT_INDEX"; "LEFT_HIP"; "RIGHT_KNEE"; "RIGHT_ANKLE"; "RIGHT_HEEL"; "RIGHT_FOOT_INDEX"; "RIGHT_HIP"]); ("POSE_WORLD_LANDMARKS", ["LEFT_KNEE"; "LEFT_ANKLE"; "LEFT_HEEL"; "LEFT_FOOT_INDEX"; "LEFT_HIP"; "RIGHT_KNEE"; "RIGHT_ANKLE"; "RIGHT_HEEL"; "RIGHT_FOOT_INDEX"; "RIGHT_HIP"])]
  [("pose_keypoints_2d", ["MidHip"; "RHip"; "RKnee"; "RAnkle"; "LHip"; "LKnee"; "LAnkle"; "LBigToe"; "LSmallToe"; "LHeel"; "RBigToe"; "RSmallToe"; "RHeel"])]
  [("LEFT", (("LEFT_HAND_LANDMARKS", "WRIST"), ("POSE_LANDMARKS", "LEFT_WRIST"))); ("RIGHT", (("RIGHT_HAND_LANDMARKS", "WRIST"), ("POSE_LANDMARKS", "RIGHT_WRIST")))]
  [("LEFT", (("hand_left_keypoints_2d", "BASE"), ("pose_keypoints_2d", "LWrist"))); ("RIGHT", (("hand_right_keypoints_2d", "BASE"), ("pose_keypoints_2d", "RWrist")))]
  ["0"; "7"; "10"; "13"; "14"; "17"; "21"; "33"; "37"; "39"; "40"; "46"; "52"; "53"; "54"; "55"; "58"; "61"; "63"; "65"; "66"; "67"; "70"; "78"; "80"; "81"; "82"; "84"; "87"; "88"; "91"; "93"; "95"; "103"; "105"; "107"; "109"; "127"; "132"; "133"; "136"; "144"; "145"; "146"; "148"; "149"; "150"; "152"; "153"; "154"; "155"; "157"; "158"; "159"; "160"; "161"; "162"; "163"; "172"; "173"; "176"; "178"; "181"; "185"; "191"; "234"; "246"; "249"; "251"; "263"; "267"; "269"; "270"; "276"; "282"; "283"; "284"; "285"; "288"; "291"; "293"; "295"; "296"; "297"; "300"; "308"; "310"; "311"; "312"; "314"; "317"; "318"; "321"; "323"; "324"; "332"; "334"; "336"; "338"; "356"; "361"; "362"; "365"; "373"; "374"; "375"; "377"; "378"; "379"; "380"; "381"; "382"; "384"; "385"; "386"; "387"; "388"; "389"; "390"; "397"; "398"; "400"; "402"; "405"; "409"; "415"; "454"; "466"]
  ["EAR"; "NOSE"; "MOUTH"; "EYE"; "THUMB"; "PINKY"; "INDEX"; "KNEE"; "ANKLE"; "HEEL"; "FOOT_INDEX"]
  "POSE_LANDMARKS" "FACE_LANDMARKS" "POSE_WORLD_LANDMARKS".

