(* C20 - the clauses of the property about one field, derived from the master lemma. *)
From Coq Require Import List ZArith Arith Bool Lia.
Require Import ListFacts Result Tensor C20_Collate C20_Spec C20_Pad.
Import ListNotations.

Lemma nth_concat_uniform {X} (d : X) W (rows : list (list X)) :
  Forall (fun r => length r = W) rows ->
  forall i k, i < length rows -> k < W -> nth (i * W + k) (concat rows) d = nth k (nth i rows []) d.
Proof.
  induction 1 as [|r rows Hr _ IH]; intros i k Hi Hk; cbn [length] in Hi; [lia|].
  cbn [concat]. destruct i as [|i].
  - cbn [Nat.mul Nat.add nth]. apply app_nth1. lia.
  - rewrite app_nth2 by (rewrite Hr; cbn [Nat.mul]; lia).
    replace (S i * W + k - length r) with (i * W + k) by (rewrite Hr; cbn [Nat.mul]; lia).
    cbn [nth]. apply IH; lia.
Qed.
Lemma length_concat_uniform {X} W (rows : list (list X)) :
  Forall (fun r => length r = W) rows -> length (concat rows) = length rows * W.
Proof. induction 1 as [|r rows Hr _ IH]; cbn [concat length Nat.mul]; [reflexivity|]. rewrite app_length, Hr, IH. reflexivity. Qed.

Lemma row_length {X} L P n (cells : list X) fill : length cells = n * P -> n <= L -> length (row_of L P n cells fill) = L * P.
Proof. intros Hc Hle. unfold row_of. rewrite app_length, repeat_length, Hc. nia. Qed.
Lemma row_prefix {X} (d : X) L P n (cells : list X) fill j r :
  length cells = n * P -> j < n -> r < P -> nth (j * P + r) (row_of L P n cells fill) d = nth (j * P + r) cells d.
Proof. intros Hc Hj Hr. unfold row_of. apply app_nth1. nia. Qed.
Lemma row_suffix {X} (d : X) L P n (cells : list X) fill j r :
  length cells = n * P -> n <= j -> j < L -> r < P -> nth (j * P + r) (row_of L P n cells fill) d = fill.
Proof. intros Hc Hnj HjL Hr. unfold row_of. rewrite app_nth2 by nia. apply nth_repeat_lt. nia. Qed.

Lemma tget_flat {X} (d d' : X) (t : tensor X) n tail j ix :
  shape t = n :: tail -> length (data t) = n * prod tail -> j < n -> in_range tail ix ->
  nth (j * prod tail + ravel tail ix) (data t) d = tget d' t (j :: ix).
Proof.
  intros Hs Hl Hj Hix. pose proof (ravel_lt tail ix Hix) as Hr.
  unfold tget. rewrite Hs. cbn [ravel]. apply nth_indep. rewrite Hl. nia.
Qed.

(* the [examples; longest; trailing...] tensor whose rows are the cells of the examples' tensors [g x] padded with [fill x]:
   values and validity are the two instances *)
Section Rows.
  Context {X : Type} (g : tl -> tensor X) (fill : tl -> X) (tail : list nat) (batch : list tl).
  Hypothesis Hg : forall x, In x batch -> shape (g x) = len_of x :: tail /\ wf (g x).
  Local Notation row := (fun x => row_of (Lmax batch) (prod tail) (len_of x) (data (g x)) (fill x)).
  Local Notation rows := (map row batch).
  Local Notation batched := (mkT (length batch :: Lmax batch :: tail) (concat rows)).

  Lemma cells_length x : In x batch -> length (data (g x)) = len_of x * prod tail.
  Proof. intros Hx. destruct (Hg x Hx) as [Hs Hw]. unfold wf in Hw. now rewrite Hw, Hs. Qed.
  Lemma rows_uniform : Forall (fun r => length r = Lmax batch * prod tail) rows.
  Proof.
    apply Forall_forall. intros r Hr. apply in_map_iff in Hr. destruct Hr as (x & <- & Hx).
    apply row_length; [now apply cells_length|now apply len_le_Lmax].
  Qed.
  Lemma batch_wf : wf batched.
  Proof.
    unfold wf. cbn [data shape prod fold_right]. fold (prod tail).
    rewrite (length_concat_uniform _ _ rows_uniform), map_length. lia.
  Qed.
  Lemma batch_cell d i x j ix : nth_error batch i = Some x -> j < Lmax batch -> in_range tail ix ->
    tget d batched (i :: j :: ix) = nth (j * prod tail + ravel tail ix) (row x) d.
  Proof.
    intros Hi Hj Hix. unfold tget. cbn [shape data ravel prod fold_right]. fold (prod tail).
    pose proof (ravel_lt tail ix Hix) as Hr.
    rewrite (nth_concat_uniform d _ rows rows_uniform).
    - f_equal. apply nth_error_nth. exact (map_nth_error row _ _ Hi).
    - rewrite map_length. apply nth_error_Some. congruence.
    - nia.
  Qed.
  (* row i: example i's own cells, then [fill] *)
  Lemma batch_cell_own d d' i x j ix : nth_error batch i = Some x -> j < len_of x -> in_range tail ix ->
    tget d batched (i :: j :: ix) = tget d' (g x) (j :: ix).
  Proof.
    intros Hi Hj Hix. assert (Hx : In x batch) by (eapply nth_error_In; exact Hi).
    pose proof (len_le_Lmax x batch Hx) as HL. pose proof (ravel_lt tail ix Hix) as Hr. pose proof (cells_length x Hx) as Hc.
    rewrite (batch_cell d i x j ix Hi) by (lia || exact Hix). rewrite row_prefix by assumption.
    apply (tget_flat _ _ _ (len_of x)); try assumption. apply (Hg x Hx).
  Qed.
  Lemma batch_cell_pad d i x j ix : nth_error batch i = Some x -> len_of x <= j -> j < Lmax batch -> in_range tail ix ->
    tget d batched (i :: j :: ix) = fill x.
  Proof.
    intros Hi Hnj HjL Hix. assert (Hx : In x batch) by (eapply nth_error_In; exact Hi).
    rewrite (batch_cell d i x j ix Hi HjL Hix). apply row_suffix; [now apply cells_length|assumption|assumption|now apply ravel_lt].
  Qed.
End Rows.

Lemma pad_tensors_spec masked tail pv batch o :
  good_batch masked tail pv batch -> pad_tensors batch pv = Ok o -> o = spec_out masked tail pv batch.
Proof.
  intros G H. unfold pad_tensors in H. rewrite (pad_tensors_master masked tail pv batch sc_repaired sc_repaired_sound G) in H.
  now inversion H.
Qed.
Lemma out_t_spec masked tail pv batch :
  out_t (spec_out masked tail pv batch) =
  mkT (length batch :: Lmax batch :: tail)
    (concat (map (fun x => row_of (Lmax batch) (prod tail) (len_of x) (data (tl_t x)) (pad_val (tl_dt x) pv)) batch)).
Proof. unfold spec_out. now destruct masked. Qed.
Lemma good_batch_t masked tail pv batch :
  good_batch masked tail pv batch -> forall x, In x batch -> shape (tl_t x) = len_of x :: tail /\ wf (tl_t x).
Proof. intros (_ & HG & _) x Hx. rewrite Forall_forall in HG. destruct (HG x Hx) as (_ & Hs & Hw & _). now split. Qed.
Lemma good_batch_m tail pv batch :
  good_batch true tail pv batch -> forall x, In x batch -> shape (tl_m x) = len_of x :: tail /\ wf (tl_m x).
Proof.
  intros (_ & HG & _) x Hx. rewrite Forall_forall in HG. destruct (HG x Hx) as (_ & Hs & _ & Hm).
  destruct (Hm eq_refl) as [Hsm Hw]. now rewrite Hsm.
Qed.

Theorem batch_axes masked tail pv batch o :
  good_batch masked tail pv batch -> pad_tensors batch pv = Ok o ->
  shape (out_t o) = length batch :: Lmax batch :: tail /\ wf (out_t o) /\
  (masked = true -> shape (out_m o) = length batch :: Lmax batch :: tail /\ wf (out_m o)) /\
  (forall x, In x batch -> len_of x <= Lmax batch) /\ (exists x, In x batch /\ len_of x = Lmax batch).
Proof.
  intros G H. rewrite (pad_tensors_spec _ _ _ _ _ G H). clear H o. rewrite out_t_spec.
  split; [reflexivity|]. split; [apply batch_wf, (good_batch_t _ _ _ _ G)|]. split; [|split].
  - intros ->. split; [reflexivity|]. apply batch_wf, (good_batch_m _ _ _ G).
  - intros x Hx. now apply len_le_Lmax.
  - apply Lmax_attained, G.
Qed.

Theorem collate_rows masked tail pv batch o :
  good_batch masked tail pv batch -> pad_tensors batch pv = Ok o ->
  forall i x j ix (dz dz' : Z) (db db' : bool),
    nth_error batch i = Some x -> j < len_of x -> in_range tail ix ->
    tget dz (out_t o) (i :: j :: ix) = tget dz' (tl_t x) (j :: ix) /\
    (masked = true -> tget db (out_m o) (i :: j :: ix) = tget db' (tl_m x) (j :: ix)).
Proof.
  intros G H i x j ix dz dz' db db' Hi Hj Hix. rewrite (pad_tensors_spec _ _ _ _ _ G H). clear H o. split.
  - rewrite out_t_spec. exact (batch_cell_own tl_t _ tail batch (good_batch_t _ _ _ _ G) dz dz' i x j ix Hi Hj Hix).
  - intros ->. exact (batch_cell_own tl_m (fun _ => false) tail batch (good_batch_m _ _ _ G) db db' i x j ix Hi Hj Hix).
Qed.

Theorem padding_invalid_and_pad_value masked tail pv batch o :
  good_batch masked tail pv batch -> pad_tensors batch pv = Ok o ->
  forall i x j ix (dz : Z) (db : bool),
    nth_error batch i = Some x -> len_of x <= j -> j < Lmax batch -> in_range tail ix ->
    tget dz (out_t o) (i :: j :: ix) = pad_val (tl_dt x) pv /\
    (masked = true -> tget db (out_m o) (i :: j :: ix) = false).
Proof.
  intros G H i x j ix dz db Hi Hnj HjL Hix. rewrite (pad_tensors_spec _ _ _ _ _ G H). clear H o. split.
  - rewrite out_t_spec. exact (batch_cell_pad tl_t (fun x => pad_val (tl_dt x) pv) tail batch (good_batch_t _ _ _ _ G) dz i x j ix Hi Hnj HjL Hix).
  - intros ->. exact (batch_cell_pad tl_m (fun _ => false) tail batch (good_batch_m _ _ _ G) db i x j ix Hi Hnj HjL Hix).
Qed.

(* pad value 0 (what zero_pad_collator always uses) fits every dtype and stays 0 *)
Lemma pad_zero dt : pad_fits dt 0 = true /\ pad_val dt 0 = 0%Z.
Proof. destruct dt; split; reflexivity. Qed.

Lemma fold_dt_const d l : Forall (fun e => e = d) l -> fold_left dt_max l d = d.
Proof. induction 1 as [|b l Hb _ IH]; cbn [fold_left]; [reflexivity|]. subst b. now rewrite dt_max_idem. Qed.
Lemma dts_const d l : l <> [] -> Forall (fun e => e = d) l -> dts l = d.
Proof.
  intros Hne HF. destruct l as [|a l]; [congruence|]. inversion HF as [|a' l' Ha Hl]; subst.
  unfold dts. cbn [fold_left]. replace (dt_max DBool d) with d by (now destruct d).
  now apply fold_dt_const.
Qed.
Theorem result_dtype masked tail pv batch o d :
  good_batch masked tail pv batch -> pad_tensors batch pv = Ok o ->
  out_dt o = dts (map tl_dt batch) /\ (Forall (fun x => tl_dt x = d) batch -> out_dt o = d).
Proof.
  intros G H. rewrite (pad_tensors_spec _ _ _ _ _ G H).
  assert (E : out_dt (spec_out masked tail pv batch) = dts (map tl_dt batch)) by (unfold spec_out; now destruct masked).
  split; [exact E|]. intros HF. rewrite E. apply dts_const.
  - destruct G as (Hne & _). destruct batch; cbn; congruence.
  - rewrite Forall_forall in *. intros e He. apply in_map_iff in He. destruct He as (x & <- & Hx). now apply HF.
Qed.
