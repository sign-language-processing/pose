(* C17 - the real-number instance (R_ops; atan and acos any functions) of the representation models equals
   the textbook formulas of model/C17_Spec.v, and the backends agree on non-degenerate inputs.
   Axioms: only the three of the standard library's Reals. *)
From Coq Require Import Reals List Lra Bool.
Require Import Num RealFacts C17_Repr C17_Spec C17_Vec.
Import ListNotations.
Local Open Scope R_scope.

Local Notation RO := R_ops.
Local Notation sqrt := R_sqrt.sqrt.

Section WithTranscendentals.
Variables atan acos : R -> R.
Local Notation rvals := (@vals R_ops).

Lemma nan_to_zero_R (x : R) : nan_to_zero RO x = x.
Proof. unfold nan_to_zero. cbn [eqb RO]. rewrite Reqb_refl. reflexivity. Qed.

(* all-valid masked tensors behave like plain ones *)
Lemma marith_vals (f : R -> R -> R) : forall a b : vec, map2 (m_arith RO f) (rvals a) (rvals b) = rvals (map2 f a b).
Proof.
  induction a as [|x a IH]; intros [|y b]; try reflexivity.
  unfold vals in *. cbn [map]. rewrite !map2_cons. cbn [map]. rewrite IH. reflexivity.
Qed.
Lemma mun_vals (f : R -> R) (v : vec) : map (m_un RO f) (rvals v) = rvals (map f v).
Proof. unfold vals. rewrite !map_map. reflexivity. Qed.
Lemma fst_vals (v : vec) : map fst (rvals v) = v.
Proof. unfold vals. rewrite map_map. cbn [fst]. apply map_id. Qed.
Lemma snd_vals (v : vec) : forallb snd (rvals v) = true.
Proof. induction v as [|x v IH]; [reflexivity|exact IH]. Qed.
Lemma msum_vals (v : vec) : m_sum RO (rvals v) = (sum RO v, true).
Proof. unfold m_sum. rewrite fst_vals, snd_vals. reflexivity. Qed.
Lemma dist_m_vals a b : torch_dist_m RO (rvals a) (rvals b) = (euclid a b, true).
Proof.
  unfold torch_dist_m. rewrite marith_vals, mun_vals, msum_vals. unfold m_un. cbn [fst snd].
  rewrite sum_sq_dot. reflexivity.
Qed.

Lemma distance_def_torch a b : torch_distance RO (rvals a) (rvals b) = euclid a b.
Proof. unfold torch_distance. rewrite dist_m_vals. reflexivity. Qed.
Lemma distance_def_tf a b : tf_distance RO a b = euclid a b.
Proof. unfold tf_distance. change (map2 (sub RO) a b) with (vsub a b). rewrite sum_sq_dot. reflexivity. Qed.
Lemma zf_vals {O : ops} (v : list (T O)) : map (fun c : mv O => if snd c then fst c else zero O) (vals v) = v.
Proof. unfold vals. rewrite map_map. cbn [fst snd]. apply map_id. Qed.
Lemma allmasked_vals {O : ops} (v : list (T O)) : v <> [] -> forallb (fun c : mv O => negb (snd c)) (vals v) = false.
Proof. destruct v; [contradiction|reflexivity]. Qed.
Lemma distance_def_np a b : a <> [] -> b <> [] -> np_distance RO (rvals a) (rvals b) = euclid a b.
Proof.
  intros Ha Hb. unfold np_distance. rewrite marith_vals, mun_vals. rewrite zf_vals.
  rewrite allmasked_vals by (destruct a; [contradiction|]; destruct b; [contradiction|]; discriminate).
  change (map2 (sub RO) a b) with (vsub a b). rewrite sum_sq_dot.
  cbn [ltb RO zero]. rewrite (proj2 (Rltb_false _ _)) by apply dot_self_nonneg. reflexivity.
Qed.
Lemma euclid_nonneg a b : 0 <= euclid a b.
Proof. apply sqrt_pos. Qed.
Lemma euclid_sqr a b : euclid a b * euclid a b = dot (vsub a b) (vsub a b).
Proof. unfold euclid, norm. apply sqrt_sqrt, dot_self_nonneg. Qed.
Lemma euclid_zero_iff a b : length a = length b -> (euclid a b = 0 <-> a = b).
Proof.
  intros Hl. split.
  - intros H. apply dot_self_zero_eq; [exact Hl|]. rewrite <- euclid_sqr, H. ring.
  - intros <-. unfold euclid, norm. replace (dot (vsub a a) (vsub a a)) with 0; [apply sqrt_0|].
    clear. induction a as [|x a IH]; [reflexivity|]. unfold vsub in *. rewrite map2_cons, dot_cons, <- IH. ring.
Qed.

Lemma angle_def_torch x1 y1 r1 x2 y2 r2 :
  torch_angle RO atan (rvals (x1 :: y1 :: r1)) (rvals (x2 :: y2 :: r2)) = xy_angle atan (x1 :: y1 :: r1) (x2 :: y2 :: r2).
Proof.
  unfold torch_angle, torch_angle_with. rewrite marith_vals. rewrite !map2_cons. cbn [rvals map].
  unfold m_div, m_arith, fix_nan, zero_filled. cbn [fst snd andb]. rewrite nan_to_zero_R. reflexivity.
Qed.
Lemma angle_def_tf x1 y1 r1 x2 y2 r2 : x2 <> x1 ->
  tf_angle RO atan (x1 :: y1 :: r1) (x2 :: y2 :: r2) = xy_angle atan (x1 :: y1 :: r1) (x2 :: y2 :: r2).
Proof.
  intros H. unfold tf_angle. rewrite !map2_cons. unfold div_no_nan. cbn [eqb RO zero sub div].
  rewrite (proj2 (Reqb_false _ _)) by lra. reflexivity.
Qed.
Lemma xy_angle_direction x1 y1 r1 x2 y2 r2 :
  (forall x, - PI / 2 < atan x < PI / 2) -> (forall x, tan (atan x) = x) -> x2 <> x1 ->
  let t := xy_angle atan (x1 :: y1 :: r1) (x2 :: y2 :: r2) in
  - PI / 2 < t < PI / 2 /\ (y2 - y1) * cos t = (x2 - x1) * sin t.
Proof.
  intros atan_bound tan_atan H t. unfold t, xy_angle. set (s := (y2 - y1) / (x2 - x1)).
  pose proof (atan_bound s) as Hb. split; [lra|].
  assert (Hc : 0 < cos (atan s)) by (apply cos_gt_0; lra).
  pose proof (tan_atan s) as Ht. unfold tan in Ht.
  set (S := sin (atan s)) in *. set (C := cos (atan s)) in *.
  assert (Hsin : S = s * C) by (rewrite <- Ht; field; lra).
  rewrite Hsin. unfold s. field. lra.
Qed.

Lemma vnorm_vals (v : vec) : torch_vnorm RO (rvals v) = rvals (map (fun x => x / norm v) v).
Proof.
  unfold torch_vnorm. rewrite mun_vals, msum_vals. unfold m_un. cbn [fst snd]. rewrite sum_sq_dot.
  unfold vals. rewrite !map_map. apply map_ext. intros x. reflexivity.
Qed.
Lemma tf_vnorm_eq (v : vec) : norm v <> 0 -> tf_vnorm RO v = map (fun x => x / norm v) v.
Proof.
  intros H. unfold tf_vnorm. rewrite sum_sq_dot. apply map_ext. intros x. unfold div_no_nan.
  cbn [eqb RO zero div]. fold (norm v). rewrite (proj2 (Reqb_false _ _)) by exact H. reflexivity.
Qed.
Lemma dot_scaled m n : m <> 0 -> n <> 0 -> forall a b : vec,
  dot (map (fun x => x / m) a) (map (fun x => x / n) b) = dot a b / (m * n).
Proof.
  intros Hm Hn. induction a as [|x a IH]; intros [|y b]; cbn [map]; rewrite ?dot_nil_l, ?dot_nil_r; try (field; split; assumption).
  rewrite !dot_cons, IH. field. split; assumption.
Qed.
Lemma inner_angle_def_torch p1 p2 p3 : norm (vsub p1 p2) <> 0 -> norm (vsub p3 p2) <> 0 ->
  torch_inner_angle RO acos (rvals p1) (rvals p2) (rvals p3) = inner_angle acos p1 p2 p3.
Proof.
  intros H1 H2. unfold torch_inner_angle, torch_inner_slopes. rewrite !marith_vals.
  change (map2 (sub RO) p1 p2) with (vsub p1 p2). change (map2 (sub RO) p3 p2) with (vsub p3 p2).
  rewrite !vnorm_vals, marith_vals, msum_vals. unfold m_un, zero_filled. cbn [fst snd]. rewrite nan_to_zero_R.
  unfold inner_angle. f_equal. change (sum RO (map2 (mul RO) ?a ?b)) with (dot a b).
  apply dot_scaled; assumption.
Qed.
Lemma inner_angle_def_tf p1 p2 p3 : norm (vsub p1 p2) <> 0 -> norm (vsub p3 p2) <> 0 ->
  tf_inner_angle RO acos p1 p2 p3 = inner_angle acos p1 p2 p3.
Proof.
  intros H1 H2. unfold tf_inner_angle, tf_inner_slopes. rewrite nan_to_zero_R.
  change (map2 (sub RO) p1 p2) with (vsub p1 p2). change (map2 (sub RO) p3 p2) with (vsub p3 p2).
  rewrite !tf_vnorm_eq by assumption. unfold inner_angle. f_equal.
  change (sum RO (map2 (mul RO) ?a ?b)) with (dot a b). apply dot_scaled; assumption.
Qed.
Lemma inner_angle_cos p1 p2 p3 :
  (forall x, 0 <= acos x <= PI) -> (forall x, -1 <= x <= 1 -> cos (acos x) = x) ->
  length p1 = length p2 -> length p3 = length p2 ->
  norm (vsub p1 p2) <> 0 -> norm (vsub p3 p2) <> 0 ->
  let t := inner_angle acos p1 p2 p3 in
  0 <= t <= PI /\ cos t * (norm (vsub p1 p2) * norm (vsub p3 p2)) = dot (vsub p1 p2) (vsub p3 p2).
Proof.
  intros acos_bound cos_acos L1 L3 H1 H2 t. unfold t, inner_angle.
  set (u := vsub p1 p2) in *. set (w := vsub p3 p2) in *.
  pose proof (vsub_lengths p1 p2 p3 L1 (eq_sym L3) : length u = length w) as Hl.
  pose proof (cauchy_schwarz u w Hl) as CS.
  pose proof (sqrt_sqrt _ (dot_self_nonneg u)) as Su. pose proof (sqrt_sqrt _ (dot_self_nonneg w)) as Sw.
  fold (norm u) in Su. fold (norm w) in Sw.
  pose proof (sqrt_pos (dot u u)) as Pu. pose proof (sqrt_pos (dot w w)) as Pw. fold (norm u) in Pu. fold (norm w) in Pw.
  set (m := norm u) in *. set (n := norm w) in *. set (G := dot u w) in *.
  assert (Hmn : 0 < m * n) by (apply Rmult_lt_0_compat; lra).
  set (q := G / (m * n)).
  assert (Hq : q * q <= 1).
  { unfold q. replace (G / (m * n) * (G / (m * n))) with ((G * G) / ((m * m) * (n * n))) by (field; lra).
    rewrite Su, Sw. apply Rmult_le_reg_r with (dot u u * dot w w); [rewrite <- Su, <- Sw; nra|].
    replace (G * G / (dot u u * dot w w) * (dot u u * dot w w)) with (G * G) by (field; rewrite <- Su, <- Sw; nra). lra. }
  assert (Hb : -1 <= q <= 1) by nra.
  split; [apply acos_bound|]. rewrite cos_acos by exact Hb. unfold q. field. lra.
Qed.

Definition heron (a b c : R) : R :=
  let s := (a + b + c) / 2 in sqrt (s * (s - a) * (s - b) * (s - c)) * 2 / b.
Lemma pld_torch_heron p1 p2 p3 :
  torch_pld RO (rvals p1) (rvals p2) (rvals p3) = heron (euclid p1 p2) (euclid p2 p3) (euclid p1 p3).
Proof.
  unfold torch_pld, torch_pld_m. rewrite !dist_m_vals. generalize (euclid p1 p2), (euclid p2 p3), (euclid p1 p3). intros a b c.
  unfold zero_filled, fix_nan. cbv [m_scalar m_arith m_un fst snd andb]. apply nan_to_zero_R.
Qed.
Lemma pld_tf_heron p1 p2 p3 : euclid p2 p3 <> 0 ->
  tf_pld RO p1 p2 p3 = heron (euclid p1 p2) (euclid p2 p3) (euclid p1 p3).
Proof.
  intros H. unfold tf_pld. rewrite !distance_def_tf. unfold div_no_nan. cbn [eqb RO zero]. rewrite (proj2 (Reqb_false _ _)) by exact H. reflexivity.
Qed.
Lemma heron_core a b c A B G : a * a = A -> b * b = B -> c * c = A + B - 2 * G ->
  (a + b + c) / 2 * ((a + b + c) / 2 - a) * ((a + b + c) / 2 - b) * ((a + b + c) / 2 - c) = (A * B - G * G) / 4.
Proof.
  intros Ha Hb Hc.
  replace ((a + b + c) / 2 * ((a + b + c) / 2 - a) * ((a + b + c) / 2 - b) * ((a + b + c) / 2 - c))
    with ((4 * (a * a) * (b * b) - ((a * a) + (b * b) - (c * c)) * ((a * a) + (b * b) - (c * c))) / 16) by field.
  rewrite Ha, Hb, Hc. field.
Qed.
Lemma heron_geom p1 p2 p3 : length p1 = length p2 -> length p2 = length p3 -> p2 <> p3 ->
  heron (euclid p1 p2) (euclid p2 p3) (euclid p1 p3) = point_line_distance p1 p2 p3.
Proof.
  intros L1 L2 Hne. unfold point_line_distance, foot_param, norm at 1.
  set (u := vsub p1 p2). set (w := vsub p3 p2).
  pose proof (vsub_lengths p1 p2 p3 L1 L2 : length u = length w) as Hl.
  set (A := dot u u). set (B := dot w w). set (G := dot u w).
  pose proof (dot_self_nonneg u) as HA. fold A in HA. pose proof (dot_self_nonneg w) as HB. fold B in HB.
  pose proof (vsub_dot_nonzero p2 p3 L2 Hne : B <> 0) as HBne.
  assert (Ha : euclid p1 p2 * euclid p1 p2 = A) by apply euclid_sqr.
  assert (Hb : euclid p2 p3 * euclid p2 p3 = B) by (rewrite euclid_sqr, vsub_swap_dot; reflexivity).
  assert (Hc : euclid p1 p3 * euclid p1 p3 = A + B - 2 * G).
  { rewrite euclid_sqr, (vsub_via p1 p2 p3 L1 L2). fold u w. apply dot_vsub. exact Hl. }
  pose proof (euclid_nonneg p2 p3) as Pb.
  assert (Hbpos : 0 < euclid p2 p3) by (destruct Pb as [P|E]; [exact P|exfalso; rewrite <- E in Hb; lra]).
  pose proof (cauchy_schwarz u w Hl) as CS. fold A B G in CS.
  unfold heron. rewrite (heron_core _ _ _ A B G Ha Hb Hc).
  rewrite (dot_axpy _ u w Hl). fold A B G.
  symmetry. apply sqrt_lem_1.
  - replace (A - 2 * (G / B) * G + G / B * (G / B) * B) with ((A * B - G * G) / B) by (field; exact HBne).
    apply Rmult_le_pos; [lra|]. left. apply Rinv_0_lt_compat. lra.
  - apply Rmult_le_pos; [apply Rmult_le_pos; [apply sqrt_pos|lra]|]. left. apply Rinv_0_lt_compat. exact Hbpos.
  - set (e := euclid p2 p3) in *.
    replace (sqrt ((A * B - G * G) / 4) * 2 / e * (sqrt ((A * B - G * G) / 4) * 2 / e))
      with (sqrt ((A * B - G * G) / 4) * sqrt ((A * B - G * G) / 4) * 4 / (e * e)) by (field; lra).
    rewrite sqrt_sqrt by lra. rewrite Hb. field. exact HBne.
Qed.
Lemma heron_is_point_line_distance_torch p1 p2 p3 : length p1 = length p2 -> length p2 = length p3 -> p2 <> p3 ->
  torch_pld RO (rvals p1) (rvals p2) (rvals p3) = point_line_distance p1 p2 p3.
Proof. intros. rewrite pld_torch_heron. apply heron_geom; assumption. Qed.
Lemma heron_is_point_line_distance_tf p1 p2 p3 : length p1 = length p2 -> length p2 = length p3 -> p2 <> p3 ->
  tf_pld RO p1 p2 p3 = point_line_distance p1 p2 p3.
Proof.
  intros L1 L2 Hne. rewrite pld_tf_heron; [apply heron_geom; assumption|].
  intros E. apply Hne. apply euclid_zero_iff; assumption.
Qed.
Lemma pld_is_minimum p1 p2 p3 t : length p1 = length p2 -> length p2 = length p3 -> p2 <> p3 ->
  point_line_distance p1 p2 p3 <= dist_to_line_point t p1 p2 p3.
Proof.
  intros L1 L2 Hne. unfold point_line_distance, dist_to_line_point, foot_param, norm.
  set (u := vsub p1 p2). set (w := vsub p3 p2).
  pose proof (vsub_lengths p1 p2 p3 L1 L2 : length u = length w) as Hl.
  pose proof (vsub_dot_nonzero p2 p3 L2 Hne : dot w w <> 0) as HBne.
  pose proof (dot_self_nonneg w) as HB.
  apply sqrt_le_1; try apply dot_self_nonneg. rewrite !(dot_axpy _ u w Hl).
  set (A := dot u u) in *. set (B := dot w w) in *. set (G := dot u w) in *.
  assert (E : A - 2 * t * G + t * t * B - (A - 2 * (G / B) * G + G / B * (G / B) * B) = B * ((t - G / B) * (t - G / B))) by (field; exact HBne).
  pose proof (Rle_0_sqr (t - G / B)) as Hs. unfold Rsqr in Hs.
  assert (0 <= B * ((t - G / B) * (t - G / B))) by (apply Rmult_le_pos; lra). lra.
Qed.
Lemma pld_perpendicular p1 p2 p3 : length p1 = length p2 -> length p2 = length p3 -> p2 <> p3 ->
  dot (vaxpy (foot_param p1 p2 p3) (vsub p1 p2) (vsub p3 p2)) (vsub p3 p2) = 0.
Proof.
  intros L1 L2 Hne. unfold foot_param. set (u := vsub p1 p2). set (w := vsub p3 p2).
  pose proof (vsub_lengths p1 p2 p3 L1 L2 : length u = length w) as Hl.
  pose proof (vsub_dot_nonzero p2 p3 L2 Hne : dot w w <> 0) as HBne.
  rewrite (dot_axpy_w _ u w Hl). field. exact HBne.
Qed.

Lemma cross_distance a b : torch_distance RO (rvals a) (rvals b) = tf_distance RO a b /\
  (a <> [] -> b <> [] -> np_distance RO (rvals a) (rvals b) = tf_distance RO a b).
Proof. split; [now rewrite distance_def_torch, distance_def_tf|]. intros. now rewrite distance_def_np, distance_def_tf. Qed.
Lemma cross_inner_angle p1 p2 p3 : norm (vsub p1 p2) <> 0 -> norm (vsub p3 p2) <> 0 ->
  torch_inner_angle RO acos (rvals p1) (rvals p2) (rvals p3) = tf_inner_angle RO acos p1 p2 p3.
Proof. intros. now rewrite inner_angle_def_torch, inner_angle_def_tf. Qed.
Lemma cross_pld p1 p2 p3 : euclid p2 p3 <> 0 ->
  torch_pld RO (rvals p1) (rvals p2) (rvals p3) = tf_pld RO p1 p2 p3.
Proof. intros. now rewrite pld_torch_heron, pld_tf_heron. Qed.
End WithTranscendentals.
