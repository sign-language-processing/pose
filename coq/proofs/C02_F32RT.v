(* C02: widening a float32 word to binary64 and rounding it back is the identity on every word that is not a
   NaN (and gives the canonical quiet NaN on NaNs).  Proved from the definitions of base/F32.v and Coq's SpecFloat
   for ALL 2^32 words (no sweep): binary_round is exact on a value that already fits the target format. *)
From Coq Require Import ZArith NArith PArith List Lia ZifyBool ZifyN ZifyNat Bool SpecFloat.
Require Import F32 SpecFloatLemmas.
Ltac Zify.zify_post_hook ::= Z.div_mod_to_equations.
Open Scope N_scope.
Lemma digits_53_bounds M : digits2_pos M = 53%positive -> 4503599627370496 <= N.pos M < 9007199254740992.
Proof.
  intros H. split.
  - destruct (N.lt_ge_cases (N.pos M) 4503599627370496) as [Hlt|]; [|assumption]. exfalso.
    pose proof (digits_lt_pow M 52) as HL. rewrite H in HL. change (2 ^ Z.of_nat 52)%Z with 4503599627370496%Z in HL. lia.
  - destruct (N.lt_ge_cases (N.pos M) 9007199254740992) as [|Hge]; [assumption|]. exfalso.
    pose proof (digits_ge_pow M 53) as HL. rewrite H in HL. change (2 ^ Z.of_nat 53)%Z with 9007199254740992%Z in HL. lia.
Qed.
(* binary64 words of normal numbers decode to the number they encode *)
Lemma b64_rt s M E : 4503599627370496 <= N.pos M < 9007199254740992 -> (-1074 <= E <= 971)%Z ->
  sf_of_b64 (b64_of_sf (S754_finite s M E)) = S754_finite s M E.
Proof.
  intros HM HE. unfold b64_of_sf. destruct (N.ltb_spec (N.pos M) 4503599627370496) as [|_]; [lia|].
  set (w := sbit s 9223372036854775808 + Z.to_N (E + 1075) * 4503599627370496 + (N.pos M - 4503599627370496)).
  assert (Hs : N.testbit w 63 = s).
  { rewrite N.testbit_eqb. change (2 ^ 63) with 9223372036854775808. subst w. destruct s; cbn [sbit]; lia. }
  assert (He : (w / 4503599627370496) mod 2048 = Z.to_N (E + 1075)) by (subst w; destruct s; cbn [sbit]; lia).
  assert (Hm : w mod 4503599627370496 = N.pos M - 4503599627370496) by (subst w; destruct s; cbn [sbit]; lia).
  unfold sf_of_b64. cbv zeta. rewrite Hs, He, Hm.
  destruct (N.eqb_spec (Z.to_N (E + 1075)) 0) as [|_]; [lia|].
  destruct (N.eqb_spec (Z.to_N (E + 1075)) 2047) as [|_]; [lia|].
  replace (N.pos M - 4503599627370496 + 4503599627370496) with (N.pos M) by lia.
  f_equal. lia.
Qed.

Lemma bounded32_inv m e : bounded 24 128 m e = true ->
  (Z.pos (digits2_pos m) <= 24 /\ -149 <= e <= 104 /\ (Z.pos (digits2_pos m) = 24 \/ e = -149))%Z.
Proof. intros H. apply bounded_inv in H. unfold fexp, emin in H. lia. Qed.

(* a finite binary32 value: widened to binary64, stored as a word, loaded, rounded back to binary32 *)
Lemma finite_widen_narrow s m e : bounded 24 128 m e = true ->
  exists M E, sf_of_b64 (b64_of_sf (binary_round 53 1024 s m e)) = S754_finite s M E /\
              round32 (S754_finite s M E) = S754_finite s m e.
Proof.
  intros H. destruct (bounded32_inv m e H) as [Hd [He Hc]].
  set (j := (53 - digits2_pos m)%positive).
  assert (Hj : Zpos j = (53 - Zpos (digits2_pos m))%Z) by lia.
  assert (Hdj : digits2_pos (shift_pos j m) = 53%positive) by (rewrite digits_shift; lia).
  assert (HB : bounded 53 1024 (shift_pos j m) (e - Zpos j) = true).
  { apply bounded_intro; [|lia]. rewrite Hdj. unfold fexp, emin. lia. }
  exists (shift_pos j m), (e - Zpos j)%Z. split.
  - rewrite (binary_round_exact_l 53 1024 s m e j HB). apply b64_rt; [now apply digits_53_bounds|lia].
  - cbn [round32]. now apply binary_round_exact_r.
Qed.

Lemma word_fields w : w < 4294967296 ->
  w = sbit (N.testbit w 31) 2147483648 + (w / 8388608) mod 256 * 8388608 + w mod 8388608.
Proof. intros H. rewrite N.testbit_eqb. change (2 ^ 31) with 2147483648.
  destruct (N.eqb_spec ((w / 2147483648) mod 2) 1); cbn [sbit]; lia. Qed.

(* what narrowing the widened value [x] of the word [w] must give: astype returns [w] (NaNs made canonical), and
   struct.pack does not raise OverflowError (so it returns the same word) *)
Definition wn_spec (w : N) (x : spec_float) : Prop :=
  w32 (b32_of_sf (round32 x)) = canon_nan32 w /\ is_finite_sf x && negb (is_finite_sf (round32 x)) = false.

Lemma finite_case s m e w : bounded 24 128 m e = true -> w < 4294967296 -> b32_of_sf (S754_finite s m e) = w ->
  is_nan32 w = false -> wn_spec w (sf_of_b64 (b64_of_sf (binary_round 53 1024 s m e))).
Proof.
  intros HB Hw Hb Hn. destruct (finite_widen_narrow s m e HB) as [M [E [H1 H2]]]. rewrite H1. unfold wn_spec. rewrite H2.
  split; [|reflexivity]. rewrite Hb. unfold canon_nan32. rewrite Hn. unfold w32. now apply N.mod_small.
Qed.

(* every 32-bit word: widen (f32_to_f64), load the binary64 word, round to binary32, store *)
Lemma widen_narrow w : w < 4294967296 -> wn_spec w (sf_of_b64 (f32_to_f64 w)).
Proof.
  intros Hw. pose proof (word_fields w Hw) as HW.
  unfold f32_to_f64, sf_of_b32. cbv zeta.
  set (s := N.testbit w 31) in *. set (eb := (w / 8388608) mod 256) in *. set (mb := w mod 8388608) in *.
  assert (Heb : eb < 256) by (subst eb; lia). assert (Hmb : mb < 8388608) by (subst mb; lia).
  assert (Hnan : is_nan32 w = (eb =? 255) && negb (mb =? 0)).
  { unfold is_nan32. rewrite HW at 1. destruct s; cbn [sbit]; lia. }
  clearbody s eb mb.
  destruct (N.eqb_spec eb 0) as [He0|He0].
  - destruct mb as [|p] eqn:Emb.
    + (* zeros *) subst eb. cbn [N.mul N.add] in HW. rewrite N.add_0_r in HW. subst w. destruct s; vm_compute; auto.
    + (* subnormal numbers *)
      apply finite_case; [|exact Hw| |rewrite Hnan; subst eb; reflexivity].
      * apply bounded_intro; [|lia]. pose proof (digits_lt_pow p 24) as HL.
        change (2 ^ Z.of_nat 24)%Z with 16777216%Z in HL. unfold fexp, emin. lia.
      * unfold b32_of_sf. destruct (N.ltb_spec (N.pos p) 8388608) as [_|]; [|lia]. rewrite HW. subst eb. lia.
  - destruct (N.eqb_spec eb 255) as [He1|He1].
    + destruct mb as [|p] eqn:Emb.
      * (* infinities *) subst eb. cbn [N.mul N.add] in HW. rewrite N.add_0_r in HW. subst w. destruct s; vm_compute; auto.
      * (* NaNs *) unfold wn_spec, canon_nan32. rewrite Hnan. subst eb. cbn [N.eqb Pos.eqb negb andb]. vm_compute. auto.
    + (* normal numbers *)
      destruct (mb + 8388608) as [|p] eqn:Ep; [lia|].
      apply finite_case; [|exact Hw| |rewrite Hnan; destruct (N.eqb_spec eb 255); [contradiction|reflexivity]].
      * pose proof (digits_lt_pow p 24) as HL. pose proof (digits_ge_pow p 23) as HG.
        change (2 ^ Z.of_nat 24)%Z with 16777216%Z in HL. change (2 ^ Z.of_nat 23)%Z with 8388608%Z in HG.
        apply bounded_intro; [|lia]. unfold fexp, emin. lia.
      * unfold b32_of_sf. destruct (N.ltb_spec (N.pos p) 8388608) as [|_]; [lia|]. rewrite HW. lia.
Qed.

(* the word of a finite binary32 value is a 32-bit word with exponent field below 255 *)
Lemma finite_word s m e : bounded 24 128 m e = true ->
  b32_of_sf (S754_finite s m e) < 4294967296 /\ is_nan32 (b32_of_sf (S754_finite s m e)) = false.
Proof.
  intros H. destruct (bounded32_inv m e H) as [Hd [He _]].
  pose proof (digits_ge_pow m 24) as HG. change (2 ^ Z.of_nat 24)%Z with 16777216%Z in HG.
  unfold is_nan32, b32_of_sf. destruct (N.ltb_spec (N.pos m) 8388608); destruct s; cbn [sbit]; lia.
Qed.
(* an integer below 2^24 is a binary32 value: binary_normalize only shifts it left *)
Lemma normalize_small (p : positive) : (Zpos p < 16777216)%Z ->
  exists m e, binary_normalize 24 128 (Zpos p) 0 false = S754_finite false m e /\ bounded 24 128 m e = true.
Proof.
  intros Hp. pose proof (digits_lt_pow p 24 Hp) as HL. cbn [binary_normalize].
  destruct (Pos.eq_dec (digits2_pos p) 24) as [E|NE].
  - assert (HB : bounded 24 128 p 0 = true) by (apply bounded_intro; [rewrite E; reflexivity|lia]).
    exists p, 0%Z. split; [|exact HB]. unfold binary_round. rewrite (proj1 (bounded_inv _ _ _ _ HB)).
    cbn [shl_align Z.sub Z.opp]. now apply round_aux_exact.
  - set (j := (24 - digits2_pos p)%positive).
    assert (HB : bounded 24 128 (shift_pos j p) (0 - Zpos j) = true).
    { apply bounded_intro; [|lia]. rewrite digits_shift. unfold fexp, emin. lia. }
    exists (shift_pos j p), (0 - Zpos j)%Z. split; [now apply binary_round_exact_l|exact HB].
Qed.

Theorem f32_widen_narrow w : w < 4294967296 -> f64_to_f32 (f32_to_f64 w) = canon_nan32 w.
Proof. intros H. exact (proj1 (widen_narrow w H)). Qed.
Theorem f32_widen_pack w : w < 4294967296 -> pack_f32 (f32_to_f64 w) = Some (canon_nan32 w).
Proof. intros H. destruct (widen_narrow w H) as [H1 H2]. unfold pack_f32. cbv zeta. rewrite H2. now rewrite H1. Qed.
Corollary f32_widen_narrow_id w : w < 4294967296 -> is_nan32 w = false -> f64_to_f32 (f32_to_f64 w) = w.
Proof. intros H Hn. rewrite (f32_widen_narrow w H). unfold canon_nan32. now rewrite Hn. Qed.
