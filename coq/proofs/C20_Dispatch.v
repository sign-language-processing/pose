(* C20 - type dispatch and recursion: tensors reach pad_tensors, dictionaries (nested to any depth) and tuples
   are collated per field. *)
From Coq Require Import List ZArith Arith Bool Lia.
Require Import Result ResultFacts Tensor C20_Collate C20_Spec C20_Pad C20_Rows.
Import ListNotations.

Lemma Forall2_rmapM {A B} (f : A -> result B) l l' : Forall2 (fun x y => f x = Ok y) l l' -> rmapM f l = Ok l'.
Proof. induction 1 as [|a b l l' Hab _ IH]; cbn [rmapM]; [reflexivity|]. now rewrite Hab, IH. Qed.
Lemma Forall2_join {A B C} (R : A -> B -> Prop) (S : A -> C -> Prop) (T : B -> C -> Prop) l :
  (forall x y z, R x y -> S x z -> T y z) -> forall a b, Forall2 R l a -> Forall2 S l b -> Forall2 T a b.
Proof.
  intros H. induction l as [|x l IH]; intros a b Ha Hb; inversion Ha; inversion Hb; subst; constructor.
  - eapply H; eassumption.
  - now apply IH.
Qed.

Theorem collate_field_tensors d rest pv xs :
  rmapM as_tl (d :: rest) = Ok xs -> collate_t d rest pv = pad_tensors xs pv.
Proof.
  intros H. destruct d; try (cbn [rmapM as_tl rbind] in H; discriminate H); cbn [collate_t]; now rewrite H.
Qed.

Lemma fields_assoc f rest kvs : forall os, collate_fields f rest kvs = Ok os ->
  map fst os = map fst kvs /\
  forall k v, assoc k kvs = Some v ->
    exists vs o, rmapM (field k) rest = Ok vs /\ f v vs = Ok o /\ assoc k os = Some o.
Proof.
  induction kvs as [|[k0 v0] kvs IH]; intros os H; cbn [collate_fields] in H.
  - inversion H. split; [reflexivity|]. intros k v Hk. discriminate Hk.
  - destruct (rmapM (field k0) rest) as [vs0|e] eqn:E0; cbn [rbind] in H; [|discriminate].
    destruct (f v0 vs0) as [o0|e] eqn:E1; cbn [rbind] in H; [|discriminate].
    destruct (collate_fields f rest kvs) as [os'|e] eqn:E2; cbn [rbind] in H; [|discriminate].
    inversion H; subst. destruct (IH os' eq_refl) as [IHk IHa]. split.
    + cbn [map fst]. now rewrite IHk.
    + intros k v Hk. cbn [assoc] in Hk |- *. destruct (list_eq_dec Z.eq_dec k k0) as [->|Hne].
      * inversion Hk; subst. exists vs0, o0. repeat split; assumption.
      * now apply IHa.
Qed.

Theorem dict_fields kvs rest pv o :
  collate_t (VDict kvs) rest pv = Ok o ->
  exists os, o = ODict os /\ map fst os = map fst kvs /\
    forall k v, assoc k kvs = Some v ->
      exists vs ok, rmapM (field k) rest = Ok vs /\ collate_t v vs 0%Z = Ok ok /\ assoc k os = Some ok.
Proof.
  cbn [collate_t]. intros H.
  destruct (collate_fields (fun v vs => collate_t v vs 0%Z) rest kvs) as [os|e] eqn:E; cbn [rmap] in H; [|discriminate].
  inversion H; subst. exists os. split; [reflexivity|]. exact (fields_assoc _ _ _ _ E).
Qed.

Theorem nested_dicts p : forall d rest o leaf leaves,
  p <> [] -> collate_t d rest 0%Z = Ok o ->
  get_path p d = Some leaf -> Forall2 (fun b l => get_path p b = Some l) rest leaves ->
  exists o', out_path p o = Some o' /\ collate_t leaf leaves 0%Z = Ok o'.
Proof.
  induction p as [|k p IH]; intros d rest o leaf leaves Hne Hc Hd Hr; [congruence|].
  cbn [get_path] in Hd. destruct d as [| | | |kvs| |]; try discriminate Hd.
  destruct (assoc k kvs) as [v|] eqn:Ek; [|discriminate Hd].
  destruct (dict_fields _ _ _ _ Hc) as (os & -> & _ & Hf).
  destruct (Hf k v Ek) as (vs & ok & Hvs & Hok & Hos).
  cbn [out_path]. rewrite Hos.
  (* the one real step: the values [vs] under key k, one per example, have the leaves at the rest of the path *)
  assert (Hleaves : Forall2 (fun x l => get_path p x = Some l) vs leaves).
  { apply rmapM_Forall2 in Hvs. refine (Forall2_join _ _ _ rest _ vs leaves Hvs Hr).
    intros b x l Hb Hl. cbn [get_path] in Hl. unfold field in Hb.
    destruct b as [| | | |kb| |]; try discriminate Hb. destruct (assoc k kb); [|discriminate Hb]. now inversion Hb; subst. }
  destruct p as [|k' p'].
  - cbn [get_path out_path] in *. inversion Hd; subst. exists ok. split; [reflexivity|].
    assert (vs = leaves) as ->; [|exact Hok].
    clear -Hleaves. induction Hleaves as [|x l vs leaves Hx Hrest IHl]; [reflexivity|]. f_equal; [now inversion Hx|exact IHl].
  - apply (IH v vs ok leaf leaves); [congruence|exact Hok|exact Hd|exact Hleaves].
Qed.

(* zero_pad_collator on dictionaries is the dictionary case of collate_tensors with the default pad value *)
Lemma zpc_dict kvs rest : zero_pad_collator (VDict kvs :: rest) = collate_t (VDict kvs) rest 0%Z.
Proof. reflexivity. Qed.

Lemma good_batch_zero masked tail xs : xs <> [] -> Forall (good masked tail) xs -> good_batch masked tail 0%Z xs.
Proof. intros Hne HG. repeat split; [exact Hne|exact HG|]. apply Forall_forall. intros x _. apply pad_zero. Qed.

(* end to end: a tensor field at any depth of a batch of dictionaries is collated to exactly [spec_out] *)
Theorem zpc_nested_tensor_field p d rest o leaf leaves xs masked tail :
  p <> [] -> zero_pad_collator (d :: rest) = Ok o ->
  get_path p d = Some leaf -> Forall2 (fun b l => get_path p b = Some l) rest leaves ->
  rmapM as_tl (leaf :: leaves) = Ok xs -> Forall (good masked tail) xs ->
  out_path p o = Some (spec_out masked tail 0%Z xs).
Proof.
  intros Hne Hz Hd Hr Hxs HG.
  assert (Hc : collate_t d rest 0%Z = Ok o).
  { destruct p as [|k p]; [congruence|]. cbn [get_path] in Hd. destruct d; try discriminate Hd. exact Hz. }
  destruct (nested_dicts p d rest o leaf leaves Hne Hc Hd Hr) as (o' & Ho' & Hl).
  rewrite Ho'. f_equal. rewrite (collate_field_tensors _ _ _ _ Hxs) in Hl.
  apply (pad_tensors_spec masked tail 0%Z xs o'); [|exact Hl].
  apply good_batch_zero; [|exact HG]. intros ->. destruct leaf; cbn [rmapM as_tl rbind] in Hxs; try discriminate Hxs;
    destruct (rmapM as_tl leaves); cbn [rbind] in Hxs; discriminate Hxs.
Qed.

Lemma tuple_go_spec rest ds : forall i0 os, tuple_go i0 ds rest = Ok os ->
  length os = length ds /\
  forall i di, nth_error ds i = Some di ->
    exists vs oi, rmapM (tuple_item (i0 + i)) rest = Ok vs /\ collate_t di vs 0%Z = Ok oi /\ nth_error os i = Some oi.
Proof.
  induction ds as [|d0 ds IH]; intros i0 os H; cbn [tuple_go] in H.
  - inversion H. split; [reflexivity|]. intros i di Hi. destruct i; discriminate Hi.
  - destruct (rmapM (tuple_item i0) rest) as [vs0|e] eqn:E0; cbn [rbind] in H; [|discriminate].
    destruct (collate_t d0 vs0 0%Z) as [o0|e] eqn:E1; cbn [rbind] in H; [|discriminate].
    destruct (tuple_go (S i0) ds rest) as [os'|e] eqn:E2; cbn [rbind] in H; [|discriminate].
    inversion H; subst. destruct (IH (S i0) os' E2) as [IHl IHn]. split; [cbn [length]; now rewrite IHl|].
    intros i di Hi. destruct i as [|i]; cbn [nth_error] in Hi |- *.
    + inversion Hi; subst. rewrite Nat.add_0_r. exists vs0, o0. repeat split; assumption.
    + destruct (IHn i di Hi) as (vs & oi & Hv & Hc & Hn). exists vs, oi. rewrite <- Nat.add_succ_comm. repeat split; assumption.
Qed.
