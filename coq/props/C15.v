(* C15 - spatial transforms obey their algebra and extents are tight (NumPy body).
   Model: model/C15_Spatial.v (generic over Num.ops); theorems over the real-number instance R_ops; vocabulary
   (wf_body, rel3, observes, missing, same_conf_mask, same_observed, is_min, smallest_interval, lin ...) in
   model/C15_Real.v.  Bodies are as the library builds them from arrays or files (wf_body: one mask bit per point,
   confidence 0 => missing); every operation preserves that (the wf_body conjuncts below).  Exact reals: rounding is
   not modelled (DESIGN section 9). *)
From Coq Require Import String Reals ZArith List Bool Lia Lra.
Require Import Result Num RealFacts C15_Spatial C15_Real C15_Run Gen_C15.
Require Import C15_Lemmas C15_Flip C15_Matmul C15_Augment C15_Focus C15_Bbox C15_GenTie C15_Examples.
Import ListNotations.
Local Open Scope R_scope.

(* NumPyPoseBody.__init__ on a plain array: every point of every body built from arrays or read from a file is
   well-formed (all theorems below assume wf_body and re-establish it for their result) *)
Theorem constructor_establishes_wf : forall (xs : list R) (c : R),
  wf_point (List.length xs) (reinit R_ops (@mkP R_ops (map (fun x => (x, false)) xs) c)).
Proof. intros xs c. unfold reinit. cbn [pcs pc]. rsimp. rewrite map_map. cbn [fst snd orb].
  apply wf_point_uniform with (m := Reqb c 0).
  - apply map_length.
  - rewrite map_map. cbn [snd]. apply map_const.
  - apply Reqb_true. Qed.
Print Assumptions constructor_establishes_wf.

(* the flipped axis (Python index rules) is negated on every observed point, all other coordinates, the
   confidences and the missing pattern are unchanged *)
Theorem flip_negates_only_axis : forall D axis (b b' : rframes),
  wf_body D b -> flip R_ops D axis b = Ok b' ->
  exists ax, norm_axis D axis = Some ax /\ (ax < D)%nat /\
    rel3 (fun p p' => same_conf_mask p p' /\
                      forall k x, observes p k x -> observes p' k (if Nat.eqb k ax then - x else x)) b b'.
Proof. exact C15_Flip.flip_negates_only_axis. Qed.
Print Assumptions flip_negates_only_axis.

Theorem flip_involutive : forall D axis (b b' : rframes),
  wf_body D b -> flip R_ops D axis b = Ok b' -> flip R_ops D axis b' = Ok b.
Proof. exact C15_Flip.flip_involutive. Qed.
Print Assumptions flip_involutive.

Theorem flip_keeps_conf_mask : forall D axis (b b' : rframes),
  wf_body D b -> flip R_ops D axis b = Ok b' -> rel3 same_conf_mask b b' /\ wf_body D b'.
Proof. intros D axis b b' Hwf Hf. apply flip_ok_iff in Hf as [ax [_ ->]]. split.
  - apply (all3_rel3_map3 (wf_point D)); [exact Hwf|]. intros p Hp. split; [reflexivity | now apply flip_masks].
  - apply (all3_map3 (wf_point D)); [exact Hwf|]. intros p. apply flip_point_wf. Qed.
Print Assumptions flip_keeps_conf_mask.

Example flip_hypotheses_satisfiable : wf_body 3 ex_body /\ exists b', flip R_ops 3 (-2)%Z ex_body = Ok b'.
Proof. split; [exact ex_wf|]. apply flip_defined. lia. Qed.
Print Assumptions flip_hypotheses_satisfiable.

(* (a X + b Y) M = a (X M) + b (Y M) for bodies with the same missing pattern, any D x K matrix; equality of whole bodies *)
Theorem matmul_linear : forall D K M a b (X Y : rframes),
  wf_body D X -> wf_body D Y -> rel3 same_conf_mask X Y -> matrix_ok R_ops D K M = true ->
  exists RX RY, matmul R_ops D D K M X = Ok RX /\ matmul R_ops D D K M Y = Ok RY /\
                matmul R_ops D D K M (lin a X b Y) = Ok (lin a RX b RY).
Proof. exact C15_Matmul.matmul_linear. Qed.
Print Assumptions matmul_linear.

Theorem matmul_identity : forall D (b : rframes),
  wf_body D b -> exists b', matmul R_ops D D D (eye R_ops D) b = Ok b' /\ rel3 same_observed b b'.
Proof. exact C15_Matmul.matmul_identity. Qed.
Print Assumptions matmul_identity.

(* any matrix (also non-square, R rows): confidences unchanged, a point is missing afterwards iff it was before *)
Theorem matmul_keeps_conf_mask : forall D R' K M (b b' : rframes),
  wf_body D b -> matmul R_ops D R' K M b = Ok b' ->
  rel3 (fun p p' => pc p' = pc p /\ masks p' = repeat (missing p) K) b b' /\ wf_body K b'.
Proof. exact C15_Matmul.matmul_keeps_conf_mask. Qed.
Print Assumptions matmul_keeps_conf_mask.

Example matmul_hypotheses_satisfiable :
  wf_body 3 ex_body /\ wf_body 3 ex_body2 /\ rel3 same_conf_mask ex_body ex_body2 /\ matrix_ok R_ops 3 2 ex_matrix = true /\
  exists b', matmul R_ops 3 3 2 ex_matrix ex_body = Ok b'.
Proof. split; [exact ex_wf|]. split; [exact ex_wf2|]. split; [exact ex_same|]. split; [reflexivity|].
  rewrite matmul_ok by reflexivity. eauto. Qed.
Print Assumptions matmul_hypotheses_satisfiable.

(* for every choice of deviations and every draw there is ONE 2x2 matrix (a00 a01; a10 a11), independent of the
   pose, such that every observed point has its first two coordinates mapped by it and the others unchanged *)
Theorem augment_common_map : forall (rot shear scale : R) (d : draws R_ops),
  exists a00 a01 a10 a11 : R, forall D (b : rframes), (2 <= D)%nat -> wf_body D b ->
  exists b', augment2d R_ops D rot shear scale d b = Ok b' /\
    rel3 (fun p p' => same_conf_mask p p' /\
                      (missing p = false -> coords p' = aug_coords a00 a01 a10 a11 (coords p))) b b'.
Proof. exact C15_Augment.augment_common_map. Qed.
Print Assumptions augment_common_map.

(* ... and that matrix is shear . rotation . scale when all three deviations are positive *)
Theorem augment_matrix_closed_form : forall rot shear scale g c s g1 : R,
  0 < rot -> 0 < shear -> 0 < scale ->
  aug_matrix R_ops rot shear scale (@mkD R_ops g c s g1) =
  [[c + g * s; (- s + g * c) * (1 + g1)]; [s; c * (1 + g1)]].
Proof. exact C15_Augment.aug_matrix_all_positive. Qed.
Print Assumptions augment_matrix_closed_form.

Theorem augment_zero_std_identity : forall D (rot shear scale : R) d (b : rframes),
  rot <= 0 -> shear <= 0 -> scale <= 0 -> (2 <= D)%nat -> wf_body D b ->
  exists b', augment2d R_ops D rot shear scale d b = Ok b' /\ rel3 same_observed b b'.
Proof. exact C15_Augment.augment_zero_std_identity. Qed.
Print Assumptions augment_zero_std_identity.

Theorem augment_keeps_conf_mask : forall D (rot shear scale : R) d (b b' : rframes),
  wf_body D b -> augment2d R_ops D rot shear scale d b = Ok b' -> rel3 same_conf_mask b b' /\ wf_body D b'.
Proof. intros D rot shear scale d b b' Hwf H. unfold augment2d in H. destruct (Nat.ltb D 2); [discriminate|].
  destruct (matmul_keeps_conf_mask D D D _ b b' Hwf H) as [Hr Hw]. split; [|exact Hw].
  apply (rel3_impl_all3 _ _ _ _ _ _ Hwf Hw Hr). intros p q Hp _ [Hc Hm]. split; [exact Hc|].
  rewrite Hm. symmetry. now apply wf_masks. Qed.
Print Assumptions augment_keeps_conf_mask.

Example augment_hypotheses_satisfiable : (2 <= 3)%nat /\ wf_body 3 ex_body /\ (0 <= 0 /\ -1 <= 0) /\
  exists b', augment2d R_ops 3 (1/5) (1/5) (1/5) (@mkD R_ops (1/10) 1 0 (-1/4)) ex_body = Ok b'.
Proof. split; [lia|]. split; [exact ex_wf|]. split; [lra|]. rewrite augment_as_matmul by lia. eauto. Qed.
Print Assumptions augment_hypotheses_satisfiable.

(* focus is one translation, by the smallest observed coordinate of each axis; confidences and masks unchanged *)
Theorem focus_is_translation : forall D (b b' : rframes) dims,
  wf_body D b -> focus R_ops R_ceil D b = Ok (b', dims) ->
  exists mins : list R, length mins = D /\
    (forall d m, nth_error mins d = Some m -> is_min m (obs_axis R_ops d (all_points R_ops b))) /\
    rel3 (fun p p' => same_conf_mask p p' /\
                      forall k x, observes p k x -> exists m, nth_error mins k = Some m /\ observes p' k (x - m)) b b' /\
    wf_body D b'.
Proof. exact C15_Focus.focus_is_translation. Qed.
Print Assumptions focus_is_translation.

Theorem focus_min_zero : forall D (b b' : rframes) dims,
  wf_body D b -> focus R_ops R_ceil D b = Ok (b', dims) ->
  forall d, (d < D)%nat -> is_min 0 (obs_axis R_ops d (all_points R_ops b')).
Proof. exact C15_Focus.focus_min_zero. Qed.
Print Assumptions focus_min_zero.

(* width, height (and depth for D >= 3; 0 for D = 2) are ceil(max - min) of the observed coordinates of that axis *)
Theorem focus_dims : forall D (b b' : rframes) dims,
  wf_body D b -> focus R_ops R_ceil D b = Ok (b', dims) ->
  (2 <= D)%nat /\ (D = 2%nat -> snd dims = 0%Z) /\
  forall d, (d < D)%nat -> (d < 3)%nat ->
    exists mn mx, is_min mn (obs_axis R_ops d (all_points R_ops b)) /\ is_max mx (obs_axis R_ops d (all_points R_ops b)) /\
                  is_ceil (dim_of dims d) (mx - mn).
Proof. exact C15_Focus.focus_dims. Qed.
Print Assumptions focus_dims.

(* focus succeeds whenever there is something to measure (width and height exist, some point is observed) and
   fails loudly when no point is observed *)
Theorem focus_defined : forall D (b : rframes),
  (2 <= D)%nat -> wf_body D b -> all_missing (all_points R_ops b) = false -> exists r, focus R_ops R_ceil D b = Ok r.
Proof. intros D b HD Hwf Hobs. rewrite (focus_eq D b Hwf Hobs HD). eauto. Qed.
Print Assumptions focus_defined.

Theorem focus_nothing_observed : forall D (b : rframes),
  wf_body D b -> all_missing (all_points R_ops b) = true -> exists e, focus R_ops R_ceil D b = Err e.
Proof. intros D b Hwf Hm. destruct (focus R_ops R_ceil D b) as [[b' dims]|e] eqn:E; [|eauto].
  destruct (focus_inv D b b' dims Hwf E) as [_ [Hobs _]]. congruence. Qed.
Print Assumptions focus_nothing_observed.

Example focus_hypotheses_satisfiable : wf_body 3 ex_body /\ exists r, focus R_ops R_ceil 3 ex_body = Ok r.
Proof. split; [exact ex_wf|]. apply focus_defined; [lia | exact ex_wf | reflexivity]. Qed.
Print Assumptions focus_hypotheses_satisfiable.

(* per frame and person the output is one (TOP_LEFT, BOTTOM_RIGHT) pair per component, components being the
   consecutive segments of the point list in header order; when the component has an observed point both box
   points are observed with confidence 1 and on every axis [lo, hi] is the smallest interval containing the observed
   coordinates; when it has none (all its points missing, or no points) both are missing with confidence 0 *)
Theorem bbox_tight : forall D N ns (b b' : rframes),
  wf_body D b -> bbox R_ops D N ns b = Ok b' ->
  Forall2 (Forall2 (fun pts pts' =>
    exists boxes : list (rpoint * rpoint),
      pts' = flat_map (fun tb => [fst tb; snd tb]) boxes /\
      Forall2 (fun cpts tb =>
        let tl := fst tb in let br := snd tb in
        wf_point D tl /\ wf_point D br /\
        (all_missing cpts = true -> missing tl = true /\ missing br = true /\ pc tl = 0 /\ pc br = 0) /\
        (all_missing cpts = false -> pc tl = 1 /\ pc br = 1 /\
           forall d, (d < D)%nat -> exists lo hi, observes tl d lo /\ observes br d hi /\
                                                   smallest_interval lo hi (obs_axis R_ops d cpts)))
        (split_comps R_ops ns pts) boxes)) b b' /\
  wf_body D b'.
Proof. exact C15_Bbox.bbox_tight. Qed.
Print Assumptions bbox_tight.

Theorem bbox_components_are_segments : forall ns (pts : list rpoint),
  length (split_comps R_ops ns pts) = length ns /\
  concat (split_comps R_ops ns pts) = firstn (fold_right Nat.add 0%nat ns) pts /\
  ((fold_right Nat.add 0%nat ns <= length pts)%nat -> Forall2 (fun n c => length c = n) ns (split_comps R_ops ns pts)).
Proof. exact (fun ns pts => conj (split_comps_length ns pts) (conj (split_comps_concat ns pts) (split_comps_sizes ns pts))). Qed.
Print Assumptions bbox_components_are_segments.

Theorem bbox_defined : forall D N ns (b : rframes),
  (1 <= D)%nat -> (fold_right Nat.add 0%nat ns <= N)%nat -> exists b', bbox R_ops D N ns b = Ok b'.
Proof. intros D N ns b HD HN. unfold bbox. destruct (Nat.eqb_spec D 0); [lia|]. cbn [orb].
  destruct (Nat.ltb_spec N (fold_right Nat.add 0%nat ns)); [lia | eauto]. Qed.
Print Assumptions bbox_defined.

(* the bbox header names the same components, each with the two box points and one limb between them: its
   point count is that of the bbox body *)
Theorem bbox_header_shape : forall colors comps,
  map hc_name (bbox_header colors comps) = map hc_name comps /\
  map hc_format (bbox_header colors comps) = map hc_format comps /\
  Forall (fun c => hc_points c = C15_Spatial.box_points /\ length (hc_points c) = 2%nat /\ hc_limbs c = [(0, 1)%Z] /\ hc_colors c = colors)
         (bbox_header colors comps) /\
  fold_right Nat.add 0%nat (map (fun c => length (hc_points c)) (bbox_header colors comps)) = (2 * length comps)%nat.
Proof. intros colors comps. unfold bbox_header. rewrite !map_map. cbn [hc_name hc_format hc_points].
  split; [reflexivity|]. split; [reflexivity|]. split.
  - apply Forall_forall. intros c Hc. apply in_map_iff in Hc as [c0 [<- _]]. cbn [hc_points hc_limbs hc_colors]. repeat split; reflexivity.
  - induction comps as [|c comps IH]; cbn [map fold_right length]; [reflexivity|]. rewrite IH. cbn [C15_Spatial.box_points length]. lia. Qed.
Print Assumptions bbox_header_shape.

Example bbox_hypotheses_satisfiable :
  (wf_body 3 ex_body /\ exists b', bbox R_ops 3 3 [2; 1]%nat ex_body = Ok b') /\
  all_missing [ex_p 1 2 3; ex_m 5 6 7] = false /\ all_missing [ex_m (-9) 0 9] = true.
Proof. split; [split; [exact ex_wf | apply bbox_defined; cbn; lia] | split; reflexivity]. Qed.
Print Assumptions bbox_hypotheses_satisfiable.

(* PoseHeader.bbox (pose_header.py) and Pose.bbox (pose.py): two points per component, TOP_LEFT = the minima first,
   one limb between them; name and format copied; the colour is not tied (a constant the property does not depend on) *)
Theorem source_tie_bbox_header :
  map C15_GenTie.cps Gen_C15.box_points = C15_Spatial.box_points /\
  Gen_C15.box_limbs = C15_Spatial.box_limbs /\
  length Gen_C15.box_colors = length Gen_C15.box_limbs /\
  Gen_C15.header_bbox_rest = C15_GenTie.lit_header_bbox_rest /\
  Gen_C15.pose_bbox = C15_GenTie.lit_pose_bbox.
Proof. repeat split; reflexivity. Qed.
Print Assumptions source_tie_bbox_header.

(* NumPyPoseBody.__init__ / flip / matmul / bbox (numpy/pose_body.py), POINTS_DIMS (pose_body.py), the pass-through
   table of Pose.__getattr__ (pose.py).  bbox: the two places defects F11 / F11b are about are classified by the translator: the confidence mask must be
   read by indexing the last axis at 0, a component without points must give a missing box. *)
Theorem source_tie_numpy_body :
  Gen_C15.numpy_init = C15_GenTie.lit_numpy_init /\
  Gen_C15.numpy_flip = C15_GenTie.lit_numpy_flip /\
  Gen_C15.numpy_matmul = C15_GenTie.lit_numpy_matmul /\
  Gen_C15.numpy_bbox = C15_GenTie.lit_numpy_bbox /\
  Gen_C15.bbox_confidence_mask_kind = "IndexAxis0"%string /\
  Gen_C15.bbox_empty_component_kind = "MissingBox"%string /\
  Gen_C15.points_dims = [2; 1; 0; 3]%Z /\
  C15_GenTie.has "flip" Gen_C15.pass_through_methods = true /\ C15_GenTie.has "augment2d" Gen_C15.pass_through_methods = true /\
  C15_GenTie.has "focus" Gen_C15.pass_through_methods = false /\ C15_GenTie.has "bbox" Gen_C15.pass_through_methods = false.
Proof. repeat split; reflexivity. Qed.
Print Assumptions source_tie_numpy_body.

(* PoseBody.augment2d (pose_body.py): parameter order, the three guarded steps in order (shear cell (0,1) = draw,
   rotation [[cos, -sin], [sin, cos]], scale cell (1,1) += draw, each composed on the right), embedding and product *)
Theorem source_tie_augment2d :
  Gen_C15.augment2d_params = ["self"; "rotation_std"; "shear_std"; "scale_std"]%string /\
  Gen_C15.augment2d_steps = C15_GenTie.lit_augment2d_steps /\
  Gen_C15.augment2d_tail = C15_GenTie.lit_augment2d_tail.
Proof. repeat split; reflexivity. Qed.
Print Assumptions source_tie_augment2d.

(* Pose.focus (pose.py) and PoseHeaderDimensions.__init__ (pose_header.py) *)
Theorem source_tie_focus :
  Gen_C15.pose_focus = C15_GenTie.lit_pose_focus /\
  Gen_C15.dimensions_init_sig = C15_GenTie.lit_dimensions_init_sig /\
  Gen_C15.dimensions_init = C15_GenTie.lit_dimensions_init.
Proof. repeat split; reflexivity. Qed.
Print Assumptions source_tie_focus.

(* the executed binary64 instance is Num.F_ops (named constants only for extraction) *)
Theorem executed_instance_is_F_ops : F64_ops = F_ops.
Proof. reflexivity. Qed.
Print Assumptions executed_instance_is_F_ops.

(* class structure of the current source: overrides and attribute hooks (proofs/ClassesTie.v) *)
Require Import ClassesTie.
Theorem C15_tie_class_numpy_body : over_numpy_body = Some exp_over_numpy_body.
Proof. exact over_numpy_body_tie. Qed.
Print Assumptions C15_tie_class_numpy_body.
Theorem C15_tie_class_attr_hooks : Gen_Classes.attr_hooks = exp_attr_hooks.
Proof. exact attr_hooks_tie. Qed.
Print Assumptions C15_tie_class_attr_hooks.

