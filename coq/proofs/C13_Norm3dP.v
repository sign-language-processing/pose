(* C13 - the 3-D normaliser over the reals, point by point (P): every step of normalize_pose acts separately on each
   observed point; closed form [out_n] of the output in terms of the plane normal, its base point and the two line points.
   C13_Norm3dAlg (algebra of [out_n]), C13_Norm3dT (one row) and C13_Norm3dW (whole bodies, witnesses) build on it in that order. *)
From Coq Require Import Reals List Lra Lia Arith Bool.
Require Import Num RealFacts C13_Normalize C13_Norm3d C13_RBase.
Import ListNotations.
Open Scope R_scope.

Notation rv := (vec3 R_ops).
Notation rp3 := (p3 R_ops).
Notation rV3 := (@V3 R_ops).
Notation rmk := (@mkp3 R_ops).
Notation rget3 := (get3 R_ops).
Notation rcross := (cross R_ops).
Notation rdot := (dot R_ops).
Notation rvsub := (vsub R_ops).
Notation rvscale := (vscale R_ops).
Notation rvdiv := (vdiv R_ops).
Notation rnorm := (norm R_ops).
Definition v0 : rv := rV3 0 0 0.
Ltac vsimp := unfold cross, dot, vsub, vscale, vdiv, norm, z0 in *; cbn [vx vy vz] in *; rsimp.

Lemma v3_eta (v : rv) : v = rV3 (vx v) (vy v) (vz v).
Proof. destruct v; reflexivity. Qed.
Lemma p3_eta (p : rp3) : p = rmk (m3 p) (c3 p).
Proof. destruct p; reflexivity. Qed.

(* a row seen as "observed points carry g (original coordinates), the others carry junk" *)
Definition carry (g junk : rp3 -> rv) (p : rp3) : rp3 := if m3 p then rmk true (junk p) else rmk false (g p).
Definition rep (r : list rp3) (g : rv -> rv) (r' : list rp3) : Prop :=
  exists junk, r' = map (carry (fun p => g (c3 p)) junk) r.
Lemma rep_id r : rep r (fun v => v) r.
Proof. exists (fun p => c3 p). rewrite <- (map_id r) at 1. apply map_ext. intros p. unfold carry.
  destruct p as [m c]; destruct m; reflexivity. Qed.
Lemma get3_map (F : rp3 -> rp3) r k : m3 (rget3 r k) = false -> rget3 (map F r) k = F (rget3 r k).
Proof. unfold get3. revert k. induction r as [|p r IH]; intros [|k] H; cbn [nth map] in *; try discriminate; [reflexivity|].
  apply IH. exact H. Qed.
Lemma rep_get3 r g r' k : rep r g r' -> m3 (rget3 r k) = false -> rget3 r' k = rmk false (g (c3 (rget3 r k))).
Proof. intros [junk ->] H. rewrite get3_map by exact H. unfold carry. rewrite H. reflexivity. Qed.
Lemma rep_masks r g r' : rep r g r' -> map m3 r' = map m3 r.
Proof. intros [junk ->]. rewrite map_map. apply map_ext. intros p. unfold carry. destruct (m3 p); reflexivity. Qed.

Section Steps.
Variable zrot : R -> R -> R * R.

(* the steps of normalize_pose on one observed point *)
Definition normal3 (A B C : rv) : rv := let n0 := rcross (rvsub B A) (rvsub C A) in rvdiv n0 (rnorm n0).
Definition frame (A n q : rv) : rv :=
  let y_axis := rcross (rV3 1 0 0) n in
  let x_axis := rcross n y_axis in
  rV3 (rdot (rvsub q A) x_axis) (rdot (rvsub q A) y_axis) (rdot (rvsub q A) n).
Definition rotp (cs : R * R) (q : rv) : rv :=
  rV3 ((fst cs * vx q + (- snd cs) * vy q) + 0 * vz q)
      ((snd cs * vx q + fst cs * vy q) + 0 * vz q)
      ((0 * vx q + 0 * vy q) + 1 * vz q).
Definition rescale (sc : R) (o q : rv) : rv := rvsub (rvscale q sc) (rvscale o sc).

Lemma step_get_normal pl1 pl2 pl3 r :
  m3 (rget3 r pl1) = false -> m3 (rget3 r pl2) = false -> m3 (rget3 r pl3) = false ->
  get_normal R_ops pl1 pl2 pl3 r = (normal3 (c3 (rget3 r pl1)) (c3 (rget3 r pl2)) (c3 (rget3 r pl3)), rget3 r pl1).
Proof. intros H1 H2 H3. unfold get_normal, msub, normal3. rewrite H1, H2, H3. reflexivity. Qed.

Lemma step_rotate_to_normal r g r' n base : rep r g r' -> m3 base = false ->
  rep r (fun v => frame (c3 base) n (g v)) (rotate_to_normal R_ops r' n base).
Proof. intros [junk ->] Hb. unfold rotate_to_normal. rewrite !map_map.
  exists (fun p => let y_axis := rcross (rV3 1 0 0) n in let x_axis := rcross n y_axis in
                   rV3 (rdot (junk p) x_axis) (rdot (junk p) y_axis) (rdot (junk p) n)).
  apply map_ext. intros p. unfold carry, msub, frame. destruct (m3 p); cbn [m3 c3]; rewrite Hb; reflexivity. Qed.

Lemma step_rotate_in_plane r g r' l1 l2 : rep r g r' -> m3 (rget3 r l1) = false -> m3 (rget3 r l2) = false ->
  let vec := rvsub (g (c3 (rget3 r l2))) (g (c3 (rget3 r l1))) in
  rep r (fun v => rotp (zrot (vx vec) (vy vec)) (g v)) (rotate_in_plane R_ops zrot l1 l2 r').
Proof. intros Hr H1 H2 vec. unfold rotate_in_plane. rewrite (rep_get3 _ _ _ _ Hr H1), (rep_get3 _ _ _ _ Hr H2).
  unfold msub. cbn [m3 c3 orb]. fold vec. destruct Hr as [junk ->]. rewrite map_map.
  exists (fun p => rotp (zrot (vx vec) (vy vec)) (junk p)).
  apply map_ext. intros p. unfold carry, rotp. destruct (m3 p); reflexivity. Qed.

Lemma step_scale r g r' l1 l2 size : rep r g r' -> m3 (rget3 r l1) = false -> m3 (rget3 r l2) = false ->
  let d := rvsub (g (c3 (rget3 r l2))) (g (c3 (rget3 r l1))) in
  let cur := R_sqrt.sqrt (rdot d d) in
  cur <> 0 ->
  rep r (fun v => rescale (size / cur) (g (c3 (rget3 r l1))) (g v)) (scale3 R_ops l1 l2 size r').
Proof. intros Hr H1 H2 d cur Hc. unfold scale3. rewrite (rep_get3 _ _ _ _ Hr H1), (rep_get3 _ _ _ _ Hr H2).
  unfold msub. cbn [m3 c3 orb]. fold d. change (Num.sqrt R_ops (rdot d d)) with cur.
  change (eqb R_ops cur (z0 R_ops)) with (Reqb cur 0). rewrite (proj2 (Reqb_false _ _) Hc).
  destruct Hr as [junk ->]. rewrite !map_map.
  rewrite get3_map by exact H1. unfold carry. rewrite H1. cbn [m3 c3 orb].
  exists junk. apply map_ext. intros p. unfold rescale, carry. destruct (m3 p); cbn [m3 c3 orb]; reflexivity. Qed.

(* degenerate scale: current_size = 0 masks the whole row *)
Lemma step_scale_zero r g r' l1 l2 size : rep r g r' -> m3 (rget3 r l1) = false -> m3 (rget3 r l2) = false ->
  let d := rvsub (g (c3 (rget3 r l2))) (g (c3 (rget3 r l1))) in
  R_sqrt.sqrt (rdot d d) = 0 ->
  fill3 R_ops (scale3 R_ops l1 l2 size r') = map (fun _ => rmk true v0) r.
Proof. intros Hr H1 H2 d Hc. unfold scale3. rewrite (rep_get3 _ _ _ _ Hr H1), (rep_get3 _ _ _ _ Hr H2).
  unfold msub. cbn [m3 c3 orb]. fold d. change (Num.sqrt R_ops (rdot d d)) with (R_sqrt.sqrt (rdot d d)). rewrite Hc.
  change (eqb R_ops 0 (z0 R_ops)) with (Reqb 0 0). rewrite Reqb_refl.
  destruct Hr as [junk ->]. unfold fill3. rewrite !map_map. apply map_ext. intros p.
  rewrite orb_true_r. cbn [m3 c3 orb]. reflexivity. Qed.

Lemma step_fill r g r' : rep r g r' ->
  fill3 R_ops r' = map (fun p => if m3 p then rmk true v0 else rmk false (g (c3 p))) r.
Proof. intros [junk ->]. unfold fill3. rewrite map_map. apply map_ext. intros p. unfold carry.
  destruct (m3 p); reflexivity. Qed.

(* a point after rotate_to_normal (base A, normal n) and rotate_in_plane (line L1 L2) *)
Definition vec_of (A n L1 L2 : rv) : rv := rvsub (frame A n L2) (frame A n L1).
Definition img (A n L1 L2 q : rv) : rv :=
  rotp (zrot (vx (vec_of A n L1 L2)) (vy (vec_of A n L1 L2))) (frame A n q).
Definition d_of (A n L1 L2 : rv) : rv := rvsub (img A n L1 L2 L2) (img A n L1 L2 L1).

Section Row.
Variables (pl1 pl2 pl3 l1 l2 : nat) (size : R).
Definition out_n (A n L1 L2 p : rv) : rv :=
  rescale (size / rsqrt (rdot (d_of A n L1 L2) (d_of A n L1 L2))) (img A n L1 L2 L1) (img A n L1 L2 p).
Definition refs_observed (r : list rp3) : Prop :=
  m3 (rget3 r pl1) = false /\ m3 (rget3 r pl2) = false /\ m3 (rget3 r pl3) = false /\
  m3 (rget3 r l1) = false /\ m3 (rget3 r l2) = false.

Lemma row_rotated r : refs_observed r ->
  let A := c3 (rget3 r pl1) in let n := normal3 A (c3 (rget3 r pl2)) (c3 (rget3 r pl3)) in
  rep r (img A n (c3 (rget3 r l1)) (c3 (rget3 r l2)))
    (rotate_in_plane R_ops zrot l1 l2 (rotate_to_normal R_ops r (fst (get_normal R_ops pl1 pl2 pl3 r)) (snd (get_normal R_ops pl1 pl2 pl3 r)))).
Proof. intros (H1 & H2 & H3 & H4 & H5) A n. rewrite step_get_normal by assumption. cbn [fst snd].
  exact (step_rotate_in_plane r _ _ l1 l2 (step_rotate_to_normal r _ r n _ (rep_id r) H1) H4 H5). Qed.

Lemma normalize_row_closed r : refs_observed r ->
  let A := c3 (rget3 r pl1) in let n := normal3 A (c3 (rget3 r pl2)) (c3 (rget3 r pl3)) in
  let L1 := c3 (rget3 r l1) in let L2 := c3 (rget3 r l2) in
  rsqrt (rdot (d_of A n L1 L2) (d_of A n L1 L2)) <> 0 ->
  normalize_row R_ops zrot pl1 pl2 pl3 l1 l2 size r =
  map (fun p => if m3 p then rmk true v0 else rmk false (out_n A n L1 L2 (c3 p))) r.
Proof. intros Hobs A n L1 L2 Hc. pose proof (row_rotated r Hobs) as S. destruct Hobs as (_ & _ & _ & H4 & H5).
  exact (step_fill _ _ _ (step_scale r _ _ l1 l2 size S H4 H5 Hc)). Qed.

Lemma normalize_row_zero r : refs_observed r ->
  let A := c3 (rget3 r pl1) in let n := normal3 A (c3 (rget3 r pl2)) (c3 (rget3 r pl3)) in
  let L1 := c3 (rget3 r l1) in let L2 := c3 (rget3 r l2) in
  rsqrt (rdot (d_of A n L1 L2) (d_of A n L1 L2)) = 0 ->
  normalize_row R_ops zrot pl1 pl2 pl3 l1 l2 size r = map (fun _ => rmk true v0) r.
Proof. intros Hobs A n L1 L2 Hc. pose proof (row_rotated r Hobs) as S. destruct Hobs as (_ & _ & _ & H4 & H5).
  exact (step_scale_zero r _ _ l1 l2 size S H4 H5 Hc). Qed.
End Row.
End Steps.
