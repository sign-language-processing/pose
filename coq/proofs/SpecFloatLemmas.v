(* Facts about Coq's SpecFloat that hold for every format: binary_round is exact on a value that already fits,
   and binary_round_aux never returns more than the truncated mantissa plus one. *)
From Coq Require Import ZArith PArith Lia ZifyBool Bool SpecFloat.
Ltac Zify.zify_post_hook ::= Z.div_mod_to_equations.
Open Scope Z_scope.

Lemma iter_pos_iter {A} (f : A -> A) n : forall x, iter_pos f n x = Pos.iter f x n.
Proof.
  induction n as [n IH|n IH|]; intros x; cbn [iter_pos Pos.iter].
  - rewrite !IH. now rewrite !Pos.iter_swap.
  - now rewrite !IH.
  - reflexivity.
Qed.
Lemma digits_shift m j : digits2_pos (shift_pos j m) = (digits2_pos m + j)%positive.
Proof.
  unfold shift_pos. induction j as [|j IH] using Pos.peano_ind.
  - cbn [Pos.iter digits2_pos]. lia.
  - rewrite Pos.iter_succ. cbn [digits2_pos]. rewrite IH. lia.
Qed.
Lemma shr_shift m j :
  iter_pos shr_1 j {| shr_m := Zpos (shift_pos j m); shr_r := false; shr_s := false |}
  = {| shr_m := Zpos m; shr_r := false; shr_s := false |}.
Proof.
  rewrite iter_pos_iter. unfold shift_pos. induction j as [|j IH] using Pos.peano_ind.
  - reflexivity.
  - rewrite (Pos.iter_succ _ _ xO). rewrite Pos.iter_succ, <- Pos.iter_swap. cbn [shr_1 orb]. exact IH.
Qed.
Lemma digits2_size p : digits2_pos p = Pos.size p.
Proof. induction p as [p IH|p IH|]; cbn [digits2_pos Pos.size]; congruence. Qed.
Lemma digits_gt m : Zpos m < 2 ^ Zpos (digits2_pos m).
Proof. rewrite digits2_size. change 2 with (Zpos 2). rewrite <- Pos2Z.inj_pow. apply Pos2Z.pos_lt_pos, Pos.size_gt. Qed.
Lemma digits_le m : 2 ^ (Zpos (digits2_pos m) - 1) <= Zpos m.
Proof.
  pose proof (Pos.size_le m) as H. apply Pos2Z.pos_le_pos in H. rewrite Pos2Z.inj_pow, <- digits2_size in H.
  replace (Zpos (digits2_pos m)) with (Z.succ (Zpos (digits2_pos m) - 1)) in H by lia. rewrite Z.pow_succ_r in H by lia. lia.
Qed.
Lemma digits_lt_pow p : forall n : nat, Zpos p < 2 ^ Z.of_nat n -> (Pos.to_nat (digits2_pos p) <= n)%nat.
Proof.
  intros n H. destruct (Nat.le_gt_cases (Pos.to_nat (digits2_pos p)) n) as [|G]; [assumption|exfalso].
  pose proof (digits_le p). pose proof (Z.pow_le_mono_r 2 (Z.of_nat n) (Zpos (digits2_pos p) - 1)). lia.
Qed.
Lemma digits_ge_pow p : forall n : nat, 2 ^ Z.of_nat n <= Zpos p -> (n < Pos.to_nat (digits2_pos p))%nat.
Proof.
  intros n H. destruct (Nat.lt_ge_cases n (Pos.to_nat (digits2_pos p))) as [|G]; [assumption|exfalso].
  pose proof (digits_gt p). pose proof (Z.pow_le_mono_r 2 (Zpos (digits2_pos p)) (Z.of_nat n)). lia.
Qed.

Section Exact.
Variables prec emax : Z.
Lemma bounded_inv m e : bounded prec emax m e = true -> fexp prec emax (Zpos (digits2_pos m) + e) = e /\ e <= emax - prec.
Proof. unfold bounded, canonical_mantissa. intros H. apply andb_true_iff in H. destruct H as [H1 H2].
  apply Zeq_bool_eq in H1. apply Z.leb_le in H2. now split. Qed.
Lemma round_aux_exact s m e : bounded prec emax m e = true ->
  binary_round_aux prec emax s (Zpos m) e loc_Exact = S754_finite s m e.
Proof.
  intros H. destruct (bounded_inv m e H) as [Hf He].
  unfold binary_round_aux, shr_fexp. cbn [Zdigits2 shr_record_of_loc]. rewrite Hf, Z.sub_diag.
  cbn [shr shr_m loc_of_shr_record round_nearest_even Zdigits2]. rewrite Hf, Z.sub_diag. cbn [shr shr_m shr_record_of_loc].
  apply Z.leb_le in He. now rewrite He.
Qed.
(* the value is given with fewer digits: it is shifted left *)
Lemma binary_round_exact_l s m e j : bounded prec emax (shift_pos j m) (e - Zpos j) = true ->
  binary_round prec emax s m e = S754_finite s (shift_pos j m) (e - Zpos j).
Proof.
  intros H. destruct (bounded_inv _ _ H) as [Hf He]. rewrite digits_shift in Hf.
  unfold binary_round.
  replace (Zpos (digits2_pos m) + e) with (Zpos (digits2_pos m + j) + (e - Zpos j)) by lia. rewrite Hf.
  unfold shl_align. replace (e - Zpos j - e) with (Zneg j) by lia. now apply round_aux_exact.
Qed.
(* the value is given with more (trailing zero) digits: they are shifted out exactly *)
Lemma binary_round_exact_r s m e j : bounded prec emax m e = true ->
  binary_round prec emax s (shift_pos j m) (e - Zpos j) = S754_finite s m e.
Proof.
  intros H. destruct (bounded_inv _ _ H) as [Hf He].
  unfold binary_round. rewrite digits_shift.
  replace (Zpos (digits2_pos m + j) + (e - Zpos j)) with (Zpos (digits2_pos m) + e) by lia. rewrite Hf.
  unfold shl_align. replace (e - (e - Zpos j)) with (Zpos j) by lia.
  unfold binary_round_aux, shr_fexp. cbn [Zdigits2 shr_record_of_loc]. rewrite digits_shift.
  replace (Zpos (digits2_pos m + j) + (e - Zpos j)) with (Zpos (digits2_pos m) + e) by lia. rewrite Hf.
  replace (e - (e - Zpos j)) with (Zpos j) by lia. cbn [shr]. rewrite shr_shift.
  replace (e - Zpos j + Zpos j) with e by lia.
  cbn [shr_m loc_of_shr_record round_nearest_even Zdigits2]. rewrite Hf, Z.sub_diag. cbn [shr shr_m shr_record_of_loc].
  apply Z.leb_le in He. now rewrite He.
Qed.
Lemma bounded_intro m e : fexp prec emax (Zpos (digits2_pos m) + e) = e -> (e <= emax - prec)%Z -> bounded prec emax m e = true.
Proof. intros H1 H2. unfold bounded, canonical_mantissa. apply andb_true_iff. split; [now apply Zeq_is_eq_bool|now apply Z.leb_le]. Qed.
End Exact.

Lemma shr_1_m mrs : 0 <= shr_m mrs -> shr_m (shr_1 mrs) = shr_m mrs / 2.
Proof. destruct mrs as [[|[p|p|]|p] r s]; cbn [shr_1 shr_m]; lia. Qed.
Lemma shr_iter_m n : forall mrs, 0 <= shr_m mrs -> shr_m (iter_pos shr_1 n mrs) = shr_m mrs / 2 ^ Zpos n.
Proof.
  intros mrs H. rewrite iter_pos_iter. induction n as [|n IH] using Pos.peano_ind.
  - cbn [Pos.iter]. now rewrite shr_1_m.
  - assert (0 < 2 ^ Zpos n) by (apply Z.pow_pos_nonneg; lia).
    rewrite Pos.iter_succ, shr_1_m, IH; [|rewrite IH; apply Z.div_pos; lia].
    rewrite Pos2Z.inj_succ, Z.pow_succ_r, Z.div_div by lia. f_equal. lia.
Qed.
Lemma round_nearest_even_bounds m l : m <= round_nearest_even m l <= m + 1.
Proof. destruct l as [|[| |]]; cbn [round_nearest_even]; [|destruct (Z.even m)| |]; lia. Qed.

Section Upper.
Variables prec emax : Z.
Hypothesis prec_pos : 0 < prec.
(* a mantissa with n more digits than the format holds, rounded in the normal range: the result m * 2^e is at most
   (M / 2^n + 1) * 2^(E + n) *)
Lemma round_aux_upper s M E (n : positive) :
  Zpos (digits2_pos M) = prec + Zpos n -> emin prec emax <= E + Zpos n ->
  Z.max (E + Zpos n + 1) (emin prec emax) <= emax - prec ->
  match binary_round_aux prec emax s (Zpos M) E loc_Exact with
  | S754_zero _ => True
  | S754_finite s' m e => s' = s /\ exists b, 0 <= b /\ e = E + Zpos n + b /\ Zpos m * 2 ^ b <= Zpos M / 2 ^ Zpos n + 1
  | _ => False
  end.
Proof.
  intros Hd Hn Hmax. pose proof (digits_gt M) as HM. rewrite Hd, Z.pow_add_r in HM by lia.
  assert (Hp : 0 < 2 ^ Zpos n) by (apply Z.pow_pos_nonneg; lia).
  assert (Hq : 0 <= Zpos M / 2 ^ Zpos n < 2 ^ prec) by (split; [apply Z.div_pos; lia|apply Z.div_lt_upper_bound; lia]).
  unfold binary_round_aux, shr_fexp. cbn [Zdigits2 shr_record_of_loc]. rewrite Hd.
  replace (fexp prec emax (prec + Zpos n + E) - E) with (Zpos n) by (unfold fexp; lia). cbn [shr].
  rewrite shr_iter_m by (cbn; lia). cbn [shr_m].
  set (m1 := round_nearest_even _ _).
  assert (H1 : Zpos M / 2 ^ Zpos n <= m1 <= Zpos M / 2 ^ Zpos n + 1) by apply round_nearest_even_bounds.
  clearbody m1. set (e1 := E + Zpos n).
  assert (Hdd : Zdigits2 m1 <= prec + 1).
  { destruct m1 as [|x|x]; cbn [Zdigits2]; try lia.
    pose proof (digits_lt_pow x (Z.to_nat (prec + 1))) as HL. rewrite Z2Nat.id, Z.pow_add_r in HL by lia. lia. }
  destruct (fexp prec emax (Zdigits2 m1 + e1) - e1) as [|k|k] eqn:Ek; cbn [shr shr_m].
  - destruct m1 as [|x|x]; [exact I| |lia]. destruct (Z.leb_spec e1 (emax - prec)); [|lia].
    split; [reflexivity|]. exists 0. rewrite Z.pow_0_r. lia.
  - rewrite shr_iter_m by (cbn; lia). cbn [shr_m].
    assert (Hk : 0 < 2 ^ Zpos k) by (apply Z.pow_pos_nonneg; lia).
    pose proof (Z.mul_div_le m1 (2 ^ Zpos k) Hk) as Hle.
    destruct (m1 / 2 ^ Zpos k) as [|x|x] eqn:Ex; [exact I| |pose proof (Z.div_pos m1 (2 ^ Zpos k)); lia].
    destruct (Z.leb_spec (e1 + Zpos k) (emax - prec)) as [|Hov]; [|unfold fexp in Ek; lia].
    split; [reflexivity|]. exists (Zpos k). lia.
  - destruct m1 as [|x|x]; [exact I| |lia]. destruct (Z.leb_spec e1 (emax - prec)); [|lia].
    split; [reflexivity|]. exists 0. rewrite Z.pow_0_r. lia.
Qed.
End Upper.
