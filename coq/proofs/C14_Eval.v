(* C14 - the interpolant f built at numpy/pose_body.py:353-359, at one abscissa, over exact reals.
   SciPy's quadratic / cubic interp1d is an arbitrary function [sp] about which three things are assumed
   (never axioms: they are hypotheses of the final theorems, sampled on SciPy by the correspondence check):
     spline_shape  it returns one value per column,
     spline_nodes  it interpolates its nodes,
     spline_poly   it reproduces polynomials of degree <= k.
   They are only required for the two orders the code uses (k = 2, 3). *)
From Coq Require Import Reals List Arith Bool Lia Lra Sorted.
Require Import Num C14_Interp C14_Index C14_Lerp.
Import ListNotations.
Local Open Scope R_scope.

Definition spline_t := nat -> list R -> list (list R) -> R -> list R.
Definition peval (p : list R) (x : R) : R := fold_right (fun c acc => c + x * acc) 0 p.
Definition order_used (k : nat) : Prop := k = 2%nat \/ k = 3%nat.
Definition spline_shape (sp : spline_t) : Prop :=
  forall k xs ys w x, order_used k -> StronglySorted Rlt xs -> length xs = length ys -> (k < length xs)%nat ->
    Forall (fun r => length r = w) ys -> length (sp k xs ys x) = w.
Definition spline_nodes (sp : spline_t) : Prop :=
  forall k xs ys i, order_used k -> StronglySorted Rlt xs -> length xs = length ys -> (k < length xs)%nat ->
    (i < length xs)%nat -> sp k xs ys (nth i xs 0) = nth i ys [].
Definition spline_poly (sp : spline_t) : Prop :=
  forall k xs ys w c p x, order_used k -> StronglySorted Rlt xs -> length xs = length ys -> (k < length xs)%nat ->
    Forall (fun r => length r = w) ys -> (c < w)%nat -> (length p <= S k)%nat ->
    (forall i, (i < length xs)%nat -> col c (nth i ys []) = peval p (nth i xs 0)) ->
    nth 0 xs 0 <= x <= last xs 0 -> col c (sp k xs ys x) = peval p x.

Lemma this_kind_linear c : this_kind Linear c = Linear.
Proof. unfold this_kind. destruct (3 <? c)%nat; [reflexivity|]. now rewrite andb_false_r. Qed.
Lemma this_kind_quadratic k c : this_kind k c = Quadratic -> (2 < c)%nat.
Proof. unfold this_kind. destruct (Nat.ltb_spec 3 c); [lia|].
  destruct (Nat.ltb_spec 2 c); [lia|]. cbn [andb]. discriminate. Qed.
Lemma this_kind_cubic k c : this_kind k c = Cubic -> (3 < c)%nat.
Proof. unfold this_kind. destruct (Nat.ltb_spec 3 c); [lia|].
  destruct ((2 <? c)%nat && match k with Cubic => true | _ => false end); discriminate. Qed.

Lemma eval_f_cases (sp : spline_t) k (obs : obsR) :
  (forall x, eval_f R_ops sp k obs x = lerp R_ops obs x) \/
  exists o, order_used o /\ (o < length obs)%nat /\ forall x, eval_f R_ops sp k obs x = sp o (xs_of obs) (map snd obs) x.
Proof. unfold eval_f. destruct (this_kind _ _) eqn:E; [left; reflexivity|right; exists 2%nat|right; exists 3%nat].
  - split; [left; reflexivity|]. split; [exact (this_kind_quadratic k _ E)|reflexivity].
  - split; [right; reflexivity|]. split; [exact (this_kind_cubic k _ E)|reflexivity]. Qed.
Lemma eval_f_linear (sp : spline_t) (obs : obsR) x : eval_f R_ops sp Linear obs x = lerp R_ops obs x.
Proof. unfold eval_f. now rewrite this_kind_linear. Qed.

(* One observation: :353-355 build f = lambda l: partial_frames; eval_f returns that row too, so the statements below
   cover it.  All of them are for one or more observations. *)
Section Eval.
Variable sp : spline_t.
Hypothesis Hshape : spline_shape sp.
Hypothesis Hnodes : spline_nodes sp.
Hypothesis Hpoly : spline_poly sp.
Variables (obs : obsR) (w : nat) (k : kind).
Hypothesis Hsort : StronglySorted Rlt (xs_of obs).
Hypothesis Hw : widths w obs.
Hypothesis Hlen : (1 <= length obs)%nat.

Local Notation ev := (eval_f R_ops sp k obs).
Lemma ys_nth i : nth i (map snd obs) [] = snd (nth i obs dflt).
Proof. change (@nil R) with (snd dflt). apply map_nth. Qed.
Lemma ys_widths : Forall (fun r => length r = w) (map snd obs).
Proof. apply Forall_map. exact Hw. Qed.
Lemma xs_ys_len : length (xs_of obs) = length (map snd obs).
Proof. unfold xs_of. now rewrite !map_length. Qed.
Lemma xs_len : length (xs_of obs) = length obs.
Proof. apply map_length. Qed.

Lemma eval_one x : length obs = 1%nat -> ev x = snd (nth 0 obs dflt).
Proof. destruct obs as [|[s y0] [|b rest]]; try discriminate. reflexivity. Qed.
Lemma xs_last_one : length obs = 1%nat -> last (xs_of obs) 0 = fst (nth 0 obs dflt).
Proof. intros H1. rewrite (xs_last obs), H1. reflexivity. Qed.

Lemma eval_width x : length (ev x) = w.
Proof. destruct (Nat.eq_dec (length obs) 1) as [H1|H1]; [rewrite (eval_one x H1); apply (row_width obs w Hw); lia|].
  destruct (eval_f_cases sp k obs) as [E|[o [Ho [Hlt E]]]]; rewrite E.
  - apply lerp_width; [assumption|lia].
  - apply Hshape; [exact Ho|exact Hsort|apply xs_ys_len|rewrite xs_len; exact Hlt|apply ys_widths]. Qed.

Lemma eval_node i : (i < length obs)%nat -> ev (fst (nth i obs dflt)) = snd (nth i obs dflt).
Proof. intros Hi.
  destruct (Nat.eq_dec (length obs) 1) as [H1|H1]; [rewrite (eval_one _ H1); replace i with 0%nat by lia; reflexivity|].
  destruct (eval_f_cases sp k obs) as [E|[o [Ho [Hlt E]]]]; rewrite E.
  - apply (lerp_node obs w); [assumption|assumption|lia|exact Hi].
  - rewrite <- (xs_nth obs i), <- ys_nth.
    apply Hnodes; [exact Ho|exact Hsort|apply xs_ys_len|rewrite xs_len; exact Hlt|rewrite xs_len; exact Hi]. Qed.

Lemma eval_affine c a b x : (c < w)%nat ->
  (forall i, (i < length obs)%nat -> col c (snd (nth i obs dflt)) = a * fst (nth i obs dflt) + b) ->
  fst (nth 0 obs dflt) <= x <= last (xs_of obs) 0 ->
  col c (ev x) = a * x + b.
Proof. intros Hc Ha Hx. destruct (Nat.eq_dec (length obs) 1) as [H1|H1].
  { rewrite (eval_one x H1), Ha by lia. rewrite (xs_last_one H1) in Hx. f_equal. f_equal. lra. }
  destruct (eval_f_cases sp k obs) as [E|[o [Ho [Hlt E]]]]; rewrite E.
  - apply (lerp_affine obs w); [assumption|assumption|lia|exact Hc|exact Ha].
  - replace (a * x + b) with (peval [b; a] x) by (cbn; ring).
    apply (Hpoly o (xs_of obs) (map snd obs) w);
      [exact Ho|exact Hsort|apply xs_ys_len|rewrite xs_len; exact Hlt|apply ys_widths|exact Hc| | |].
    + destruct Ho as [-> | ->]; cbn; lia.
    + intros i Hi. rewrite xs_len in Hi. rewrite ys_nth, (xs_nth obs i), Ha by exact Hi. cbn; ring.
    + rewrite (xs_nth obs 0). exact Hx. Qed.

Lemma eval_linear_between c x : k = Linear -> (c < w)%nat -> fst (nth 0 obs dflt) <= x <= last (xs_of obs) 0 ->
  exists m m', (m <= m' <= S m)%nat /\ (m' < length obs)%nat /\ fst (nth m obs dflt) <= x <= fst (nth m' obs dflt) /\
    Rmin (col c (snd (nth m obs dflt))) (col c (snd (nth m' obs dflt))) <= col c (ev x)
      <= Rmax (col c (snd (nth m obs dflt))) (col c (snd (nth m' obs dflt))).
Proof. intros Hk Hc Hx. destruct (Nat.eq_dec (length obs) 1) as [H1|H1].
  - exists 0%nat, 0%nat. rewrite (eval_one x H1). rewrite (xs_last_one H1) in Hx.
    split; [lia|]. split; [lia|]. split; [exact Hx|]. rewrite Rmin_left, Rmax_left by lra. lra.
  - rewrite Hk, eval_f_linear.
    destruct (lerp_between obs w Hsort Hw ltac:(lia) c x Hc (proj1 Hx) (proj2 Hx)) as [m [Hm [Hr Hb]]].
    exists m, (S m). split; [lia|]. split; [exact Hm|]. split; [exact Hr|exact Hb]. Qed.
End Eval.
