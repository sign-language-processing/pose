(* C12 - non-vacuity examples and witnesses that the hypotheses of the theorems are needed. *)
From Coq Require Import List Arith Bool ZArith NArith Lia.
Require Import ListN Result Bytes F32 Tensor Codec.
Require Import C12_Model C12_Tab C12_Inv C12_Reach C12_Ser C12_Progress.
Import ListNotations.
Open Scope nat_scope.

(* [invb st = false] really is [~ Inv st] *)
Corollary invb_false_not_inv st : invb st = false -> ~ Inv st.
Proof. intros H HI. rewrite (invb_complete _ HI) in H. discriminate. Qed.

(* a 2-D pose: components A (2 points) and B (1 point), 3 frames, 1 person *)
Definition nA : name := [65%N].  Definition nB : name := [66%N].
Definition pa0 : name := [97%N; 48%N].  Definition pa1 : name := [97%N; 49%N].  Definition pb0 : name := [98%N; 48%N].
Definition ex_hdr : header := [ {| c_name := nA; c_points := [pa0; pa1]; c_fmt := 3 |}; {| c_name := nB; c_points := [pb0]; c_fmt := 3 |} ].
Definition ex_cz : list bool := [false; false; true;   false; true; false;   false; false; false].
Definition dummy : state := {| s_hdr := []; s_be := Np; s_mask := mkT [] []; s_cz := mkT [] [] |}.
Definition ex_st : state := Eval vm_compute in match start_state ex_hdr 3 1 3 2 ex_cz with Ok s => s | Err _ => dummy end.
Example ex_start : start_state ex_hdr 3 1 3 2 ex_cz = Ok ex_st /\ Inv ex_st.
Proof. split; [vm_compute; reflexivity|]. apply invb_sound. vm_compute. reflexivity. Qed.

(* every kind of operation but ToTensorflow ([ex_tf]), each precondition satisfied, nothing raises: the hypotheses of
   [inv_preserved] / [reachable_inv] are satisfiable along a 20-step sequence ending on a Torch body *)
Definition ex_ops : list op :=
  [ Copy; Normalize 0 1; Flip 1%Z; Augment2d true; SliceStep 1%Z; SelectFrames [0; 2; (-2)]%Z;
    Interpolate 5%Z [false; false; true;  false; false; true;  false; false; false;  false; true; false;  false; false; false];
    NormalizeDistribution true [false; false; false; false; false; false]; Focus;
    DropoutUniform [0; 1; 3; 4]; DropoutNormal [0; 2; 3];
    RemoveComponents [] (Some [(nA, [pa1])]); GetComponents [nB; nA] (Some [(nA, [pa0])]);
    BBox; SliceStep (-2)%Z; Copy; ToTorch true; GetComponents [nA] None; Augment2d true; Copy ].
Example ex_run : exists st', run ex_st ex_ops = Ok st' /\ reachable ex_st st' /\ Inv st' /\ s_be st' = Torch /\ shape (s_mask st') = [2; 1; 2; 2].
Proof.
  assert (E : exists st', run ex_st ex_ops = Ok st' /\ s_be st' = Torch /\ shape (s_mask st') = [2; 1; 2; 2])
    by (eexists; split; [vm_compute; reflexivity|split; reflexivity]).
  destruct E as [st' [E Hst']]. exists st'. split; [exact E|].
  split; [apply (run_reachable ex_ops); exact E|]. split; [eapply run_inv; [apply ex_start|exact E]|exact Hst'].
Qed.
Example ex_tf : exists st', run ex_st [ToTensorflow; Normalize 0 1; NormalizeDistribution false [false; false]; SliceStep (-1)%Z; DropoutNormal []] = Ok st'
                            /\ Inv st' /\ s_be st' = Tf.
Proof.
  assert (E : exists st', run ex_st [ToTensorflow; Normalize 0 1; NormalizeDistribution false [false; false]; SliceStep (-1)%Z; DropoutNormal []] = Ok st'
                          /\ s_be st' = Tf) by (eexists; split; [vm_compute; reflexivity|reflexivity]).
  destruct E as [st' [E Hbe]]. exists st'. split; [exact E|]. split; [eapply run_inv; [apply ex_start|exact E]|exact Hbe].
Qed.

(* the preconditions are needed: without them the very same operations break the invariant *)
(* reference points never observed together: the centre is masked and masks everything *)
Definition ex2_st : state :=
  Eval vm_compute in match start_state ex_hdr 3 1 3 2 [false; false; true;  false; true; false;  false; true; true] with Ok s => s | Err _ => dummy end.
Example normalize_needs_observed_points :
  exists st', Inv ex2_st /\ pre ex2_st (Normalize 1 2) = false /\ step ex2_st (Normalize 1 2) = Ok st' /\ ~ Inv st'.
Proof.
  eexists. split; [apply invb_sound; vm_compute; reflexivity|]. split; [vm_compute; reflexivity|]. split; [vm_compute; reflexivity|].
  apply invb_false_not_inv. vm_compute. reflexivity.
Qed.
(* a coordinate with zero deviation: NumPy's masked division masks it in that dimension only *)
Example normalize_distribution_needs_deviation :
  exists st', Inv ex_st /\ step ex_st (NormalizeDistribution true [false; true; false; false; false; false]) = Ok st' /\ ~ Inv st'.
Proof.
  eexists. split; [apply ex_start|]. split; [vm_compute; reflexivity|]. apply invb_false_not_inv. vm_compute. reflexivity.
Qed.
(* selecting nothing leaves a header without components: num_dims() raises *)
Example selection_needs_a_component :
  exists st', step ex_st (GetComponents [] None) = Ok st' /\ ~ Inv st' /\ num_dims (s_hdr st') = None.
Proof.
  eexists. split; [vm_compute; reflexivity|]. split; [apply invb_false_not_inv; vm_compute; reflexivity|reflexivity].
Qed.

(* ---- mixed format lengths: the invariant exactly as the property states it is NOT preserved by selection ----
   header A "XYZC", B "XYC", body with 3 dims: header and body agree (max format length - 1 = 3); selecting B
   gives a header with 2 dims over a 3-dim body (Pose.write then raises).  This is why [Inv] asks for
   equal format lengths (2-D poses, 3-D poses). *)
Definition mixed_hdr : header := [ {| c_name := nA; c_points := [pa0]; c_fmt := 4 |}; {| c_name := nB; c_points := [pb0]; c_fmt := 3 |} ].
Definition mixed_st : state := Eval vm_compute in match start_state mixed_hdr 1 1 2 3 [false; false] with Ok s => s | Err _ => dummy end.
Theorem selection_mixed_formats_refuted :
  exists st o st', inv_stmt_b st = true /\ pre st o = true /\ step st o = Ok st' /\ inv_stmt_b st' = false
                   /\ num_dims (s_hdr st') = Some 2%Z /\ shape (s_mask st') = [1; 1; 1; 3].
Proof.
  exists mixed_st, (GetComponents [nB] None). eexists.
  split; [vm_compute; reflexivity|]. split; [reflexivity|]. split; [vm_compute; reflexivity|]. repeat split; vm_compute; reflexivity.
Qed.

(* serialisation: a concrete pose over [ex_st] that Pose.write accepts *)
Definition one64 : N := 4607182418800017408%N.            (* 1.0 *)
Definition ex_wp : wpose :=
  {| w_dims := (640, 480, 0)%Z;
     w_comps := [ {| wc_name := nA; wc_format := [88; 89; 67]%N; wc_points := [pa0; pa1]; wc_limbs := [(0, 1)%Z]; wc_colors := [(255, 0, 0)%Z] |};
                  {| wc_name := nB; wc_format := [88; 89; 67]%N; wc_points := [pb0]; wc_limbs := []; wc_colors := [] |} ];
     w_fps := 4627448617123184640%N;                        (* 24.0 *)
     w_shape := [3; 1; 3; 2]%N; w_data := repeat one64 18;
     w_cshape := [3; 1; 3]%N; w_conf := [one64; one64; 0; one64; 0; one64; one64; one64; one64]%N |}.
Example ex_abstracts : abstracts ex_st ex_wp.
Proof. constructor; [reflexivity|repeat constructor|reflexivity|reflexivity|vm_compute; reflexivity]. Qed.
Example ex_serialisable : exists bs, write_pose ex_wp = Ok bs /\ bs <> [].
Proof. eexists. split; [vm_compute; reflexivity|discriminate]. Qed.

(* progress is not vacuous: the bounding box of a 3-D pose (the case of F11) *)
Definition ex3_hdr : header := [ {| c_name := nA; c_points := [pa0; pa1]; c_fmt := 4 |}; {| c_name := nB; c_points := [pb0]; c_fmt := 4 |} ].
Definition ex3_st : state := Eval vm_compute in match start_state ex3_hdr 2 1 3 3 [false; true; true;  false; false; false] with Ok s => s | Err _ => dummy end.
Example bbox_3d_ok : Inv ex3_st /\ s_be ex3_st = Np /\ expects_ok_np ex3_st BBox = true
                     /\ exists st', step ex3_st BBox = Ok st' /\ Inv st' /\ shape (s_mask st') = [2; 1; 4; 3].
Proof.
  split; [apply invb_sound; vm_compute; reflexivity|]. split; [reflexivity|]. split; [vm_compute; reflexivity|].
  eexists. split; [vm_compute; reflexivity|]. split; [apply invb_sound; vm_compute; reflexivity|reflexivity].
Qed.
