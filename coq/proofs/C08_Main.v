(* C08 - [cfgR], [ok_res], [at3] of the statements of props/C08.v (their other names: [out_of], [res_shape] and the
   example content in C08_Edge.v, [vis_row] in C08_Ops.v), and the validity of a point that was read. *)
From Coq Require Import ZArith NArith List Bool Lia.
Require Import ListFacts Result F32 Codec C08_Body C08_Read C08_Spec C08_Lemmas C08_Ctor C08_Ops.
Import ListNotations.
Local Open Scope nat_scope.

Definition cfgR := cfg_repaired.
(* the content TensorFlow is asked about has no subnormal confidence *)
Definition ok_res (b : bk) (r : result core) : Prop := match r with Ok k => ok_for b (k_pts k) | Err _ => True end.

Lemma obs_rep_res b r : ok_res b r -> rmap (observe b) (rmap (rep b) r) = rmap obs_core r.
Proof. intros H. destruct r as [k|e]; cbn [rmap]; [|reflexivity]. f_equal. now apply obs_rep. Qed.

Definition at3 {X} (d : X) (l : t3 X) (f p t : nat) : X := nth t (nth p (nth f l []) []) d.
Lemma at3_map3 {X Y} (h : X -> Y) (dx : X) (dy : Y) (l : t3 X) f p t :
  t < length (nth p (nth f l []) []) -> at3 dy (map3 h l) f p t = h (at3 dx l f p t).
Proof. intros Ht. unfold at3, map3, t3, t2 in *. rewrite (nth_map_nil (map h) f l), (nth_map_nil h p (nth f l [])).
  rewrite (nth_indep _ dy (h dx)) by (now rewrite map_length).
  apply map_nth. Qed.
(* a point is missing in all of its dimensions exactly when its confidence is 0 *)
Lemma missing_iff_zero_conf mm eo b buffer a x : read_body (cfgR mm eo) b buffer a = Ok x -> ok_res b (read_core buffer a) ->
  exists k, read_core buffer a = Ok k /\ observe b x = obs_core k /\
    forall f p t d, t < length (nth p (nth f (k_pts k) []) []) -> d < kD k ->
      nth d (at3 [] (rows (fun w => negb (is_zero32 w)) (kD k) (k_pts k)) f p t) true
      = negb (is_zero32 (at3 0%N (map3 fst (k_pts k)) f p t)).
Proof. intros Hr Hok. unfold cfgR in Hr. rewrite read_body_rep in Hr. destruct (read_core buffer a) as [k|e]; [|discriminate].
  cbn [rmap] in Hr. injection Hr as <-. exists k. split; [reflexivity|]. split; [now apply obs_rep|].
  intros f p t d Ht Hd. unfold rows, point in *. rewrite (at3_map3 _ (0%N, [])) by exact Ht.
  rewrite (at3_map3 fst (0%N, [])) by exact Ht. now apply nth_repeat_lt. Qed.

