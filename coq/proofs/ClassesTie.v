(* Tie between the class structure of pose_format regenerated on every run (coq/gen/Gen_Classes.v, produced by
   harness/translate_classes.py) and the structure the hand-written models were transcribed under: which methods each
   subclass OVERRIDES, and which classes define attribute hooks.  A model transcribes a method from the class that defines
   it; an override added to a subclass, or a new __getattr__ / __getattribute__ / __setattr__ anywhere, changes which code
   runs without touching any transcribed statement list - these lemmas (by [reflexivity]) turn that into a broken proof
   obligation of every property that depends on the class.  A new method that shadows nothing leaves the tables unchanged. *)
From Coq Require Import String List.
Require Gen_Classes.
Import ListNotations.
Open Scope string_scope.

Fixpoint assoc {A} (k : string) (l : list (string * A)) : option A :=
  match l with [] => None | (k', v) :: r => if String.eqb k k' then Some v else assoc k r end.

(* the three body classes over PoseBody *)
Definition exp_over_numpy_body : list string * list string :=
  (["pose_body.py::PoseBody"],
   ["__init__"; "read_v0_0"; "write"; "copy"; "torch"; "tensorflow"; "zero_filled"; "matmul"; "points_perspective"; "get_points"; "bbox"; "flatten"]).
(* [over_X]: the package-level ancestors of class X and the methods of X that also exist in one of them, in the current source *)
Definition over_numpy_body : option (list string * list string) := assoc "numpy/pose_body.py::NumPyPoseBody" Gen_Classes.overrides.
Lemma over_numpy_body_tie : over_numpy_body = Some exp_over_numpy_body.
Proof. reflexivity. Qed.
Definition exp_over_torch_body : list string * list string :=
  (["pose_body.py::PoseBody"], ["__init__"; "copy"; "zero_filled"; "matmul"; "points_perspective"; "get_points"; "flatten"]).
Definition over_torch_body : option (list string * list string) := assoc "torch/pose_body.py::TorchPoseBody" Gen_Classes.overrides.
Lemma over_torch_body_tie : over_torch_body = Some exp_over_torch_body.
Proof. reflexivity. Qed.
Definition exp_over_tf_body : list string * list string :=
  (["pose_body.py::PoseBody"],
   ["__init__"; "zero_filled"; "select_frames"; "frame_dropout_given_percent"; "frame_dropout_uniform"; "frame_dropout_normal";
    "points_perspective"; "copy"; "get_points"; "matmul"]).
Definition over_tf_body : option (list string * list string) := assoc "tensorflow/pose_body.py::TensorflowPoseBody" Gen_Classes.overrides.
Lemma over_tf_body_tie : over_tf_body = Some exp_over_tf_body.
Proof. reflexivity. Qed.
(* the stream reader over the buffer reader *)
Definition exp_over_stream_reader : list string * list string :=
  (["utils/reader.py::BufferReader"], ["__init__"; "skip"; "expect_to_read"; "bytes_remaining"]).
Definition over_stream_reader : option (list string * list string) := assoc "utils/reader.py::BytesIOReader" Gen_Classes.overrides.
Lemma over_stream_reader_tie : over_stream_reader = Some exp_over_stream_reader.
Proof. reflexivity. Qed.
(* the two pose representations over PoseRepresentation *)
Definition exp_over_torch_repr : list string * list string :=
  (["pose_representation.py::PoseRepresentation"], ["__init__"; "group_embeds"; "permute"]).
Definition over_torch_repr : option (list string * list string) := assoc "torch/pose_representation.py::TorchPoseRepresentation" Gen_Classes.overrides.
Lemma over_torch_repr_tie : over_torch_repr = Some exp_over_torch_repr.
Proof. reflexivity. Qed.
Definition exp_over_tf_repr : list string * list string :=
  (["pose_representation.py::PoseRepresentation"], ["group_embeds"; "get_points"; "permute"]).
Definition over_tf_repr : option (list string * list string) := assoc "tensorflow/pose_representation.py::TensorflowPoseRepresentation" Gen_Classes.overrides.
Lemma over_tf_repr_tie : over_tf_repr = Some exp_over_tf_repr.
Proof. reflexivity. Qed.
(* no other class of the package has a package-level base class (the visualizer aside) *)
Definition exp_subclasses : list string :=
  [ "numpy/pose_body.py::NumPyPoseBody"; "pose_visualizer.py::FastAndUglyPoseVisualizer"; "tensorflow/pose_body.py::TensorflowPoseBody";
    "tensorflow/pose_representation.py::TensorflowPoseRepresentation"; "torch/pose_body.py::TorchPoseBody";
    "torch/pose_representation.py::TorchPoseRepresentation"; "utils/reader.py::BytesIOReader" ].
Definition subclasses : list string := map fst Gen_Classes.overrides.
Lemma subclasses_tie : subclasses = exp_subclasses.
Proof. reflexivity. Qed.
(* attribute hooks: Pose.__getattr__ (pass-through to the body), the two MaskedTensor.__getattr__ and the two fall-back
   metaclasses - nothing else intercepts attribute access *)
Definition exp_attr_hooks : list (string * list string) :=
  [ ("pose.py::Pose", ["__getattr__"]);
    ("tensorflow/masked/tensor.py::MaskedTensor", ["__getattr__"]);
    ("tensorflow/masked/tensorflow.py::TensorflowFallback", ["__getattr__"]);
    ("torch/masked/tensor.py::MaskedTensor", ["__getattr__"]);
    ("torch/masked/torch.py::TorchFallback", ["__getattr__"]) ].
Lemma attr_hooks_tie : Gen_Classes.attr_hooks = exp_attr_hooks.
Proof. reflexivity. Qed.
