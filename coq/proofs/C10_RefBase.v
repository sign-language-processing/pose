(* C10 - refinement of the reference semantics, part 1: the invariant, what reading a register and broadcasting two
   masked operands give on the pair tensors, and the instructions that only move cells (structural ones, concatenation,
   stacking), which refine the reference whatever the switches. *)
From Coq Require Import List Arith ZArith Bool Lia.
Require Import Result Tensor Num C10_Tensor C10_Masked C10_TensorLemmas C10_Aligned.
Import ListNotations.

Section RefBase.
Variable O : ops.
Variable trig : uname -> T O -> T O.
Notation mt := (mt O).
Notation pt := (pt O).
Notation pair_of := (pair_of O).
Notation dp := (dp O).
Notation z0 := (z0 O).
Notation exec := (exec O trig).
Notation rexec := (rexec O trig).

Definition ok (m : mt) : Prop := wf (fst m) /\ wf (snd m) /\ shape (fst m) = shape (snd m).
Lemma ok_al m : ok m -> al O m.
Proof. now intros [_ [_ H]]. Qed.
Lemma ok_len m : ok m -> length (data (fst m)) = length (data (snd m)).
Proof. intros [H1 [H2 H3]]. unfold wf in *. congruence. Qed.
Lemma pair_shape m : shape (pair_of m) = shape (fst m).
Proof. reflexivity. Qed.
Lemma pair_wf m : ok m -> wf (pair_of m).
Proof. intros H. apply tzip_wf; [apply H | now apply ok_len]. Qed.
Definition operand_wf (o : operand O) : Prop := match o with OReg _ _ => True | OPlain _ t => wf t end.
(* ICat wraps its plain operands into masked tensors ([wrap]), and [pair_wrap] needs those well-formed; arithmetic
   with a plain operand only broadcasts it and needs nothing *)
Definition instr_wf (i : instr O) : Prop := match i with ICat _ os _ => Forall operand_wf os | _ => True end.

Lemma get_map {X Y} (g : X -> Y) env r : get (map g env) r = rmap g (get env r).
Proof. unfold get. rewrite nth_error_map. now destruct (nth_error env r). Qed.
Lemma gets_map {X Y} (g : X -> Y) env rs : gets (map g env) rs = rmap (map g) (gets env rs).
Proof. induction rs as [|r rs IH]; cbn; [reflexivity|]. rewrite get_map, IH.
  destruct (get env r); cbn; [|reflexivity]. now destruct (gets env rs). Qed.

Lemma pair_tabulate ns (cv : nat -> T O) (ck : nat -> bool) :
  pair_of (tabulate ns cv, tabulate ns ck) = tabulate ns (fun k => (cv k, ck k)).
Proof. apply tzip_tabulate. Qed.
Lemma ok_tabulate ns (cv : nat -> T O) (ck : nat -> bool) : ok (tabulate ns cv, tabulate ns ck).
Proof. repeat split; apply tabulate_wf. Qed.
Lemma pair_nth m k : ok m -> nth k (data (pair_of m)) dp = (nth k (data (fst m)) z0, nth k (data (snd m)) false).
Proof. intros H. apply nth_tzip. now apply ok_len. Qed.
Lemma bget_pair ns m k : ok m -> bget dp ns (pair_of m) k = (bget z0 ns (fst m) k, bget false ns (snd m) k).
Proof. intros H. apply bget_tzip; [apply H | now apply ok_len]. Qed.
(* values combined by [g], validity by [&&]: both broadcast to the same shape *)
Lemma bzip_and_nf (g : T O -> T O -> T O) (m m2 : mt) v k : ok m -> ok m2 ->
  bzip z0 z0 g (fst m) (fst m2) = Ok v -> bzip false false andb (snd m) (snd m2) = Ok k ->
  exists ns, broadcast_shapes (shape (fst m)) (shape (fst m2)) = Ok ns /\
    v = tabulate ns (fun j => g (bget z0 ns (fst m) j) (bget z0 ns (fst m2) j)) /\
    k = tabulate ns (fun j => bget false ns (snd m) j && bget false ns (snd m2) j).
Proof. intros Hm Hm2 Hv Hk. apply bzip_ok in Hv. destruct Hv as [ns [B1 ->]]. apply bzip_ok in Hk. destruct Hk as [n2 [B2 ->]].
  rewrite <- (ok_al _ Hm), <- (ok_al _ Hm2), B1 in B2. injection B2 as <-. now exists ns. Qed.

(* an instruction that starts by reading register [r] refines the reference if what follows does, for every [ok] content *)
Lemma get_refines r (k : mt -> result (list mt)) (k' : pt -> result (list pt)) env outs : Forall ok env ->
  (forall m, ok m -> k m = Ok outs -> k' (pair_of m) = Ok (map pair_of outs) /\ Forall ok outs) ->
  (do m <- get env r; k m) = Ok outs -> (do m <- get (map pair_of env) r; k' m) = Ok (map pair_of outs) /\ Forall ok outs.
Proof. intros He Hk H. binv H. rewrite get_map, E. apply Hk; [exact (get_P ok _ _ _ He E) | exact H]. Qed.

Lemma struct_refines p m outs : ok m -> exec_struct O p m = Ok outs ->
  (do ps <- p (shape (pair_of m)); Ok (map (fun q : plan => reindex dp (fst q) (snd q) (pair_of m)) ps)) = Ok (map pair_of outs)
  /\ Forall ok outs.
Proof. intros Hm H. unfold exec_struct in H. rewrite pair_shape. rewrite <- (ok_al _ Hm) in H. binv H. rename x into ps.
  rewrite combine_map_same in H. injection H as <-. rewrite map_map. cbn [rbind]. split.
  - f_equal. apply map_ext. intros q. apply reindex_zip; [now apply ok_al | now apply ok_len].
  - apply Forall_map, Forall_forall. intros q _. repeat split; apply reindex_wf. Qed.

Lemma pair_wrap t : wf t -> pair_of (wrap O t) = lift O t.
Proof. intros H. unfold pair_of, C10_Masked.pair_of, wrap, lift, tzip, tmap, tconst, tabulate; cbn [fst snd shape data]. f_equal.
  apply combine_const_r. symmetry. exact H. Qed.
Lemma ok_wrap t : wf t -> ok (wrap O t).
Proof. intros H. repeat split; [exact H | apply tabulate_wf]. Qed.
Lemma operands_refine env os ms : Forall operand_wf os -> Forall ok env -> operands_mt O env os = Ok ms ->
  operands_pt O (map pair_of env) os = Ok (map pair_of ms) /\ Forall ok ms.
Proof. intros Hw He. revert ms. induction Hw as [|o os Ho _ IH]; cbn; intros ms H; [injection H as <-; split; [reflexivity|constructor]|].
  binv H. binv H. injection H as <-. destruct (IH _ eq_refl) as [IH1 IH2]. rewrite IH1.
  destruct o as [r|t]; cbn [operand_mt operand_pt operand_wf] in *.
  - rewrite get_map, E. cbn. split; [reflexivity|]. constructor; [|exact IH2]. exact (get_P ok _ _ _ He E).
  - injection E as <-. cbn. rewrite pair_wrap by exact Ho. split; [reflexivity|]. constructor; [now apply ok_wrap | exact IH2]. Qed.
Lemma multi_refines (p : list (list nat) -> result plan) (ms : list mt) v k : Forall ok ms ->
  multi z0 p (map fst ms) = Ok v -> multi false p (map snd ms) = Ok k ->
  multi dp p (map pair_of ms) = Ok (pair_of (v, k)) /\ ok (v, k).
Proof. intros Hm. unfold multi.
  replace (map shape (map pair_of ms)) with (map shape (map fst ms)) by (now rewrite !map_map).
  rewrite <- (shapes_al O ms) by (eapply Forall_impl; [|exact Hm]; intros m; apply ok_al).
  destruct (p (map shape (map fst ms))) as [[ns f]|]; [|discriminate].
  intros [= <-] [= <-]. split; [|repeat split; apply reindex_wf]. f_equal.
  destruct (flatcat_tzip ms) as [F1 F2]; [eapply Forall_impl; [|exact Hm]; intros m; apply ok_len|].
  replace (flatcat (map pair_of ms)) with (tzip (flatcat (map fst ms)) (flatcat (map snd ms))) by (symmetry; exact F1).
  apply reindex_zip; [|exact F2]. unfold flatcat in *; cbn [shape data] in *. now rewrite F2. Qed.

(* ---- rule 1: structural operations, concatenation and stacking move values and validity together:
        whatever the switches, the results are exactly the re-indexed tensor of (value, validity) pairs *)
Lemma structural_moves_together c f i r p env outs : plans_of O f i = Some (r, p) -> Forall ok env ->
  exec c f i env = Ok outs -> rexec f i (map pair_of env) = Ok (map pair_of outs) /\ Forall ok outs.
Proof. intros Hp He H. unfold C10_Masked.exec in H. unfold C10_Masked.rexec. rewrite Hp in *.
  revert H. apply get_refines; [exact He|]. intros m Hm. now apply struct_refines. Qed.
Lemma cat_stack_move_together c f i env outs : (exists os d, i = ICat O os d /\ Forall operand_wf os) \/ (exists rs d, i = IStack O rs d) ->
  Forall ok env -> exec c f i env = Ok outs -> rexec f i (map pair_of env) = Ok (map pair_of outs) /\ Forall ok outs.
Proof. intros [[os [d [-> Hw]]] | [rs [d ->]]] He H; unfold C10_Masked.exec in H; unfold C10_Masked.rexec; cbn [plans_of] in *;
    binv H; rename x into ms.
  - destruct (operands_refine env os ms Hw He E) as [R1 R2]. rewrite R1. cbn [rbind].
    binv H. binv H. injection H as <-. destruct (multi_refines (cat_planZ d) ms _ _ R2 E0 E1) as [M1 M2].
    rewrite M1. split; [reflexivity | now apply Forall_one].
  - rewrite gets_map, E. cbn [rmap rbind].
    binv H. binv H. injection H as <-. destruct (multi_refines (stack_planZ d) ms _ _ (gets_P ok _ _ _ He E) E0 E1) as [M1 M2].
    rewrite M1. split; [reflexivity | now apply Forall_one]. Qed.
End RefBase.
