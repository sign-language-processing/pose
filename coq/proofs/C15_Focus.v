(* C15 - focus: a common translation that puts the smallest observed coordinate of every axis at 0; header
   dimensions are the observed extents rounded up; confidences and the missing pattern are untouched. *)
From Coq Require Import Reals ZArith List Bool Lia Lra.
Require Import Result Num RealFacts C15_Spatial C15_Real C15_Lemmas C15_Flip.
Import ListNotations.
Local Open Scope R_scope.

Lemma R_ceil_spec x z : R_ceil x = Some z -> is_ceil z x.
Proof. intros H. assert (Hz : z = (1 - up (- x))%Z) by (unfold R_ceil in H; congruence). subst z.
  unfold is_ceil. destruct (archimed (- x)) as [H1 H2]. rewrite minus_IZR. lra. Qed.

Definition amin (b : rframes) (d : nat) : R := val R_ops (lmin R_ops (obs_axis R_ops d (all_points R_ops b))).
Definition amax (b : rframes) (d : nat) : R := val R_ops (lmax R_ops (obs_axis R_ops d (all_points R_ops b))).
Definition mins_of (D : nat) (b : rframes) : list R := map (amin b) (seq 0 D).

Section Observed.
(* on a well-formed body every axis has an observed value as soon as one has *)
Context (D : nat) (b : rframes) (Hwf : wf_body D b) (Hobs : all_missing (all_points R_ops b) = false).
Lemma lmin_amin d : (d < D)%nat -> lmin R_ops (obs_axis R_ops d (all_points R_ops b)) = Some (amin b d).
Proof using Hwf Hobs. intros Hd. exact (sel_some _ (@lmin_none R_ops) D _ d (all3_all_points _ _ Hwf) Hd Hobs). Qed.
Lemma lmax_amax d : (d < D)%nat -> lmax R_ops (obs_axis R_ops d (all_points R_ops b)) = Some (amax b d).
Proof using Hwf Hobs. intros Hd. exact (sel_some _ (@lmax_none R_ops) D _ d (all3_all_points _ _ Hwf) Hd Hobs). Qed.
Lemma amin_is_min d : (d < D)%nat -> is_min (amin b d) (obs_axis R_ops d (all_points R_ops b)).
Proof using Hwf Hobs. intros Hd. now apply lmin_spec, lmin_amin. Qed.
Lemma amax_is_max d : (d < D)%nat -> is_max (amax b d) (obs_axis R_ops d (all_points R_ops b)).
Proof using Hwf Hobs. intros Hd. now apply lmax_spec, lmax_amax. Qed.
End Observed.
Lemma mins_of_length D b : length (mins_of D b) = D.
Proof. unfold mins_of. now rewrite map_length, seq_length. Qed.
Lemma mins_of_nth D b d m : nth_error (mins_of D b) d = Some m <-> (d < D)%nat /\ m = amin b d.
Proof. unfold mins_of. rewrite nth_error_tabulate. destruct (Nat.ltb_spec d D); split.
  - intros [= <-]. now split.
  - intros [_ ->]. reflexivity.
  - discriminate.
  - lia. Qed.

Definition nonzero (m : R) : bool := negb (Reqb m 0).
Definition focused (D : nat) (b : rframes) : rframes := map3 R_ops (shift_point R_ops (mins_of D b)) b.
(* the header dimension along axis d; R_ceil is total *)
Definition extent (b : rframes) (d : nat) : Z := (1 - up (- (amax b d - amin b d)))%Z.

Lemma zipw_osub_some (maxs mins : list R) : zipw (osub R_ops) (map Some maxs) (map Some mins) = map Some (zipw Rminus maxs mins).
Proof. revert mins; induction maxs as [|x maxs IH]; intros [|m mins]; cbn [map zipw]; try reflexivity. rewrite IH. reflexivity. Qed.
Lemma existsb_nonzero_some (mins : list R) :
  existsb (fun m : option R => match m with Some v => negb (Reqb v 0) | None => true end) (map Some mins) = existsb nonzero mins.
Proof. induction mins as [|m mins IH]; cbn [map existsb]; [reflexivity | now rewrite IH]. Qed.
Lemma map_val_some (mins : list R) : map (val R_ops) (map Some mins) = mins.
Proof. rewrite map_map. cbn [val]. apply map_id. Qed.

Lemma shift_point_mzip mins (p : rpoint) : shift_point R_ops mins p = mzip Rminus mins p.
Proof. reflexivity. Qed.
(* the test that skips the subtraction changes nothing: it is skipped only when every minimum is 0 *)
Lemma focused_if D (b : rframes) : wf_body D b -> (if existsb nonzero (mins_of D b) then focused D b else b) = focused D b.
Proof. intros Hwf. destruct (existsb nonzero (mins_of D b)) eqn:E; [reflexivity|]. unfold focused. rewrite <- (map3_id b) at 1.
  apply (map3_ext_all3 (wf_point D)); [exact Hwf|]. intros p Hp. symmetry. rewrite shift_point_mzip. apply mzip_neutral.
  - intros x m Hm. destruct (Req_EM_T m 0) as [->|Hne]; [apply Rminus_0_r|]. exfalso.
    assert (existsb nonzero (mins_of D b) = true); [|congruence]. apply existsb_exists. exists m. split; [exact Hm|].
    unfold nonzero. now rewrite (proj2 (Reqb_false m 0) Hne).
  - rewrite mins_of_length. apply Nat.eq_le_incl. exact (proj1 Hp). Qed.

Lemma focus_eq D (b : rframes) : wf_body D b -> all_missing (all_points R_ops b) = false -> (2 <= D)%nat ->
  focus R_ops R_ceil D b = Ok (focused D b, (extent b 0, extent b 1, if Nat.eqb D 2 then 0%Z else extent b 2)).
Proof. intros Hwf Hobs HD. unfold focus.
  rewrite (map_ext_in (fun d => lmin R_ops (obs_axis R_ops d (all_points R_ops b))) (fun d => Some (amin b d)))
    by (intros d Hd; apply in_seq in Hd; apply (lmin_amin D b Hwf Hobs); lia).
  rewrite (map_ext_in (fun d => lmax R_ops (obs_axis R_ops d (all_points R_ops b))) (fun d => Some (amax b d)))
    by (intros d Hd; apply in_seq in Hd; apply (lmax_amax D b Hwf Hobs); lia).
  rewrite <- (map_map (amin b) Some), <- (map_map (amax b) Some). rsimp.
  rewrite zipw_osub_some, existsb_nonzero_some, map_val_some, zipw_map_same.
  change (map (amin b) (seq 0 D)) with (mins_of D b). fold (focused D b). rewrite (focused_if D b Hwf).
  destruct D as [|[|[|n]]]; try lia; reflexivity. Qed.
Lemma focus_ok_observed D (b b' : rframes) dims : focus R_ops R_ceil D b = Ok (b', dims) ->
  (2 <= D)%nat /\ exists m, lmin R_ops (obs_axis R_ops 0 (all_points R_ops b)) = Some m.
Proof. unfold focus. intros H. destruct D as [|[|n]]; cbn [seq map zipw] in H; try discriminate.
  split; [lia|]. destruct (lmin R_ops (obs_axis R_ops 0 (all_points R_ops b))) as [m|]; [eauto|].
  destruct (lmax R_ops (obs_axis R_ops 0 (all_points R_ops b))); cbn [osub need rbind] in H; discriminate. Qed.
Lemma focus_inv D (b b' : rframes) dims : wf_body D b -> focus R_ops R_ceil D b = Ok (b', dims) ->
  (2 <= D)%nat /\ all_missing (all_points R_ops b) = false /\ b' = focused D b /\
  dims = (extent b 0, extent b 1, if Nat.eqb D 2 then 0%Z else extent b 2).
Proof. intros Hwf H. destruct (focus_ok_observed D b b' dims H) as [HD [m Hm]].
  assert (Hobs : all_missing (all_points R_ops b) = false).
  { pose proof (is_none_sel _ (@lmin_none R_ops) D _ 0%nat (all3_all_points _ _ Hwf) ltac:(lia)) as E. now rewrite Hm in E. }
  rewrite (focus_eq D b Hwf Hobs HD) in H. injection H as <- <-. now repeat split. Qed.

Lemma shift_point_observes D (mins : list R) (p : rpoint) k x : wf_point D p -> length mins = D -> observes p k x ->
  exists m, nth_error mins k = Some m /\ observes (shift_point R_ops mins p) k (x - m).
Proof. intros Hwf Hl Hk. assert (Hlt : (k < length mins)%nat) by (rewrite Hl; exact (observes_lt D p k x Hwf Hk)).
  destruct (nth_error mins k) as [m|] eqn:E; [|apply nth_error_None in E; lia].
  exists m. split; [reflexivity|]. rewrite shift_point_mzip. now apply mzip_observes. Qed.
Lemma obs_axis_shift (mins : list R) (pts : list rpoint) d m : nth_error mins d = Some m ->
  obs_axis R_ops d (map (shift_point R_ops mins) pts) = map (fun x => x - m) (obs_axis R_ops d pts).
Proof. intros Hm. unfold obs_axis. induction pts as [|p pts IH]; cbn [map flat_map]; [reflexivity|].
  rewrite map_app, IH. f_equal. unfold shift_point. cbn [pcs]. rewrite zipw_nth_error. rsimp. rewrite Hm.
  destruct (@nth_error (R * bool) (pcs p) d) as [[x mk]|]; [|reflexivity]. cbn [fst snd]. destruct mk; reflexivity. Qed.
Lemma is_min_shift m (l : list R) : is_min m l -> is_min 0 (map (fun x => x - m) l).
Proof. intros [Hin Hle]. split.
  - rewrite <- (Rminus_diag_eq m m eq_refl). now apply (in_map (fun x => x - m)).
  - intros y Hy. apply in_map_iff in Hy as [x [<- Hx]]. specialize (Hle _ Hx). lra. Qed.

Definition focus_point_spec (mins : list R) (p p' : rpoint) : Prop :=
  same_conf_mask p p' /\ forall k x, observes p k x -> exists m, nth_error mins k = Some m /\ observes p' k (x - m).

Lemma focus_is_translation D (b b' : rframes) dims :
  wf_body D b -> focus R_ops R_ceil D b = Ok (b', dims) ->
  exists mins : list R, length mins = D /\
    (forall d m, nth_error mins d = Some m -> is_min m (obs_axis R_ops d (all_points R_ops b))) /\
    rel3 (focus_point_spec mins) b b' /\ wf_body D b'.
Proof. intros Hwf H. destruct (focus_inv D b b' dims Hwf H) as [_ [Hobs [-> _]]].
  pose proof (mins_of_length D b) as Hlen.
  exists (mins_of D b). split; [exact Hlen|]. split.
  { intros d m Hd. apply mins_of_nth in Hd as [Hd ->]. now apply (amin_is_min D). }
  split.
  - apply (all3_rel3_map3 (wf_point D)); [exact Hwf|]. intros p Hp. split; [split|].
    + reflexivity.
    + rewrite shift_point_mzip. now apply (mzip_masks _ D).
    + intros k x. now apply (shift_point_observes D).
  - apply (all3_map3 (wf_point D)); [exact Hwf|]. intros p Hp. rewrite shift_point_mzip. now apply mzip_wf. Qed.

Lemma focus_min_zero D (b b' : rframes) dims :
  wf_body D b -> focus R_ops R_ceil D b = Ok (b', dims) ->
  forall d, (d < D)%nat -> is_min 0 (obs_axis R_ops d (all_points R_ops b')).
Proof. intros Hwf H d Hd. destruct (focus_inv D b b' dims Hwf H) as [_ [Hobs [-> _]]].
  pose proof (amin_is_min D b Hwf Hobs d Hd) as Hmin.
  assert (Em : nth_error (mins_of D b) d = Some (amin b d)) by (now apply mins_of_nth).
  unfold focused. rewrite all_points_map3, (obs_axis_shift _ _ d _ Em). now apply is_min_shift. Qed.

Lemma focus_dims D (b b' : rframes) dims :
  wf_body D b -> focus R_ops R_ceil D b = Ok (b', dims) ->
  (2 <= D)%nat /\ (D = 2%nat -> snd dims = 0%Z) /\
  forall d, (d < D)%nat -> (d < 3)%nat ->
    exists mn mx, is_min mn (obs_axis R_ops d (all_points R_ops b)) /\ is_max mx (obs_axis R_ops d (all_points R_ops b)) /\
                  is_ceil (dim_of dims d) (mx - mn).
Proof. intros Hwf H. destruct (focus_inv D b b' dims Hwf H) as [HD [Hobs [_ ->]]].
  split; [exact HD|]. split; [intros ->; reflexivity|]. intros d Hd Hd3.
  exists (amin b d), (amax b d). split; [now apply (amin_is_min D)|]. split; [now apply (amax_is_max D)|].
  apply R_ceil_spec. destruct d as [|[|[|d]]]; try lia; try reflexivity.
  cbn [dim_of snd]. destruct (Nat.eqb_spec D 2); [lia | reflexivity]. Qed.
