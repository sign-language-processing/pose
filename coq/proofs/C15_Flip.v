(* C15 - first the layer C15_Matmul, C15_Focus and C15_Bbox share: well-formed points (one mask bit per point,
   confidence 0 => missing) - the constructor fixes them, every axis of a point is observed or none is - and the masked
   element-wise operation [mzip], which preserves them.
   Then flip: negates exactly one coordinate, is an involution, keeps confidences and the missing pattern. *)
From Coq Require Import Reals ZArith List Bool Lia Lra.
Require Import Result Num RealFacts ListFacts C15_Spatial C15_Real C15_Lemmas.
Import ListNotations.

Lemma allmasked_masks (p : rpoint) : missing p = forallb (fun b => b) (masks p).
Proof. unfold missing, allmasked, masks. induction (pcs p) as [|c r IH]; cbn [forallb map]; [reflexivity | now rewrite IH]. Qed.
Lemma point_ext {O : ops} (p q : point O) : pcs p = pcs q -> pc p = pc q -> p = q.
Proof. destruct p as [l1 c1], q as [l2 c2]; cbn [pcs pc]; intros -> ->; reflexivity. Qed.
Lemma wf_masks D (p : rpoint) : wf_point D p -> masks p = repeat (missing p) D.
Proof. intros H. exact (proj1 (proj2 H)). Qed.
Lemma masks_uniform_mask D (p : rpoint) c : wf_point D p -> In c (pcs p) -> snd c = missing p.
Proof. intros Hwf Hin. apply (in_map snd) in Hin. fold (masks p) in Hin. rewrite (wf_masks D p Hwf) in Hin. now apply repeat_spec in Hin. Qed.
Lemma wf_unmasked_conf D (p : rpoint) c : wf_point D p -> In c (pcs p) -> snd c = false -> Reqb (pc p) 0 = false.
Proof. intros Hwf Hin Hc. apply Reqb_false. intros H0. rewrite (masks_uniform_mask D p c Hwf Hin) in Hc.
  rewrite (proj2 (proj2 Hwf) H0) in Hc. discriminate. Qed.
Lemma reinit_wf_id D (p : rpoint) : wf_point D p -> reinit R_ops p = p.
Proof. intros Hwf. apply point_ext; [|reflexivity]. unfold reinit. cbn [pcs]. rsimp.
  rewrite <- (map_id (pcs p)) at 2. apply map_ext_in. intros [x m] Hin. cbn [fst snd].
  destruct m; [reflexivity|]. now rewrite (wf_unmasked_conf D p (x, false) Hwf Hin eq_refl). Qed.
Lemma wf_point_uniform K (l : list (R * bool)) (c : R) (m : bool) :
  length l = K -> map snd l = repeat m K -> (c = 0%R -> m = true) -> wf_point K (@mkP R_ops l c).
Proof. intros Hlen Hm Hc.
  assert (Hmiss : K <> 0%nat -> missing (@mkP R_ops l c) = m).
  { intros HK. rewrite allmasked_masks. unfold masks. cbn [pcs]. rsimp. rewrite Hm. now apply forallb_repeat. }
  split; [exact Hlen|]. destruct K as [|K].
  - destruct l; [|discriminate]. split; [reflexivity | intros _; reflexivity].
  - rewrite Hmiss by discriminate. split; [exact Hm | exact Hc]. Qed.
Lemma observes_lt D (p : rpoint) k x : wf_point D p -> observes p k x -> (k < D)%nat.
Proof. intros Hwf Hk. unfold observes in Hk. pose proof (proj1 Hwf) as Hl. rsimp. rewrite <- Hl. apply nth_error_Some. congruence. Qed.
Lemma observes_not_missing D (p : rpoint) k x : wf_point D p -> observes p k x -> missing p = false.
Proof. intros Hwf H. apply nth_error_In in H. now rewrite <- (masks_uniform_mask D p _ Hwf H). Qed.

Lemma wf_nth_error D (p : rpoint) d : wf_point D p -> (d < D)%nat -> exists x, nth_error (pcs p) d = Some (x, missing p).
Proof. intros Hwf Hd. destruct (nth_error (pcs p) d) as [[x m]|] eqn:E.
  - exists x. f_equal. f_equal. apply nth_error_In in E. exact (masks_uniform_mask D p (x, m) Hwf E).
  - apply nth_error_None in E. pose proof (proj1 Hwf) as Hl. rsimp. lia. Qed.
Lemma obs_axis_nil_iff D (cpts : list rpoint) d : Forall (wf_point D) cpts -> (d < D)%nat ->
  (obs_axis R_ops d cpts = [] <-> all_missing cpts = true).
Proof. intros Hwf Hd. unfold obs_axis, all_missing. induction Hwf as [|p cpts Hp Hc IH]; cbn [flat_map forallb]; [tauto|].
  destruct (wf_nth_error D p d Hp Hd) as [x Hx]. rsimp. rewrite Hx. destruct (missing p); cbn [app andb].
  - exact IH.
  - split; discriminate. Qed.
(* [sel] is lmin or lmax: None exactly on the empty list *)
Section Sel.
Variable sel : list R -> option R.
Hypothesis sel_none : forall l, sel l = None <-> l = [].
Lemma is_none_sel D (cpts : list rpoint) d : Forall (wf_point D) cpts -> (d < D)%nat ->
  is_none (sel (obs_axis R_ops d cpts)) = all_missing cpts.
Proof. intros Hwf Hd. pose proof (obs_axis_nil_iff D cpts d Hwf Hd) as H.
  destruct (sel (obs_axis R_ops d cpts)) as [m|] eqn:E; cbn [is_none].
  - destruct (all_missing cpts); [|reflexivity]. rewrite (proj2 (sel_none _) (proj2 H eq_refl)) in E. discriminate.
  - symmetry. apply H. now apply sel_none. Qed.
Lemma sel_some D (cpts : list rpoint) d : Forall (wf_point D) cpts -> (d < D)%nat -> all_missing cpts = false ->
  sel (obs_axis R_ops d cpts) = Some (val R_ops (sel (obs_axis R_ops d cpts))).
Proof. intros Hwf Hd Hm. pose proof (is_none_sel D cpts d Hwf Hd) as H. rewrite Hm in H.
  destruct (sel (obs_axis R_ops d cpts)); [reflexivity | discriminate]. Qed.
End Sel.

(* numpy.ma's element-wise binary operation: masked cells are carried along *)
Definition mcell {B} (h : R -> B -> R) (c : R * bool) (v : B) : R * bool := if snd c then c else (h (fst c) v, false).
Definition mzip {B} (h : R -> B -> R) (s : list B) (p : rpoint) : rpoint := @mkP R_ops (zipw (mcell h) (pcs p) s) (pc p).
Section Mzip.
Context {B : Type} (h : R -> B -> R) (D : nat) (s : list B) (p : rpoint).
Hypothesis (Hwf : wf_point D p) (Hs : length s = D).
Lemma mzip_masks : masks (mzip h s p) = masks p.
Proof using Hwf Hs. unfold masks, mzip. cbn [pcs]. rewrite map_zipw. rewrite (zipw_ext_in _ (fun c _ => snd c)).
  - rsimp. apply zipw_fst_only. apply Nat.eq_le_incl. rewrite Hs. exact (proj1 Hwf).
  - intros [x m] v _ _. unfold mcell. cbn [fst snd]. now destruct m. Qed.
Lemma mzip_wf : wf_point D (mzip h s p).
Proof using Hwf Hs. apply wf_point_uniform with (m := missing p).
  - rewrite zipw_length, Hs. pose proof (proj1 Hwf) as Hp. rsimp. rewrite Hp. apply Nat.min_id.
  - change (masks (mzip h s p) = repeat (missing p) D). rewrite mzip_masks. now apply wf_masks.
  - exact (proj2 (proj2 Hwf)). Qed.
Lemma mzip_observes k x v : observes p k x -> nth_error s k = Some v -> observes (mzip h s p) k (h x v).
Proof using. unfold observes, mzip. cbn [pcs]. intros Hk Hv. rewrite zipw_nth_error. rsimp. now rewrite Hk, Hv. Qed.
End Mzip.
Lemma zipw_mcell_twice {B} (h : R -> B -> R) (l : list (R * bool)) : forall s : list B,
  (forall x v, In v s -> h (h x v) v = x) -> (length l <= length s)%nat -> zipw (mcell h) (zipw (mcell h) l s) s = l.
Proof. induction l as [|[x m] r IH]; intros [|v s] Hh Hl; cbn [zipw length] in *; try reflexivity; [lia|].
  f_equal; [|apply IH; [intros; apply Hh; now right | lia]].
  unfold mcell. cbn [fst snd]. destruct m; cbn [fst snd]; [reflexivity|]. f_equal. apply Hh. now left. Qed.
Lemma mzip_twice {B} (h : R -> B -> R) (s : list B) (p : rpoint) :
  (forall x v, In v s -> h (h x v) v = x) -> (length (pcs p) <= length s)%nat -> mzip h s (mzip h s p) = p.
Proof. intros Hh Hl. apply point_ext; [now apply zipw_mcell_twice | reflexivity]. Qed.
Lemma mzip_neutral {B} (h : R -> B -> R) (s : list B) (p : rpoint) :
  (forall x v, In v s -> h x v = x) -> (length (pcs p) <= length s)%nat -> mzip h s p = p.
Proof. intros Hh Hl. apply point_ext; [|reflexivity]. unfold mzip. cbn [pcs].
  rewrite (zipw_ext_in _ (fun c _ => c)); [rewrite (zipw_fst_only (fun c => c)) by exact Hl; apply map_id|].
  intros [x m] v _ Hv. unfold mcell. cbn [fst snd]. destruct m; [reflexivity | now rewrite Hh]. Qed.

Lemma sign_vec_length D ax : length (sign_vec R_ops D ax) = D.
Proof. unfold sign_vec. now rewrite map_length, seq_length. Qed.
Lemma flip_point_eq D ax (p : rpoint) : wf_point D p -> flip_point R_ops D ax p = mzip Rmult (sign_vec R_ops D ax) p.
Proof. intros Hwf. apply (reinit_wf_id D), mzip_wf; [exact Hwf | apply sign_vec_length]. Qed.
Lemma flip_masks D ax (p : rpoint) : wf_point D p -> masks (flip_point R_ops D ax p) = masks p.
Proof. intros Hwf. rewrite (flip_point_eq D ax p Hwf). apply (mzip_masks _ D); [exact Hwf | apply sign_vec_length]. Qed.
Lemma flip_point_wf D ax (p : rpoint) : wf_point D p -> wf_point D (flip_point R_ops D ax p).
Proof. intros Hwf. rewrite (flip_point_eq D ax p Hwf). apply mzip_wf; [exact Hwf | apply sign_vec_length]. Qed.
Lemma flip_point_observes D ax (p : rpoint) k x : wf_point D p -> observes p k x ->
  observes (flip_point R_ops D ax p) k (if Nat.eqb k ax then - x else x)%R.
Proof. intros Hwf Hk. rewrite (flip_point_eq D ax p Hwf).
  replace (if Nat.eqb k ax then - x else x)%R with (x * (if Nat.eqb k ax then opp R_ops (one R_ops) else one R_ops))%R
    by (destruct (Nat.eqb k ax); rsimp; [rewrite <- Ropp_mult_distr_r|]; now rewrite Rmult_1_r).
  apply mzip_observes; [exact Hk|]. unfold sign_vec. rewrite nth_error_tabulate.
  now rewrite (proj2 (Nat.ltb_lt k D) (observes_lt D p k x Hwf Hk)). Qed.
Lemma flip_point_involutive D ax (p : rpoint) : wf_point D p -> flip_point R_ops D ax (flip_point R_ops D ax p) = p.
Proof. intros Hwf. rewrite (flip_point_eq D ax _ (flip_point_wf D ax p Hwf)), (flip_point_eq D ax p Hwf). apply mzip_twice.
  - intros x v Hv. apply in_map_iff in Hv as [k [<- _]]. rsimp. rewrite Rmult_assoc.
    destruct (Nat.eqb k ax); [rewrite Rmult_opp_opp|]; now rewrite !Rmult_1_r.
  - rewrite sign_vec_length. apply Nat.eq_le_incl. exact (proj1 Hwf). Qed.

Lemma norm_axis_spec D axis :
  match norm_axis D axis with
  | Some ax => (ax < D)%nat /\ (Z.of_nat ax = axis \/ Z.of_nat ax = axis + Z.of_nat D)%Z
  | None => (axis < - Z.of_nat D \/ Z.of_nat D <= axis)%Z
  end.
Proof. unfold norm_axis. cbn zeta. destruct ((0 <=? axis)%Z && (axis <? Z.of_nat D)%Z) eqn:E1; [lia|].
  destruct ((- Z.of_nat D <=? axis)%Z && (axis <? 0)%Z) eqn:E2; lia. Qed.
Lemma norm_axis_nonneg D (k : nat) : (k < D)%nat -> norm_axis D (Z.of_nat k) = Some k.
Proof. intros H. pose proof (norm_axis_spec D (Z.of_nat k)) as S. destruct (norm_axis D (Z.of_nat k)); [f_equal|]; lia. Qed.
Lemma norm_axis_neg D (k : nat) : (k < D)%nat -> norm_axis D (Z.of_nat k - Z.of_nat D) = Some k.
Proof. intros H. pose proof (norm_axis_spec D (Z.of_nat k - Z.of_nat D)) as S.
  destruct (norm_axis D (Z.of_nat k - Z.of_nat D)); [f_equal|]; lia. Qed.

Lemma flip_ok_iff D axis (b b' : rframes) :
  flip R_ops D axis b = Ok b' <-> exists ax, norm_axis D axis = Some ax /\ b' = map3 R_ops (flip_point R_ops D ax) b.
Proof. unfold flip. destruct (norm_axis D axis) as [ax|]; split.
  - intros [= <-]. eauto.
  - intros [ax' [[= <-] ->]]. reflexivity.
  - discriminate.
  - intros [ax' [H _]]. discriminate. Qed.

Definition flip_spec (ax : nat) (p p' : rpoint) : Prop :=
  same_conf_mask p p' /\ forall k x, observes p k x -> observes p' k (if Nat.eqb k ax then - x else x)%R.

Lemma flip_negates_only_axis D axis (b b' : rframes) :
  wf_body D b -> flip R_ops D axis b = Ok b' ->
  exists ax, norm_axis D axis = Some ax /\ (ax < D)%nat /\ rel3 (flip_spec ax) b b'.
Proof. intros Hwf Hf. apply flip_ok_iff in Hf as [ax [E ->]]. exists ax. split; [exact E|].
  pose proof (norm_axis_spec D axis) as S. rewrite E in S. split; [exact (proj1 S)|].
  apply (all3_rel3_map3 (wf_point D)); [exact Hwf|]. intros p Hp. split; [split|].
  - reflexivity.
  - now apply flip_masks.
  - intros k x. now apply flip_point_observes. Qed.
Lemma flip_involutive D axis (b b' : rframes) :
  wf_body D b -> flip R_ops D axis b = Ok b' -> flip R_ops D axis b' = Ok b.
Proof. intros Hwf Hf. apply flip_ok_iff in Hf as [ax [E ->]]. apply flip_ok_iff. exists ax. split; [exact E|].
  rewrite map3_map3. rewrite <- (map3_id b) at 1.
  apply (map3_ext_all3 (wf_point D)); [exact Hwf|]. intros p Hp. symmetry. now apply flip_point_involutive. Qed.
Lemma flip_defined D axis (b : rframes) : (- Z.of_nat D <= axis < Z.of_nat D)%Z -> exists b', flip R_ops D axis b = Ok b'.
Proof. intros H. pose proof (norm_axis_spec D axis) as S. unfold flip. destruct (norm_axis D axis); [eauto | lia]. Qed.
