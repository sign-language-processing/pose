(* C14 - the discrete part of interpolate: index searches, slicing and zero padding.
   No real numbers here: arbitrary boolean predicates on an arbitrary list; at the end, StronglySorted by positions
   and under a filter (used for the time stamps). *)
From Coq Require Import List Arith Bool Lia Sorted.
Require Import ListFacts C14_Interp.
Import ListNotations.

Definition fidx {A} (p : A -> bool) (l : list A) : nat :=
  match find_index p l with Some i => i | None => length l end.

Lemma fidx_cons {A} (p : A -> bool) a l : fidx p (a :: l) = if p a then 0 else S (fidx p l).
Proof. unfold fidx; cbn [find_index]. destruct (p a); [reflexivity|].
  destruct (find_index p l); reflexivity. Qed.
Lemma fidx_le {A} (p : A -> bool) l : fidx p l <= length l.
Proof. induction l as [|a l IH]; [cbn; lia|]. rewrite fidx_cons. destruct (p a); cbn [length]; lia. Qed.
Lemma fidx_before {A} (p : A -> bool) l d : forall j, j < fidx p l -> p (nth j l d) = false.
Proof. induction l as [|a l IH]; intros j Hj; [cbn in Hj; lia|].
  rewrite fidx_cons in Hj. destruct (p a) eqn:E; [lia|].
  destruct j as [|j]; [exact E|]. cbn [nth]. apply IH. lia. Qed.
Lemma fidx_at {A} (p : A -> bool) l d : fidx p l < length l -> p (nth (fidx p l) l d) = true.
Proof. induction l as [|a l IH]; intros H; [cbn in H; lia|].
  rewrite fidx_cons in *. destruct (p a) eqn:E; [exact E|]. cbn [nth length] in *. apply IH. lia. Qed.

Definition mono_along {A} (p : A -> bool) (l : list A) : Prop :=
  forall i j d, i <= j -> j < length l -> p (nth i l d) = true -> p (nth j l d) = true.
Lemma fidx_iff {A} (p : A -> bool) l d : mono_along p l ->
  forall j, j < length l -> (p (nth j l d) = true <-> fidx p l <= j).
Proof. intros Hm j Hj. split.
  - intros Hp. destruct (le_lt_dec (fidx p l) j) as [|Hlt]; [assumption|].
    rewrite (fidx_before p l d j Hlt) in Hp. discriminate.
  - intros Hle. apply (Hm (fidx p l) j d Hle Hj). apply fidx_at. lia. Qed.

Lemma slice_length {A} i j (l : list A) : j <= length l -> length (slice i j l) = j - i.
Proof. intros H. unfold slice. rewrite firstn_length, skipn_length. lia. Qed.
Lemma nth_skipn' {A} i (l : list A) d : forall m, nth m (skipn i l) d = nth (i + m) l d.
Proof. revert l; induction i as [|i IH]; intros l m; [reflexivity|].
  destruct l as [|a l]; [now destruct m|]. cbn [skipn Nat.add nth]. apply IH. Qed.
Lemma nth_firstn_lt {A} k (l : list A) d : forall m, m < k -> nth m (firstn k l) d = nth m l d.
Proof. revert l; induction k as [|k IH]; intros l m Hm; [lia|].
  destruct l as [|a l]; [reflexivity|]. destruct m as [|m]; [reflexivity|]. cbn [firstn nth]. apply IH. lia. Qed.
Lemma slice_nth {A} i j (l : list A) d : forall m, i + m < j -> nth m (slice i j l) d = nth (i + m) l d.
Proof. intros m Hm. unfold slice. rewrite nth_firstn_lt by lia. apply nth_skipn'. Qed.

Lemma pad_length {B} (z : B) (mid : list B) fi li n :
  fi <= li -> li <= n -> length mid = li - fi -> length (repeat z fi ++ mid ++ repeat z (n - li)) = n.
Proof. intros. rewrite !app_length, !repeat_length. lia. Qed.
Lemma pad_nth {B} (z : B) (mid : list B) fi li n j :
  fi <= li -> li <= n -> length mid = li - fi ->
  nth j (repeat z fi ++ mid ++ repeat z (n - li)) z =
  if (fi <=? j) && (j <? li) then nth (j - fi) mid z else z.
Proof. intros H1 H2 H3.
  destruct (Nat.leb_spec fi j) as [Hf|Hf]; cbn [andb].
  - rewrite app_nth2 by (rewrite repeat_length; lia). rewrite repeat_length.
    destruct (Nat.ltb_spec j li) as [Hl|Hl].
    + rewrite app_nth1 by lia. reflexivity.
    + rewrite app_nth2 by lia. apply nth_repeat.
  - rewrite app_nth1 by (rewrite repeat_length; lia). apply nth_repeat. Qed.

Section Pad.
Context {A B : Type}.
Variables (pf pl : A -> bool) (l : list A) (z : B).
Hypothesis mono_f : mono_along pf l.
Hypothesis mono_l : mono_along pl l.
Hypothesis l_f : forall x, pl x = true -> pf x = true.     (* first <= last *)
Local Notation fi := (fidx pf l).
Local Notation li := (fidx pl l).
Local Notation n := (length l).
Definition inside (x : A) : bool := pf x && negb (pl x).

Lemma fi_le_li : fi <= li.
Proof. destruct (le_lt_dec fi li) as [|Hlt]; [assumption|]. exfalso.
  assert (Hn : li < n) by (pose proof (fidx_le pf l); lia).
  assert (a0 : A) by (destruct l; [cbn in Hn; lia|assumption]).
  pose proof (fidx_at pl l a0 Hn) as Hp. apply l_f in Hp.
  apply (fidx_iff pf l a0 mono_f li Hn) in Hp. lia. Qed.
Lemma li_le_n : li <= n.
Proof. apply fidx_le. Qed.
Lemma inside_iff d j : j < n -> (inside (nth j l d) = true <-> fi <= j < li).
Proof. intros Hj. unfold inside. rewrite andb_true_iff, negb_true_iff.
  rewrite (fidx_iff pf l d mono_f j Hj).
  split; intros [H1 H2]; split; try assumption.
  - destruct (le_lt_dec li j) as [Hle|]; [|assumption].
    apply (fidx_iff pl l d mono_l j Hj) in Hle. congruence.
  - apply (fidx_before pl l d). exact H2. Qed.
Lemma inside_nth d j : j < n -> inside (nth j l d) = (fi <=? j) && (j <? li).
Proof. intros Hj. apply eq_true_iff_eq. rewrite (inside_iff d j Hj), andb_true_iff, Nat.leb_le, Nat.ltb_lt. reflexivity. Qed.

(* :373-382 *)
Definition padded (mid : list A -> list B) : list B :=
  if Nat.eqb fi li then repeat z n else repeat z fi ++ mid (slice fi li l) ++ repeat z (n - li).
Lemma padded_length mid : (fi <> li -> length (mid (slice fi li l)) = li - fi) -> length (padded mid) = n.
Proof. intros Hlen. unfold padded. destruct (Nat.eqb_spec fi li) as [E|NE]; [apply repeat_length|].
  apply pad_length; [apply fi_le_li|apply li_le_n|apply Hlen, NE]. Qed.
Lemma padded_nth mid (h : A -> B) d j :
  (fi <> li -> length (mid (slice fi li l)) = li - fi) ->
  (forall m, fi + m < li -> nth m (mid (slice fi li l)) z = h (nth (fi + m) l d)) ->
  j < n -> nth j (padded mid) z = if inside (nth j l d) then h (nth j l d) else z.
Proof. intros Hlen Hmid Hj. rewrite inside_nth by exact Hj. unfold padded.
  pose proof fi_le_li as H1. pose proof li_le_n as H2.
  destruct (Nat.eqb_spec fi li) as [E|NE].
  - rewrite nth_repeat. destruct (Nat.leb_spec fi j); destruct (Nat.ltb_spec j li); cbn [andb]; try reflexivity. lia.
  - rewrite pad_nth by auto.
    destruct (Nat.leb_spec fi j); destruct (Nat.ltb_spec j li); cbn [andb]; try reflexivity.
    rewrite Hmid by lia. replace (fi + (j - fi)) with j by lia. reflexivity. Qed.

(* two or more observations: a pointwise interpolant [g] *)
Lemma slice_fi_li_length : length (slice fi li l) = li - fi.
Proof. apply slice_length, li_le_n. Qed.
Lemma padded_map_length (g : A -> B) : length (padded (map g)) = n.
Proof. apply padded_length. intros _. rewrite map_length. apply slice_fi_li_length. Qed.
Lemma padded_map_nth (g : A -> B) d j : j < n ->
  nth j (padded (map g)) z = if inside (nth j l d) then g (nth j l d) else z.
Proof. apply padded_nth.
  - intros _. rewrite map_length. apply slice_fi_li_length.
  - intros m Hm. rewrite (nth_map_lt g _ _ d z) by (rewrite slice_fi_li_length; lia). f_equal. apply slice_nth. exact Hm. Qed.

(* :353-355 one observation: the interpolant returns its single row whatever it is given; the padding has
   the right length exactly when one sample lies inside, which holds when at most one can *)
Hypothesis uniq : forall i j d, i < n -> j < n -> inside (nth i l d) = true -> inside (nth j l d) = true -> i = j.
Lemma one_inside : fi <> li -> li = S fi.
Proof. intros NE. pose proof fi_le_li as H1. pose proof li_le_n as H2.
  assert (a0 : A) by (destruct l; [cbn in *; lia|assumption]).
  destruct (Nat.eq_dec li (S fi)) as [|NE2]; [assumption|]. exfalso.
  assert (Ha : inside (nth fi l a0) = true) by (apply inside_iff; lia).
  assert (Hb : inside (nth (S fi) l a0) = true) by (apply inside_iff; lia).
  pose proof (uniq fi (S fi) a0 ltac:(lia) ltac:(lia) Ha Hb). lia. Qed.
Lemma padded_const_nth (y : B) d j : j < n ->
  nth j (padded (fun _ => [y])) z = if inside (nth j l d) then y else z.
Proof. apply (padded_nth _ (fun _ => y)).
  - intros NE. rewrite (one_inside NE). cbn [length]. lia.
  - intros m Hm. destruct (Nat.eq_dec fi li) as [E|NE]; [lia|].
    rewrite (one_inside NE) in Hm. replace m with 0 by lia. reflexivity. Qed.
End Pad.

Lemma slice_inside {A} (pf pl : A -> bool) (l : list A) :
  mono_along pf l -> mono_along pl l -> (forall x, pl x = true -> pf x = true) ->
  forall x, In x (slice (fidx pf l) (fidx pl l) l) -> inside pf pl x = true.
Proof. intros Hf Hl Hlf x Hin.
  pose proof (fidx_le pl l) as Hli.
  destruct (In_nth _ _ x Hin) as [m [Hm <-]]. rewrite slice_length in Hm by exact Hli.
  rewrite slice_nth by lia. apply (inside_iff pf pl l Hf Hl); pose proof (fi_le_li pf pl l Hf Hl Hlf); lia. Qed.

Lemma StronglySorted_nth {A} (R : A -> A -> Prop) l d : StronglySorted R l ->
  forall i j, i < j -> j < length l -> R (nth i l d) (nth j l d).
Proof. induction 1 as [|a l Hs IH Hf]; intros i j Hij Hj; [cbn in Hj; lia|].
  destruct j as [|j]; [lia|]. cbn [length] in Hj. destruct i as [|i]; cbn [nth].
  - rewrite Forall_forall in Hf. apply Hf. apply nth_In. lia.
  - apply IH; lia. Qed.
Lemma nth_StronglySorted {A} (R : A -> A -> Prop) l d :
  (forall i j, i < j -> j < length l -> R (nth i l d) (nth j l d)) -> StronglySorted R l.
Proof. induction l as [|a l IH]; intros H; constructor.
  - apply IH. intros i j Hij Hj. apply (H (S i) (S j)); cbn [length]; lia.
  - apply Forall_forall. intros x Hx. destruct (In_nth l x d Hx) as [m [Hm <-]].
    apply (H 0 (S m)); cbn [length]; lia. Qed.
Lemma StronglySorted_filter_fst {A B} (R : A -> A -> Prop) (q : A * B -> bool) (l : list (A * B)) :
  StronglySorted R (map fst l) -> StronglySorted R (map fst (filter q l)).
Proof. induction l as [|a l IH]; intros H; cbn [filter map]; [constructor|].
  inversion H as [|a' l' Hs Hf]; subst.
  destruct (q a); cbn [map]; [constructor|]; auto.
  rewrite Forall_forall in *. intros x Hx. apply Hf.
  rewrite in_map_iff in *. destruct Hx as [y [<- Hy]]. exists y. split; [reflexivity|].
  apply filter_In in Hy. tauto. Qed.
