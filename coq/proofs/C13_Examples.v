(* C13 - non-vacuity: the hypotheses of every theorem in props/C13.v are satisfied by concrete, non-trivial
   values; and the rotation witness executed with the binary64 instance (vm_compute). *)
From Coq Require Import Reals List Lra Lia Arith Bool PrimFloat.
Require Import Num RealFacts C13_Normalize C13_Norm3d C13_RBase C13_NormalizeP C13_DistP C13_Norm3dP C13_Norm3dAlg C13_Norm3dT C13_Norm3dW.
Import ListNotations.
Open Scope R_scope.

Definition P (m : bool) (x y : R) : rpt := @mkpt R_ops m [x; y].
(* two (frame, person) rows of three points; the third point of the first row is missing *)
Definition ex_body : list (list rpt) := [[P false 0 0; P false 3 4; P true 7 7]; [P false 1 1; P false 1 3; P false 5 5]].
Example normalize_hyp_ex : nondeg 2 0 1 ex_body /\ wf_body 2 ex_body /\ 0 < 2.
Proof. split; [|split; [|lra]].
  - exists [P false 0 0; P false 3 4; P true 7 7]. split; [left; reflexivity|]. split; [reflexivity|].
    unfold dist, getp, coord, sq, P. cbn [nth seq map pc Num.sum fold_right]. rsimp.
    apply Rgt_not_eq. apply sqrt_lt_R0. lra.
  - intros r p Hr Hp. unfold ex_body in Hr. cbn [In] in Hr.
    destruct Hr as [<-|[<-|[]]]; cbn [In] in Hp; repeat (destruct Hp as [<-|Hp]; [reflexivity|]); destruct Hp. Qed.
Example normalize_mask_hyp_ex : filter (rboth 0 1) ex_body <> [].
Proof. apply (nondeg_valid 2). apply normalize_hyp_ex. Qed.

Definition Cc (m : bool) (v : R) : rcell := @mkcell R_ops m v.
(* two groups (cell i belongs to group i mod 2); one missing cell *)
Definition ex_cells : list rcell := [Cc false 1; Cc false 10; Cc false 3; Cc true 99; Cc false 5; Cc false 14].
Definition ex_key (i : nat) : nat := Nat.modulo i 2.
Lemma ex_key_lt i : (ex_key i < 2)%nat.
Proof. apply Nat.mod_upper_bound. lia. Qed.
Lemma ex_std g : observed ex_key ex_cells g -> gstd R_ops ex_key ex_cells g <> 0.
Proof. intros Ho. destruct g as [|[|g]]; [| |exfalso; apply Ho; reflexivity];
  unfold gstd, gmean, gvals, ex_cells, ex_key, Cc; cbn -[Rplus Rmult Rminus Rdiv R_sqrt.sqrt IZR];
  apply Rgt_not_eq, sqrt_lt_R0; lra. Qed.
Example distribution_hyp_ex :
  (forall i, (ex_key i < 2)%nat) /\ observed ex_key ex_cells 0 /\ observed ex_key ex_cells 1 /\
  (forall g, observed ex_key ex_cells g -> gstd R_ops ex_key ex_cells g <> 0).
Proof. split; [exact ex_key_lt|]. split; [discriminate|]. split; [discriminate|]. exact ex_std. Qed.

Example norm3d_hyp_ex :
  zrot_spec (zrot_closed R_ops) /\ row_ok 0 1 2 0 2 W /\ (forall r, In r [W; W'] -> row_ok 0 1 2 0 2 r) /\
  coplanar (c3 (rget3 W 0)) (c3 (rget3 W 1)) (c3 (rget3 W 2)) (c3 (rget3 W 0)) /\ nth 0 [W; W'] [] = W.
Proof. split; [exact zrot_closed_spec|]. split; [exact W_ok|]. split.
  - intros r [<-|[<-|[]]]; [exact W_ok|exact W'_ok].
  - split; [|reflexivity]. unfold coplanar, get3, W, plane_normal. cbn [nth c3]. vsimp. req. lra. Qed.

Set Warnings "-inexact-float".
(* the rotation witness of norm3d_rotation_invariant_refuted executed in binary64: the off-plane point ends at
   z = 1 for the flat hand and at z = 5/3 for the same hand rotated about the y axis (the implementation gives
   1.0 and 1.66666667: corpus/C13/f12_rotation_witness.json) *)
Definition Pf (x y z : float) : p3 F_ops := @mkp3 F_ops false (@V3 F_ops x y z).
Definition Wf : list (p3 F_ops) := [Pf 0 0 0; Pf 1 0 0; Pf 0 1 0; Pf 0 0 1].
Definition Wf' : list (p3 F_ops) := [Pf 0 0 0; Pf 0.6 0 (-0.8); Pf 0 1 0; Pf 0.8 0 0.6].
Definition zf (r : list (p3 F_ops)) : float :=
  vz (c3 (get3 F_ops (normalize_row F_ops (zrot_closed F_ops) 0 1 2 0 2 1%float r) 3)).
Definition f_lo : float := 1.66%float.
Definition f_hi : float := 1.67%float.
Example rotation_witness_float :
  PrimFloat.eqb (zf Wf) PrimFloat.one = true /\ PrimFloat.ltb f_lo (zf Wf') = true /\ PrimFloat.ltb (zf Wf') f_hi = true.
Proof. vm_compute. repeat split; reflexivity. Qed.
