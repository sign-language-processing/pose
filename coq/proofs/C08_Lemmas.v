(* C08 - list lemmas: zips, gathers and maps commute. *)
From Coq Require Import ZArith NArith List Bool Lia.
Require Import Result ResultFacts C08_Body.
Import ListNotations.
Local Open Scope nat_scope.

Lemma zipw_same {A} (f : A -> A -> A) (l : list A) : (forall x, f x x = x) -> zipw f l l = l.
Proof. intros Hf. induction l as [|x l IH]; cbn [zipw]; [reflexivity|]. now rewrite Hf, IH. Qed.
Lemma zipw_ext {A B C} (f g : A -> B -> C) a b : (forall x y, f x y = g x y) -> zipw f a b = zipw g a b.
Proof. intros H. revert b; induction a as [|x a IH]; intros [|y b]; cbn [zipw]; try reflexivity. now rewrite H, IH. Qed.
Lemma zipw_map2 {X A B C} (f : A -> B -> C) (a : X -> A) (b : X -> B) (l : list X) :
  zipw f (map a l) (map b l) = map (fun x => f (a x) (b x)) l.
Proof. induction l as [|x l IH]; cbn [map zipw]; [reflexivity|]. now rewrite IH. Qed.
Lemma zipw_repeat_r {A B C} (f : A -> B -> C) (l : list A) (y : B) (n : nat) :
  length l <= n -> zipw f l (repeat y n) = map (fun x => f x y) l.
Proof. revert n; induction l as [|x l IH]; intros [|n] H; cbn [zipw repeat map length] in *; try reflexivity; [lia|].
  rewrite IH by lia. reflexivity. Qed.
Lemma zipw_repeat_both {A B C} (f : A -> B -> C) (x : A) (y : B) (n : nat) :
  zipw f (repeat x n) (repeat y n) = repeat (f x y) n.
Proof. induction n as [|n IH]; cbn [zipw repeat]; [reflexivity|]. now rewrite IH. Qed.
(* not in this version's List *)
Lemma map_repeat' {A B} (f : A -> B) (x : A) (n : nat) : map f (repeat x n) = repeat (f x) n.
Proof. induction n as [|n IH]; cbn [map repeat]; [reflexivity|]. now rewrite IH. Qed.

(* nested zips of two maps of the same list *)
Lemma zip3_map3 {X A B C} (f : A -> B -> C) (a : X -> A) (b : X -> B) (l : t3 X) :
  zip3 f (map3 a l) (map3 b l) = map3 (fun x => f (a x) (b x)) l.
Proof. unfold zip3, map3. rewrite zipw_map2. apply map_ext. intros l2. rewrite zipw_map2. apply map_ext.
  intros l1. apply zipw_map2. Qed.
Lemma zip4_map3 {X A B C} (f : A -> B -> C) (a : X -> list A) (b : X -> list B) (l : t3 X) :
  zip4 f (map3 a l) (map3 b l) = map3 (fun x => zipw f (a x) (b x)) l.
Proof. unfold zip4. apply (zip3_map3 (zipw f)). Qed.
Lemma zip3_map2 {X A B C} (f : A -> B -> C) (a : X -> list A) (b : X -> list B) (l : t2 X) :
  zip3 f (map2n a l) (map2n b l) = map2n (fun x => zipw f (a x) (b x)) l.
Proof. unfold zip3, map2n. rewrite zipw_map2. apply map_ext. intros l1. apply zipw_map2. Qed.
Lemma map3_map3 {X Y Z} (g : Y -> Z) (f : X -> Y) (l : t3 X) : map3 g (map3 f l) = map3 (fun x => g (f x)) l.
Proof. unfold map3. rewrite map_map. apply map_ext; intros l2. rewrite map_map. apply map_ext; intros l1. apply map_map. Qed.
Lemma map4_map3 {X Y Z} (g : Y -> Z) (f : X -> list Y) (l : t3 X) : map4 g (map3 f l) = map3 (fun x => map g (f x)) l.
Proof. unfold map4. apply (map3_map3 (map g)). Qed.
Lemma map3_map2n {X Y Z} (g : Y -> Z) (f : X -> list Y) (l : t2 X) : map3 g (map2n f l) = map2n (fun x => map g (f x)) l.
Proof. unfold map3, map2n. rewrite map_map. apply map_ext; intros l1. apply map_map. Qed.
Lemma map2n_map2n {X Y Z} (g : Y -> Z) (f : X -> Y) (l : t2 X) : map2n g (map2n f l) = map2n (fun x => g (f x)) l.
Proof. unfold map2n. rewrite map_map. apply map_ext; intros l1. apply map_map. Qed.
Lemma map3_ext {X Y} (f g : X -> Y) (l : t3 X) : (forall x, f x = g x) -> map3 f l = map3 g l.
Proof. intros H. unfold map3. apply map_ext; intros l2. apply map_ext; intros l1. now apply map_ext. Qed.
Lemma map2n_ext {X Y} (f g : X -> Y) (l : t2 X) : (forall x, f x = g x) -> map2n f l = map2n g l.
Proof. intros H. unfold map2n. apply map_ext; intros l1. now apply map_ext. Qed.

(* gathers commute with maps *)
Lemma gat_map {X Y} (h : X -> Y) (ix : list nat) (l : list X) : gat ix (map h l) = map h (gat ix l).
Proof. unfold gat. induction ix as [|i ix IH]; cbn [flat_map map]; [reflexivity|].
  rewrite map_app, <- IH. f_equal. rewrite nth_error_map. now destruct (nth_error l i). Qed.
Lemma gat_length_le {X} (ix : list nat) (l : list X) : length (gat ix l) <= length ix.
Proof. unfold gat. induction ix as [|i ix IH]; cbn [flat_map length]; [lia|]. rewrite app_length.
  destruct (nth_error l i); cbn [length]; lia. Qed.
Lemma nth_map_nil {X Y} (h : X -> Y) (k : nat) (l : list (list X)) : nth k (map (map h) l) [] = map h (nth k l []).
Proof. change (@nil Y) with (map h []). apply map_nth. Qed.

Lemma shape_eqb_refl s : shape_eqb s s = true.
Proof. induction s as [|x s IH]; cbn [shape_eqb]; [reflexivity|]. now rewrite Nat.eqb_refl, IH. Qed.

(* index normalisation on in-range, non-negative positions *)
Lemma in_range_b n i : (0 <= i < Z.of_nat n)%Z -> ((0 <=? i) && (i <? Z.of_nat n))%Z = true.
Proof. intros H. apply andb_true_iff. split; [apply Z.leb_le|apply Z.ltb_lt]; lia. Qed.
Lemma norm_wrap_in n i : (0 <= i < Z.of_nat n)%Z -> norm_wrap n i = Ok (Z.to_nat i).
Proof. intros H. unfold norm_wrap. now rewrite in_range_b. Qed.
Lemma norm_gather_in n i : (0 <= i < Z.of_nat n)%Z -> norm_gather n i = Ok (Z.to_nat i).
Proof. intros H. unfold norm_gather. now rewrite in_range_b. Qed.
Lemma unchecked_in n i : (0 <= i < Z.of_nat n)%Z -> unchecked n i = Ok (Z.to_nat i).
Proof. intros H. unfold unchecked. now rewrite Z.mod_small. Qed.
(* whichever normalisation a framework applies, it is the identity on in-range positions *)
Lemma ix_list_in b eo n inner idx :
  idx <> [] -> Forall (fun i => (0 <= i < Z.of_nat n)%Z) idx -> ix_list b eo n inner idx = Ok (map Z.to_nat idx).
Proof. intros Hne H.
  assert (Hall : forall f, (forall i, (0 <= i < Z.of_nat n)%Z -> f i = Ok (Z.to_nat i)) -> rmapM f idx = Ok (map Z.to_nat idx)).
  { intros f Hf. apply rmapM_map, Forall_forall. eapply Forall_impl; [exact Hf|exact H]. }
  destruct b; cbn [ix_list].
  - apply Hall, norm_wrap_in.
  - destruct (_ && _); apply Hall; [apply unchecked_in|apply norm_wrap_in].
  - destruct idx as [|i idx]; [contradiction|]. destruct (Nat.eqb inner 0); apply Hall; [apply unchecked_in|apply norm_gather_in]. Qed.
(* a positive step is accepted by every framework *)
Lemma ix_slice_pos b n s : match s_step s with Some k => (0 < k)%Z | None => True end -> ix_slice b n s = slice_idx n s.
Proof. intros H. unfold ix_slice. destruct b; try reflexivity. destruct (s_step s) as [k|]; [|reflexivity].
  destruct (Z.ltb_spec k 0); [lia|reflexivity]. Qed.
