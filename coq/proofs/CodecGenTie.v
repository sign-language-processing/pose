(* Tie between the regenerated facts of the source (coq/gen/Gen_Codec.v, produced on every run by
   harness/translate_py.py from /repo) and the literals the hand-written codec model (model/Codec.v,
   model/PoseRead.v) was transcribed from.  Each lemma is an obligation of the byte-layer properties: an edit
   of the source that changes a struct format, a field order, a guard, the string length rule, the version
   constant or the statement sequence of a modelled function makes the corresponding lemma fail.
   An [exp_] constant with no [_tie] lemma beside it serves one property only and is tied, by reflexivity, in that
   property's file (props/C01.v). *)
From Coq Require Import String List ZArith NArith.
Require Gen_Codec.
Import ListNotations.
Open Scope string_scope.

Definition exp_struct_table :=
  [ ("float", "<f");
    ("short", "<h");
    ("ushort", "<H");
    ("double_ushort", "<HH");
    ("triple_ushort", "<HHH");
    ("uint", "<I") ].
Lemma struct_table_tie : Gen_Codec.struct_table = exp_struct_table.
Proof. reflexivity. Qed.

Definition exp_version_literal :=
 "0.2".
Lemma version_literal_tie : Gen_Codec.version_literal = exp_version_literal.
Proof. reflexivity. Qed.

Definition exp_write_str_kind :=
 "StrLenBytes".
Lemma write_str_kind_tie : Gen_Codec.write_str_kind = exp_write_str_kind.
Proof. reflexivity. Qed.

Definition exp_component_write :=
  [ "str:self.name";
    "str:self.format";
    "pack:triple_ushort:len(self.points),len(self.limbs),len(self.colors)";
    "for:p:self.points[str:p]";
    "for:(p1, p2):self.limbs[pack:double_ushort:p1,p2]";
    "for:(r, g, b):self.colors[pack:triple_ushort:r,g,b]" ].
Lemma component_write_tie : Gen_Codec.component_write = exp_component_write.
Proof. reflexivity. Qed.

Definition exp_dimensions_write :=
  [ "guard:not 0 <= self.width <= 32767 * 2 + 1:ValueError";
    "guard:not 0 <= self.height <= 32767 * 2 + 1:ValueError";
    "guard:not 0 <= self.depth <= 32767 * 2 + 1:ValueError";
    "pack:triple_ushort:self.width,self.height,self.depth" ].
Lemma dimensions_write_tie : Gen_Codec.dimensions_write = exp_dimensions_write.
Proof. reflexivity. Qed.

Definition exp_header_write :=
  [ "pack:float:VERSION";
    "sub:self.dimensions.write";
    "pack:ushort:len(self.components)";
    "for:component:self.components[sub:component.write]" ].
Lemma header_write_tie : Gen_Codec.header_write = exp_header_write.
Proof. reflexivity. Qed.

Definition exp_component_read :=
  [ "name = reader.unpack_str()";
    "point_format = reader.unpack_str()";
    "_points, _limbs, _colors = reader.unpack(ConstStructs.triple_ushort)";
    "points = [reader.unpack_str() for _ in range(_points)]";
    "limbs = [reader.unpack(ConstStructs.double_ushort) for _ in range(_limbs)]";
    "colors = reader.unpack_numpy(ConstStructs.ushort, (_colors, 3))";
    "return PoseHeaderComponent(name, points, limbs, colors, point_format)" ].
Lemma component_read_tie : Gen_Codec.component_read = exp_component_read.
Proof. reflexivity. Qed.

Definition exp_dimensions_read :=
  [ "width, height, depth = reader.unpack(ConstStructs.triple_ushort)";
    "return PoseHeaderDimensions(width, height, depth)" ].
Lemma dimensions_read_tie : Gen_Codec.dimensions_read = exp_dimensions_read.
Proof. reflexivity. Qed.

Definition exp_dimensions_init :=
  [ "self.width = math.ceil(width)";
    "self.height = math.ceil(height)";
    "self.depth = math.ceil(depth)" ].

Definition exp_header_read :=
  [ "with PoseHeaderCache.lock:
    cached_header = PoseHeaderCache.check_cache(reader.buffer)
    if cached_header is not None:
        reader.read_offset = PoseHeaderCache.end_offset
        return copy.deepcopy(cached_header)";
    "start_offset = reader.read_offset";
    "version = reader.unpack(ConstStructs.float)";
    "dimensions = PoseHeaderDimensions.read(version, reader)";
    "_components = reader.unpack(ConstStructs.ushort)";
    "components = [PoseHeaderComponent.read(version, reader) for _ in range(_components)]";
    "end_offset = reader.read_offset";
    "pose_header = PoseHeader(version, dimensions, components)";
    "PoseHeaderCache.set_cache(pose_header, reader.buffer, start_offset, end_offset)";
    "return pose_header" ].
Lemma header_read_tie : Gen_Codec.header_read = exp_header_read.
Proof. reflexivity. Qed.

Definition exp_header_num_dims :=
  [ "return max([len(c.format) for c in self.components]) - 1" ].

Definition exp_header_total_points :=
  [ "return sum(map(lambda c: len(c.points), self.components))" ].

Definition exp_body_write :=
  [ "let:_frames, _people, _points, _dims = self.data.shape";
    "guard:_frames > 4294967295:ValueError";
    "pack:float:self.fps";
    "pack:uint:_frames";
    "pack:ushort:_people";
    "tobytes:np.array(self.data.data, dtype=np.float32)";
    "tobytes:np.array(self.confidence, dtype=np.float32)" ].
Lemma body_write_tie : Gen_Codec.body_write = exp_body_write.
Proof. reflexivity. Qed.

Definition exp_numpy_body_init :=
  [ "if isinstance(data, np.ndarray):
    mask = confidence == 0
    stacked_mask = np.stack([mask] * data.shape[-1], axis=-1)
    data = ma.masked_array(data, mask=stacked_mask)";
    "super().__init__(fps, data, confidence)" ].

Definition exp_body_read_dispatch :=
  [ "if header.version == 0:
    return cls.read_v0_0(header, reader, **kwargs)";
    "if round(header.version, 3) == 0.1:
    return cls.read_v0_1(header, reader, **kwargs)";
    "if round(header.version, 3) == 0.2:
    return cls.read_v0_2(header, reader, **kwargs)";
    "raise NotImplementedError('Unknown version - %f' % header.version)" ].
Lemma body_read_dispatch_tie : Gen_Codec.body_read_dispatch = exp_body_read_dispatch.
Proof. reflexivity. Qed.

Definition exp_body_read_v0_2 :=
  [ "if start_time is not None and start_frame is not None:
    raise ValueError('Cannot specify both start_time and start_frame')";
    "if end_time is not None and end_frame is not None:
    raise ValueError('Cannot specify both end_time and end_frame')";
    "fps = reader.unpack(ConstStructs.float)";
    "_frames = reader.unpack(ConstStructs.uint)";
    "_people = reader.unpack(ConstStructs.ushort)";
    "_points = sum([len(c.points) for c in header.components])";
    "_dims = header.num_dims()";
    "if start_time is not None:
    start_frame = math.floor(start_time / 1000 * fps)";
    "if end_time is not None:
    end_frame = math.ceil(end_time / 1000 * fps)";
    "data = cls.read_v0_1_frames(_frames, (_people, _points, _dims), reader, start_frame, end_frame)";
    "confidence = cls.read_v0_1_frames(_frames, (_people, _points), reader, start_frame, end_frame)";
    "return cls(fps, data, confidence)" ].
Lemma body_read_v0_2_tie : Gen_Codec.body_read_v0_2 = exp_body_read_v0_2.
Proof. reflexivity. Qed.

Definition exp_body_read_frames :=
  [ "tensor_reader = reader.__getattribute__(cls.tensor_reader)";
    "s = ConstStructs.float";
    "_frames = frames";
    "if start_frame is not None and start_frame > 0:
    if start_frame >= frames:
        raise ValueError(f'Start frame {start_frame} is greater than the number of frames {frames}')
    reader.skip(s, int(np.prod((start_frame, *shape))))
    _frames -= start_frame";
    "remove_frames = None";
    "if end_frame is not None:
    end_frame = min(end_frame, frames)
    remove_frames = frames - end_frame
    _frames -= remove_frames";
    "tensor = tensor_reader(ConstStructs.float, shape=(_frames, *shape))";
    "if remove_frames is not None:
    reader.skip(s, int(np.prod((remove_frames, *shape))))";
    "return tensor" ].
Lemma body_read_frames_tie : Gen_Codec.body_read_frames = exp_body_read_frames.
Proof. reflexivity. Qed.

Definition exp_pose_write :=
  [ "if len(self.body.data.shape) != 4:
    raise ValueError(f'Body data should have 4 dimensions, not {len(self.body.data.shape)}')";
    "header_dims = self.header.num_dims()";
    "body_dims = self.body.data.shape[-1]";
    "if header_dims != body_dims:
    raise ValueError(f'Header has {header_dims} dimensions, but body has {body_dims}')";
    "header_points = self.header.total_points()";
    "body_points = self.body.data.shape[2]";
    "if header_points != body_points:
    raise ValueError(f'Header has {header_points} points, but body has {body_points}')";
    "if tuple(self.body.confidence.shape) != tuple(self.body.data.shape[:3]):
    raise ValueError(f'Confidence has shape {tuple(self.body.confidence.shape)}, but data has shape {tuple(self.body.data.shape)}')";
    "self.header.write(buffer)";
    "self.body.write(self.header.version, buffer)" ].
Lemma pose_write_tie : Gen_Codec.pose_write = exp_pose_write.
Proof. reflexivity. Qed.

Definition exp_pose_read :=
  [ "if isinstance(buffer, bytes):
    reader = BufferReader(buffer)
elif any((kwargs.get(key, None) is not None for key in ('start_frame', 'end_frame', 'start_time', 'end_time'))):
    reader = BytesIOReader(buffer)
else:
    reader = BufferReader(buffer.read())";
    "reader.expect_to_read((PoseHeaderCache.end_offset or 10 * 1024) + 100)";
    "header = PoseHeader.read(reader)";
    "body = pose_body.read(header, reader, **kwargs)";
    "return Pose(header, body)" ].
Lemma pose_read_tie : Gen_Codec.pose_read = exp_pose_read.
Proof. reflexivity. Qed.

Definition exp_reader_init :=
  [ "self.buffer: bytearray = buffer";
    "self.total_bytes_read = len(buffer)";
    "self.read_offset = 0";
    "self.read_skipped = 0" ].
Lemma reader_init_tie : Gen_Codec.reader_init = exp_reader_init.
Proof. reflexivity. Qed.

Definition exp_reader_expect_to_read :=
  [ "pass" ].
Lemma reader_expect_to_read_tie : Gen_Codec.reader_expect_to_read = exp_reader_expect_to_read.
Proof. reflexivity. Qed.

Definition exp_reader_bytes_left :=
  [ "return len(self.buffer) - self.read_offset + self.read_skipped" ].
Lemma reader_bytes_left_tie : Gen_Codec.reader_bytes_left = exp_reader_bytes_left.
Proof. reflexivity. Qed.

Definition exp_reader_unpack_numpy :=
  [ "self.expect_to_read(s.size * int(np.prod(shape)))";
    "arr = np.ndarray(shape, s.format, self.buffer, self.read_offset - self.read_skipped).copy()";
    "self.advance(s, int(np.prod(shape)))";
    "return arr" ].
Lemma reader_unpack_numpy_tie : Gen_Codec.reader_unpack_numpy = exp_reader_unpack_numpy.
Proof. reflexivity. Qed.

Definition exp_reader_unpack :=
  [ "self.expect_to_read(s.size)";
    "unpack: tuple = s.unpack_from(self.buffer, self.read_offset - self.read_skipped)";
    "self.advance(s)";
    "if len(unpack) == 1:
    return unpack[0]";
    "return unpack" ].
Lemma reader_unpack_tie : Gen_Codec.reader_unpack = exp_reader_unpack.
Proof. reflexivity. Qed.

Definition exp_reader_advance :=
  [ "self.read_offset += s.size * times" ].
Lemma reader_advance_tie : Gen_Codec.reader_advance = exp_reader_advance.
Proof. reflexivity. Qed.

Definition exp_reader_skip :=
  [ "self.advance(s, times)" ].
Lemma reader_skip_tie : Gen_Codec.reader_skip = exp_reader_skip.
Proof. reflexivity. Qed.

Definition exp_reader_unpack_str :=
  [ "length: int = self.unpack(ConstStructs.ushort)";
    "self.expect_to_read(length)";
    "bytes_: bytes = self.unpack_f('%ds' % length)";
    "return bytes_.decode('utf-8')" ].
Lemma reader_unpack_str_tie : Gen_Codec.reader_unpack_str = exp_reader_unpack_str.
Proof. reflexivity. Qed.

Definition exp_stream_reader_init :=
  [ "super().__init__(bytearray())";
    "self.reader = reader" ].
Lemma stream_reader_init_tie : Gen_Codec.stream_reader_init = exp_stream_reader_init.
Proof. reflexivity. Qed.

Definition exp_stream_reader_skip :=
  [ "self.buffer = self.buffer[:self.read_offset - self.read_skipped]";
    "self.read_skipped += s.size * times";
    "super().skip(s, times)" ].
Lemma stream_reader_skip_tie : Gen_Codec.stream_reader_skip = exp_stream_reader_skip.
Proof. reflexivity. Qed.

Definition exp_stream_reader_read_chunk :=
  [ "self.reader.seek(self.read_skipped + len(self.buffer), 0)";
    "self.buffer.extend(self.reader.read(chunk_size))";
    "self.total_bytes_read += chunk_size";
    "if not self.buffer:
    raise EOFError('End of file reached')" ].
Lemma stream_reader_read_chunk_tie : Gen_Codec.stream_reader_read_chunk = exp_stream_reader_read_chunk.
Proof. reflexivity. Qed.

Definition exp_stream_reader_expect_to_read :=
  [ "if self.bytes_left() < n:
    self.read_chunk(n - self.bytes_left())" ].
Lemma stream_reader_expect_to_read_tie : Gen_Codec.stream_reader_expect_to_read = exp_stream_reader_expect_to_read.
Proof. reflexivity. Qed.

Definition exp_stream_reader_bases :=
  [ "BufferReader" ].
Lemma stream_reader_bases_tie : Gen_Codec.stream_reader_bases = exp_stream_reader_bases.
Proof. reflexivity. Qed.

(* which methods the two reader classes define, and their class-level assignments: the interpreters of base/Prog.v
   (run_plain for BufferReader, run_stream for BytesIOReader) transcribe exactly these; an added override or class
   attribute means the stream reader may no longer run the transcribed code *)
Definition exp_reader_methods : list string :=
  [ "__init__"; "expect_to_read"; "bytes_left"; "bytes_remaining"; "unpack_f"; "unpack_numpy"; "unpack_torch";
    "unpack_tensorflow"; "unpack"; "advance"; "skip"; "unpack_str" ].
Lemma reader_methods_tie : Gen_Codec.reader_methods = exp_reader_methods.
Proof. reflexivity. Qed.
Definition exp_stream_reader_methods : list string :=
  [ "__init__"; "skip"; "read_chunk"; "expect_to_read"; "bytes_remaining" ].
Lemma stream_reader_methods_tie : Gen_Codec.stream_reader_methods = exp_stream_reader_methods.
Proof. reflexivity. Qed.
Lemma reader_class_attrs_tie : Gen_Codec.reader_class_attrs = [] /\ Gen_Codec.stream_reader_class_attrs = [].
Proof. split; reflexivity. Qed.

Definition exp_cache_calc_hash :=
  [ "return hashlib.md5(buffer[PoseHeaderCache.start_offset:PoseHeaderCache.end_offset]).hexdigest()" ].
Lemma cache_calc_hash_tie : Gen_Codec.cache_calc_hash = exp_cache_calc_hash.
Proof. reflexivity. Qed.

Definition exp_cache_check_cache :=
  [ "if PoseHeaderCache.hash is None:
    return None";
    "if PoseHeaderCache.hash == PoseHeaderCache.calc_hash(buffer):
    return PoseHeaderCache.header" ].
Lemma cache_check_cache_tie : Gen_Codec.cache_check_cache = exp_cache_check_cache.
Proof. reflexivity. Qed.

Definition exp_cache_set_cache :=
  [ "with PoseHeaderCache.lock:
    PoseHeaderCache.start_offset = start_offset
    PoseHeaderCache.end_offset = end_offset
    PoseHeaderCache.header = copy.deepcopy(header)
    PoseHeaderCache.hash = PoseHeaderCache.calc_hash(buffer)" ].
Lemma cache_set_cache_tie : Gen_Codec.cache_set_cache = exp_cache_set_cache.
Proof. reflexivity. Qed.

Definition exp_cache_clear_cache :=
  [ "with PoseHeaderCache.lock:
    PoseHeaderCache.start_offset = None
    PoseHeaderCache.end_offset = None
    PoseHeaderCache.hash = None
    PoseHeaderCache.header = None" ].
Lemma cache_clear_cache_tie : Gen_Codec.cache_clear_cache = exp_cache_clear_cache.
Proof. reflexivity. Qed.

Definition exp_pose_copy :=
  [ "return self.__class__(deepcopy(self.header), self.body.copy())" ].
Lemma pose_copy_tie : Gen_Codec.pose_copy = exp_pose_copy.
Proof. reflexivity. Qed.

Definition exp_numpy_body_copy :=
  [ "return type(self)(fps=self.fps, data=self.data.copy(), confidence=self.confidence.copy())" ].
Lemma numpy_body_copy_tie : Gen_Codec.numpy_body_copy = exp_numpy_body_copy.
Proof. reflexivity. Qed.
