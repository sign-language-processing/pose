(* C14 - the three hypotheses about SciPy's quadratic / cubic interp1d are satisfiable: a concrete function
   (value at a node: that node's row; elsewhere: the Lagrange polynomial through the first k+1 nodes) meets
   all of them.  This is only a non-vacuity witness for the theorems; it is not SciPy's spline. *)
From Coq Require Import Reals List Arith Bool Lia Lra Sorted.
Require Import ListFacts Num RealFacts C14_Interp C14_Index C14_Grid C14_Lerp C14_Eval.
Import ListNotations.
Local Open Scope R_scope.

Definition lag2 (x0 x1 x2 y0 y1 y2 x : R) : R :=
  y0 * ((x - x1) * (x - x2)) / ((x0 - x1) * (x0 - x2)) +
  y1 * ((x - x0) * (x - x2)) / ((x1 - x0) * (x1 - x2)) +
  y2 * ((x - x0) * (x - x1)) / ((x2 - x0) * (x2 - x1)).
Definition lag3 (x0 x1 x2 x3 y0 y1 y2 y3 x : R) : R :=
  y0 * ((x - x1) * (x - x2) * (x - x3)) / ((x0 - x1) * (x0 - x2) * (x0 - x3)) +
  y1 * ((x - x0) * (x - x2) * (x - x3)) / ((x1 - x0) * (x1 - x2) * (x1 - x3)) +
  y2 * ((x - x0) * (x - x1) * (x - x3)) / ((x2 - x0) * (x2 - x1) * (x2 - x3)) +
  y3 * ((x - x0) * (x - x1) * (x - x2)) / ((x3 - x0) * (x3 - x1) * (x3 - x2)).
Definition wit_col (k : nat) (xs ycol : list R) (x : R) : R :=
  match k, xs, ycol with
  | 2%nat, x0 :: x1 :: x2 :: _, y0 :: y1 :: y2 :: _ => lag2 x0 x1 x2 y0 y1 y2 x
  | 3%nat, x0 :: x1 :: x2 :: x3 :: _, y0 :: y1 :: y2 :: y3 :: _ => lag3 x0 x1 x2 x3 y0 y1 y2 y3 x
  | _, _, _ => 0
  end.
Definition wit : spline_t := fun k xs ys x =>
  match find (fun xy => Reqb (fst xy) x) (combine xs ys) with
  | Some (_, y) => y
  | None => map (fun c => wit_col k xs (map (fun r => nth c r 0) ys) x) (seq 0 (length (hd [] ys)))
  end.

Lemma find_node : forall xs ys i, StronglySorted Rlt xs -> length xs = length ys -> (i < length xs)%nat ->
  find (fun xy : R * list R => Reqb (fst xy) (nth i xs 0)) (combine xs ys) = Some (nth i xs 0, nth i ys []).
Proof. induction xs as [|a xs IH]; intros [|b ys] i Hs Hl Hi; cbn [length] in *; try lia.
  inversion Hs as [|a' l' Hs' Hf]; subst. destruct i as [|i]; cbn [combine find fst nth].
  - replace (Reqb a a) with true by (symmetry; apply Reqb_true; reflexivity). reflexivity.
  - rewrite Forall_forall in Hf. pose proof (Hf (nth i xs 0) ltac:(apply nth_In; lia)) as Hlt.
    replace (Reqb a (nth i xs 0)) with false by (symmetry; apply Reqb_false; lra).
    apply IH; [assumption|lia|lia]. Qed.
Lemma find_some_node xs ys x x' y : length xs = length ys ->
  find (fun xy : R * list R => Reqb (fst xy) x) (combine xs ys) = Some (x', y) ->
  x' = x /\ exists i, (i < length xs)%nat /\ nth i xs 0 = x' /\ nth i ys [] = y.
Proof. intros Hl Hf. apply find_some in Hf. destruct Hf as [Hin Hp]. cbn in Hp. apply Reqb_true in Hp.
  split; [exact Hp|]. destruct (In_nth _ _ (0, []) Hin) as [i [Hi E]].
  rewrite combine_length in Hi. rewrite combine_nth in E by exact Hl. injection E as E1 E2.
  exists i. repeat split; try assumption. lia. Qed.

Lemma wit_shape : spline_shape wit.
Proof. intros k xs ys w x Hk Hs Hl Hkl Hw. unfold wit.
  destruct (find _ _) as [[x' y]|] eqn:E.
  - destruct (find_some_node xs ys x x' y Hl E) as [_ [i [Hi [_ <-]]]].
    rewrite Forall_forall in Hw. apply Hw. apply nth_In. lia.
  - rewrite map_length, seq_length. destruct ys as [|r ys]; [cbn in Hl; lia|].
    rewrite Forall_forall in Hw. apply Hw. left; reflexivity. Qed.
Lemma wit_nodes : spline_nodes wit.
Proof. intros k xs ys i Hk Hs Hl Hkl Hi. unfold wit. rewrite (find_node xs ys i Hs Hl Hi). reflexivity. Qed.

Lemma peval_pad p n : (length p <= n)%nat -> exists q, length q = n /\ forall x, peval q x = peval p x.
Proof. intros H. exists (p ++ repeat 0 (n - length p)). split; [rewrite app_length, repeat_length; lia|].
  intros x. unfold peval. rewrite fold_right_app. f_equal.
  induction (n - length p)%nat as [|m IH]; cbn [repeat fold_right]; [reflexivity|]. rewrite IH. ring. Qed.

Lemma lag2_poly x0 x1 x2 y0 y1 y2 p x : x0 < x1 -> x0 < x2 -> x1 < x2 -> (length p <= 3)%nat ->
  y0 = peval p x0 -> y1 = peval p x1 -> y2 = peval p x2 -> lag2 x0 x1 x2 y0 y1 y2 x = peval p x.
Proof. intros H01 H02 H12 Hp -> -> ->. destruct (peval_pad p 3 Hp) as [q [Hq E]]. rewrite <- !E.
  destruct q as [|c0 [|c1 [|c2 [|]]]]; try discriminate.
  unfold lag2; cbn [peval fold_right]. field; repeat split; lra. Qed.

Lemma common_denominator4 a0 a1 a2 a3 d01 d02 d03 d12 d13 d23 :
  d01 <> 0 -> d02 <> 0 -> d03 <> 0 -> d12 <> 0 -> d13 <> 0 -> d23 <> 0 ->
  (a0 / (d01 * d02 * d03) + a1 / (- d01 * d12 * d13) + a2 / (- d02 * - d12 * d23) + a3 / (- d03 * - d13 * - d23))
    * (d01 * d02 * d03 * d12 * d13 * d23) =
  a0 * (d12 * d13 * d23) - a1 * (d02 * d03 * d23) + a2 * (d01 * d03 * d13) - a3 * (d01 * d02 * d12).
Proof. intros. field. tauto. Qed.
(* [field] closes this goal as it closes lag2_poly, but the term it builds is slow to check; with the node differences
   as atoms the denominators are cleared cheaply, and what remains is a polynomial identity *)
Lemma lag3_poly x0 x1 x2 x3 y0 y1 y2 y3 p x :
  x0 < x1 -> x0 < x2 -> x0 < x3 -> x1 < x2 -> x1 < x3 -> x2 < x3 -> (length p <= 4)%nat ->
  y0 = peval p x0 -> y1 = peval p x1 -> y2 = peval p x2 -> y3 = peval p x3 -> lag3 x0 x1 x2 x3 y0 y1 y2 y3 x = peval p x.
Proof. intros H01 H02 H03 H12 H13 H23 Hp -> -> -> ->. destruct (peval_pad p 4 Hp) as [q [Hq E]]. rewrite <- !E.
  destruct q as [|c0 [|c1 [|c2 [|c3 [|]]]]]; try discriminate.
  unfold lag3.
  rewrite <- (Ropp_minus_distr x0 x1), <- (Ropp_minus_distr x0 x2), <- (Ropp_minus_distr x0 x3),
          <- (Ropp_minus_distr x1 x2), <- (Ropp_minus_distr x1 x3), <- (Ropp_minus_distr x2 x3).
  apply (Rmult_eq_reg_r ((x0 - x1) * (x0 - x2) * (x0 - x3) * (x1 - x2) * (x1 - x3) * (x2 - x3))).
  - rewrite common_denominator4 by lra. cbn [peval fold_right]. ring.
  - repeat apply Rmult_integral_contrapositive_currified; lra. Qed.

Lemma wit_poly : spline_poly wit.
Proof. intros k xs ys w c p x Hk Hs Hl Hkl Hw Hc Hp Hy Hx. unfold wit.
  destruct (find _ _) as [[x' y]|] eqn:E.
  - destruct (find_some_node xs ys x x' y Hl E) as [-> [i [Hi [<- <-]]]]. apply Hy. exact Hi.
  - assert (Hw0 : length (hd [] ys) = w).
    { destruct ys as [|r ys']; [cbn in Hl; lia|]. rewrite Forall_forall in Hw. apply Hw. left; reflexivity. }
    unfold col. rewrite (nth_map_seq _ (length (hd [] ys)) c 0) by lia.
    pose proof (StronglySorted_nth Rlt xs 0 Hs) as Hlt.
    destruct Hk as [-> | ->].
    + destruct xs as [|x0 [|x1 [|x2 xs']]]; cbn [length] in Hkl; try lia.
      destruct ys as [|r0 [|r1 [|r2 ys']]]; cbn [length] in Hl; try lia.
      cbn [wit_col map].
      apply (lag2_poly _ _ _ _ _ _ p);
        [apply (Hlt 0%nat 1%nat)|apply (Hlt 0%nat 2%nat)|apply (Hlt 1%nat 2%nat)|exact Hp|apply (Hy 0%nat)|apply (Hy 1%nat)|apply (Hy 2%nat)];
        cbn [length]; lia.
    + destruct xs as [|x0 [|x1 [|x2 [|x3 xs']]]]; cbn [length] in Hkl; try lia.
      destruct ys as [|r0 [|r1 [|r2 [|r3 ys']]]]; cbn [length] in Hl; try lia.
      cbn [wit_col map].
      apply (lag3_poly _ _ _ _ _ _ _ _ p);
        [apply (Hlt 0%nat 1%nat)|apply (Hlt 0%nat 2%nat)|apply (Hlt 0%nat 3%nat)|apply (Hlt 1%nat 2%nat)|apply (Hlt 1%nat 3%nat)|apply (Hlt 2%nat 3%nat)
        |exact Hp|apply (Hy 0%nat)|apply (Hy 1%nat)|apply (Hy 2%nat)|apply (Hy 3%nat)];
        cbn [length]; lia. Qed.

Theorem spline_hypotheses_satisfiable : exists sp : spline_t, spline_shape sp /\ spline_nodes sp /\ spline_poly sp.
Proof. exists wit. split; [exact wit_shape|]. split; [exact wit_nodes|exact wit_poly]. Qed.
