(* The stream reader of C04 (C04_Legacy.run_stream4, the 4 of C04: Prog.run_stream except that bytes_remaining() answers
   with the bytes up to the end of the stream, utils/reader.py BytesIOReader) reproduces every run of the plain reader on
   the same bytes that stays inside the buffer - with its result or with the decoder's own error - for every program
   without advance() (sim4; in particular for the v0.1 decoder, which asks bytes_remaining()) and, before any skip, for
   programs that only read and advance (sim0, about Prog.run_stream itself; the v0.0 decoder). *)
From Coq Require Import ZArith NArith List Lia ZifyBool ZifyN ZifyNat Bool.
Require Import ListN Result Bytes Prog Codec ProgLemmas PoseRead PoseReadLemmas StreamLemmas StreamRead C04_Legacy.
Import ListNotations.
Open Scope N_scope.

Lemma run_stream4_bind {A B} file (p : prog A) (f : A -> prog B) : forall r,
  run_stream4 file (pbind p f) r =
  match run_stream4 file p r with Ok (a, r') => run_stream4 file (f a) r' | Err e => Err e end.
Proof.
  induction p as [a|n k IH|n k IH|n k IH|k IH|e]; intros r; cbn [pbind run_stream4]; try reflexivity; try apply IH.
  destruct (expect file n r) as [r1|e]; [|reflexivity].
  destruct (off r1 - skipped r1 + n <=? lenN (buf r1)); [apply IH|reflexivity].
Qed.

Lemma run_stream4_noBL {A} file (p : prog A) : noBL p -> forall r, run_stream4 file p r = run_stream file p r.
Proof.
  induction p as [a|n k IH|n k IH|n k IH|k IH|e]; intros Hn r; cbn [run_stream4 run_stream noBL] in *;
    try reflexivity; try contradiction; try apply IH, Hn.
  destruct (expect file n r) as [r1|e]; [|reflexivity].
  destruct (off r1 - skipped r1 + n <=? lenN (buf r1)); [apply IH, Hn|reflexivity].
Qed.

(* [ends p pr r]: the plain run of p from pr ends in r - [Ok] with the final reader, or [Err] with the error of a
   [Fail] node - and every read on the way fits the buffer.  (A read beyond the buffer is the one event the two
   readers report differently.) *)
Fixpoint ends {A} (p : prog A) (pr : preader) (r : result (A * preader)) : Prop :=
  match p with
  | Ret a => r = Ok (a, pr)
  | Fail e => r = Err e
  | Block n k => poff pr + n <= lenN (pbuf pr) /\
                 ends (k (takeN n (dropN (poff pr) (pbuf pr)))) {| pbuf := pbuf pr; poff := poff pr + n |} r
  | Skip n k => ends k {| pbuf := pbuf pr; poff := poff pr + n |} r
  | Adv n k => ends k {| pbuf := pbuf pr; poff := poff pr + n |} r
  | BytesLeft k => ends (k (Z.of_N (lenN (pbuf pr)) - Z.of_N (poff pr))%Z) pr r
  end.
Lemma ends_run {A} (p : prog A) : forall pr r, ends p pr r -> run_plain p pr = r.
Proof.
  induction p as [a|n k IH|n k IH|n k IH|k IH|e]; intros pr r H; cbn [ends run_plain] in *; try (now apply IH); try now subst.
  destruct H as [Hfit H]. destruct (N.leb_spec (poff pr + n) (lenN (pbuf pr))) as [_|Hbad]; [now apply IH|lia].
Qed.
Lemma run_ends {A} (p : prog A) : forall pr x, run_plain p pr = Ok x -> ends p pr (Ok x).
Proof.
  induction p as [a|n k IH|n k IH|n k IH|k IH|e]; intros pr x H; cbn [ends run_plain] in *; try (now apply IH); try now subst.
  destruct (N.leb_spec (poff pr + n) (lenN (pbuf pr))) as [Hfit|]; [|discriminate]. split; [exact Hfit|now apply IH].
Qed.
Lemma ends_bind {A B} (p : prog A) (f : A -> prog B) : forall pr a pr' r,
  ends p pr (Ok (a, pr')) -> ends (f a) pr' r -> ends (pbind p f) pr r.
Proof.
  induction p as [a0|n k IH|n k IH|n k IH|k IH|e']; intros pr a pr' r Hp Hf; cbn [pbind ends] in *;
    try (eapply IH; eassumption).
  - injection Hp as <- <-. exact Hf.
  - destruct Hp as [Hfit Hp]. split; [exact Hfit|]. eapply IH; eassumption.
  - discriminate.
Qed.

(* what the stream run shows of such an end: the same value in a related state, or the same error *)
Definition carried {S A} (R : preader -> S -> Prop) (r : result (A * preader)) (t : result (A * S)) : Prop :=
  match r with
  | Ok (a, pr') => exists sr', t = Ok (a, sr') /\ R pr' sr'
  | Err e => t = Err e
  end.

Fixpoint noAdv {A} (p : prog A) : Prop :=
  match p with
  | Block _ k => forall b, noAdv (k b)
  | Skip _ k => noAdv k
  | BytesLeft k => forall z, noAdv (k z)
  | Adv _ _ => False
  | _ => True
  end.
Lemma noAdv_bind {A B} (p : prog A) (f : A -> prog B) : noAdv p -> (forall a, noAdv (f a)) -> noAdv (pbind p f).
Proof. induction p as [a|n k IH|n k IH|n k IH|k IH|e]; cbn [pbind noAdv]; intros Hp Hf; auto; contradiction. Qed.
Lemma v2prog_noAdv {A} (p : prog A) : v2prog p -> noAdv p.
Proof. induction p as [a|n k IH|n k IH|n k IH|k IH|e]; cbn [v2prog noAdv]; intros H; auto; contradiction. Qed.
Lemma noAdv_plift {A} (r : result A) : noAdv (plift r).
Proof. destruct r; exact I. Qed.

(* StreamLemmas.sim_fwd (the forward simulation of the v0.2 reader, same bytes on both sides) for run_stream4; sim4 uses
   it on one read and on one skip *)
Lemma step4 {A} q (p : prog A) pr sr a pr' : v2prog p -> noBL p -> Sim q [] pr sr -> run_plain p pr = Ok (a, pr') ->
  exists sr', run_stream4 q p sr = Ok (a, sr') /\ Sim q [] pr' sr'.
Proof.
  intros Hv Hn HS Hrun. pose proof (sim_fwd q [] p Hv _ _ _ _ HS Hrun) as H. rewrite run_stream4_noBL by exact Hn.
  destruct (run_stream q p sr) as [[b sr1]|e]; [|now contradiction H]. destruct H as [<- [HS1 _]]. now exists sr1.
Qed.

Theorem sim4 {A} q (p : prog A) : noAdv p -> forall pr sr r,
  Sim q [] pr sr -> ends p pr r -> carried (Sim q []) r (run_stream4 q p sr).
Proof.
  induction p as [a|n k IH|n k IH|n k IH|k IH|e]; intros Hv pr sr r HS He; cbn [noAdv ends] in *; try contradiction.
  - subst r. exists sr. now split.
  - destruct He as [Hfit He].
    assert (H0 : run_plain (Block n (fun b => Ret b)) pr =
                 Ok (takeN n (dropN (poff pr) (pbuf pr)), {| pbuf := pbuf pr; poff := poff pr + n |}))
      by (apply ends_run; split; [exact Hfit|reflexivity]).
    destruct (step4 q (Block n (fun b => Ret b)) pr sr _ _ (fun _ => I) (fun _ => I) HS H0) as [sr1 [H1 HS1]].
    change (Block n k) with (pbind (Block n (fun b => Ret b)) k). rewrite run_stream4_bind, H1.
    exact (IH _ (Hv _) _ sr1 r HS1 He).
  - destruct (step4 q (Skip n (Ret tt)) pr sr _ _ I I HS eq_refl) as [sr1 [H1 HS1]].
    change (Skip n k) with (pbind (Skip n (Ret tt)) (fun _ => k)). rewrite run_stream4_bind, H1.
    exact (IH Hv _ sr1 r HS1 He).
  - (* bytes_remaining(): len(file) - read_offset on both sides *)
    cbn [run_stream4]. pose proof HS as [Hb [Ho _]]. rewrite Hb, app_nil_r, Ho in He.
    exact (IH _ (Hv _) pr sr r HS He).
  - subst r. reflexivity.
Qed.

Fixpoint v0prog {A} (p : prog A) : Prop :=
  match p with
  | Block _ k => forall b, v0prog (k b)
  | Adv _ k => v0prog k
  | Skip _ _ | BytesLeft _ => False
  | _ => True
  end.
Lemma v0prog_bind {A B} (p : prog A) (f : A -> prog B) : v0prog p -> (forall a, v0prog (f a)) -> v0prog (pbind p f).
Proof. induction p as [a|n k IH|n k IH|n k IH|k IH|e]; cbn [pbind v0prog]; intros Hp Hf; auto; contradiction. Qed.
Lemma v0prog_prep {A} n (p : prog A) : v0prog p -> v0prog (prep n p).
Proof. intros Hp. induction n as [|n IH]; cbn [prep]; [exact I|].
  apply v0prog_bind; [exact Hp|]. intros a. apply v0prog_bind; [exact IH|]. intros l. exact I. Qed.
Lemma v0prog_plift {A} (r : result A) : v0prog (plift r).
Proof. destruct r; exact I. Qed.
Lemma v0prog_noBL {A} (p : prog A) : v0prog p -> noBL p.
Proof. induction p as [a|n k IH|n k IH|n k IH|k IH|e]; cbn [v0prog noBL]; intros H; auto; contradiction. Qed.

(* nothing has been skipped and the stream buffer is a prefix of the file (StreamRead.Pre); the read offset is
   arbitrary (advance() may have moved it past the fetched bytes) *)
Definition Sim0 (q : bytes) (pr : preader) (sr : sreader) : Prop := pbuf pr = q /\ poff pr = off sr /\ Pre q sr.

(* expect_to_read(n) when offset + n is inside the file: the buffer grows to a longer prefix that covers the read *)
Lemma expect_pre q n sr : Pre q sr -> off sr + n <= lenN q ->
  exists r1, expect q n sr = Ok r1 /\ off r1 = off sr /\ Pre q r1 /\ off sr + n <= lenN (buf r1).
Proof.
  intros [Hsk Hpre] Hfit. unfold expect, bytes_left. rewrite Hsk.
  assert (Hlb : lenN (buf sr) <= lenN q) by (rewrite Hpre, lenN_takeN; lia).
  destruct (Z.ltb_spec (Z.of_N (lenN (buf sr)) - Z.of_N (off sr) + Z.of_N 0) (Z.of_N n)) as [Hlt|Hge].
  2:{ exists sr. repeat split; [exact Hsk|exact Hpre|lia]. }
  remember (Z.to_N (Z.of_N n - (Z.of_N (lenN (buf sr)) - Z.of_N (off sr) + Z.of_N 0))) as c eqn:Hc.
  unfold read_chunk. rewrite Hsk, N.add_0_l.
  replace (buf sr ++ takeN c (dropN (lenN (buf sr)) q)) with (takeN (off sr + n) q)
    by (rewrite Hpre at 1; rewrite takeN_app_takeN; f_equal; lia).
  assert (Hlen : lenN (takeN (off sr + n) q) = off sr + n) by (rewrite lenN_takeN; lia).
  destruct (takeN (off sr + n) q) as [|x l] eqn:E.
  - (* an empty result means off + n = 0 = len(buffer): impossible, the chunk size is positive *)
    exfalso. unfold lenN in Hlen at 1. cbn [length] in Hlen. lia.
  - eexists. split; [reflexivity|]. cbn [off]. split; [reflexivity|]. split; [|cbn [buf]; lia].
    split; [reflexivity|]. cbn [buf]. now rewrite Hlen.
Qed.

Theorem sim0 {A} q (p : prog A) : v0prog p -> forall pr sr r,
  Sim0 q pr sr -> ends p pr r -> carried (Sim0 q) r (run_stream q p sr).
Proof.
  induction p as [a|n k IH|n k IH|n k IH|k IH|e]; intros Hv pr sr r [Hb [Ho HP]] He;
    cbn [run_stream v0prog ends] in *; try contradiction.
  - subst r. exists sr. split; [reflexivity|]. exact (conj Hb (conj Ho HP)).
  - destruct He as [Hfit He]. rewrite Hb, Ho in Hfit.
    destruct (expect_pre q n sr HP Hfit) as [r1 [-> [Ho1 [[Hs1 Hp1] Hfit1]]]]. rewrite Hs1, Ho1, N.sub_0_r.
    destruct (N.leb_spec (off sr + n) (lenN (buf r1))) as [_|Hbad]; [|lia].
    replace (takeN n (dropN (off sr) (buf r1))) with (takeN n (dropN (poff pr) (pbuf pr)))
      by (rewrite Hb, Ho, Hp1, dropN_takeN; symmetry; apply takeN_takeN_le; lia).
    apply (IH _ (Hv _) {| pbuf := pbuf pr; poff := poff pr + n |} _ r); [|exact He].
    split; [exact Hb|]. split; [cbn [poff off]; lia|]. split; [reflexivity|exact Hp1].
  - apply (IH Hv {| pbuf := pbuf pr; poff := poff pr + n |} _ r); [|exact He].
    split; [exact Hb|]. split; [cbn [poff off]; lia|exact HP].
  - subst r. reflexivity.
Qed.

(* [Rq p e post o]: wherever e ++ post stands at the end of the buffer (bytes_remaining() sees post), p reads e and
   returns o's value, or raises o's error on the way.  It is ProgLemmas.RTp said with [ends], for a given rest of the
   file and for runs that raise (RTp_Rq, Rq_RTp). *)
Definition Rq {A} (p : prog A) (e post : bytes) (o : result A) : Prop :=
  forall pre, ends p {| pbuf := pre ++ e ++ post; poff := lenN pre |}
                     (rmap (fun a => (a, {| pbuf := pre ++ e ++ post; poff := lenN pre + lenN e |})) o).
Lemma RTp_Rq {A} (p : prog A) e a post : RTp p e a -> Rq p e post (Ok a).
Proof. intros H pre. apply run_ends, H. Qed.
Lemma Rq_RTp {A} (p : prog A) e a : (forall post, Rq p e post (Ok a)) -> RTp p e a.
Proof. intros H pre post. apply ends_run, H. Qed.
Lemma Rq_bind {A B} (p : prog A) (f : A -> prog B) e1 e2 post a o :
  Rq p e1 (e2 ++ post) (Ok a) -> Rq (f a) e2 post o -> Rq (pbind p f) (e1 ++ e2) post o.
Proof.
  intros H1 H2 pre. eapply ends_bind.
  - rewrite <- app_assoc. apply (H1 pre).
  - specialize (H2 (pre ++ e1)). rewrite <- !app_assoc, !lenN_app in *. now rewrite N.add_assoc.
Qed.
Lemma Rq_bytesleft {A} (k : Z -> prog A) e post o :
  Rq (k (Z.of_N (lenN e + lenN post))) e post o -> Rq (BytesLeft k) e post o.
Proof.
  intros H pre. cbn [ends pbuf poff]. rewrite !lenN_app.
  replace (Z.of_N (lenN pre + (lenN e + lenN post)) - Z.of_N (lenN pre))%Z with (Z.of_N (lenN e + lenN post)) by lia.
  apply H.
Qed.
Lemma Rq_fail {A} e post er : Rq (@Fail A er) e post (Err er).
Proof. intros pre. reflexivity. Qed.
