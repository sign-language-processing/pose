(* C13 - the 3-D normaliser over the reals, whole bodies (every frame and person): the predicates props/C13.v states
   its theorems with ([row_ok], [row_nondegenerate], [is_rotation], [rot3]), invariance of a body under translation and
   scaling, and the concrete witnesses (W) of the two refutations in props/C13.v: rotation invariance (DESIGN section 7,
   F12) and the orientation in which the coded basis vanishes (plane normal along the x axis). *)
From Coq Require Import Reals List Lra Lia Arith Bool.
Require Import Num RealFacts C13_Normalize C13_Norm3d C13_RBase C13_Norm3dP C13_Norm3dAlg C13_Norm3dT.
Import ListNotations.
Open Scope R_scope.

Notation rnormalize3d := (normalize3d R_ops).
Notation rnormalize_row := (normalize_row R_ops).

(* the hypotheses on one (frame, person): the five reference points are observed, the plane normal is not
   along the x axis (which includes: plane points not collinear), the line is not perpendicular to the
   plane (which includes: line points distinct) *)
Definition row_ok (pl1 pl2 pl3 l1 l2 : nat) (r : list rp3) : Prop :=
  refs_observed pl1 pl2 pl3 l1 l2 r /\
  normal_not_x (c3 (rget3 r pl1)) (c3 (rget3 r pl2)) (c3 (rget3 r pl3)) /\
  line_not_perp (c3 (rget3 r pl1)) (c3 (rget3 r pl2)) (c3 (rget3 r pl3)) (c3 (rget3 r l1)) (c3 (rget3 r l2)).
(* the property's own non-degeneracy: observed, plane points not collinear, line not perpendicular / distinct *)
Definition row_nondegenerate (pl1 pl2 pl3 l1 l2 : nat) (r : list rp3) : Prop :=
  refs_observed pl1 pl2 pl3 l1 l2 r /\
  noncollinear (c3 (rget3 r pl1)) (c3 (rget3 r pl2)) (c3 (rget3 r pl3)) /\
  line_not_perp (c3 (rget3 r pl1)) (c3 (rget3 r pl2)) (c3 (rget3 r pl3)) (c3 (rget3 r l1)) (c3 (rget3 r l2)).
Lemma row_ok_nondegenerate pl1 pl2 pl3 l1 l2 r : row_ok pl1 pl2 pl3 l1 l2 r -> row_nondegenerate pl1 pl2 pl3 l1 l2 r.
Proof. intros (H1 & H2 & H3). split; [exact H1|]. split; [apply normal_not_x_noncollinear; exact H2|exact H3]. Qed.

Section Body.
Variable zrot : R -> R -> R * R.
Hypothesis Hz : zrot_spec zrot.
Variables (pl1 pl2 pl3 l1 l2 : nat) (size : R).

Theorem norm3d_translation_scale_invariant a t (b : list (list rp3)) : 0 < a ->
  (forall r, In r b -> row_ok pl1 pl2 pl3 l1 l2 r) ->
  rnormalize3d zrot pl1 pl2 pl3 l1 l2 size (map (sim3 a t) b) = rnormalize3d zrot pl1 pl2 pl3 l1 l2 size b.
Proof. intros Ha H. unfold normalize3d. rewrite map_map. apply map_ext_in. intros r Hr.
  destruct (H r Hr) as (Ho & Hnx & Hl). apply (row_translation_scale_invariant zrot Hz); assumption. Qed.
End Body.

Definition mulv (M : rv * rv * rv) (v : rv) : rv := rV3 (rdot (fst (fst M)) v) (rdot (snd (fst M)) v) (rdot (snd M) v).
Definition is_rotation (M : rv * rv * rv) : Prop :=
  let '(r1, r2, r3) := M in
  rdot r1 r1 = 1 /\ rdot r2 r2 = 1 /\ rdot r3 r3 = 1 /\ rdot r1 r2 = 0 /\ rdot r1 r3 = 0 /\ rdot r2 r3 = 0 /\
  rdot r1 (rcross r2 r3) = 1.
Definition rot3 (M : rv * rv * rv) (r : list rp3) : list rp3 := map (fun p => rmk (m3 p) (mulv M (c3 p))) r.

(* witness: a flat "hand" in the x-y plane with one point off the plane, and its copy rotated about the y axis
   by the angle with cosine 3/5 *)
Definition W : list rp3 := [rmk false (rV3 0 0 0); rmk false (rV3 1 0 0); rmk false (rV3 0 1 0); rmk false (rV3 0 0 1)].
Definition MW : rv * rv * rv := (rV3 (3/5) 0 (4/5), rV3 0 1 0, rV3 (-4/5) 0 (3/5)).
Definition W' : list rp3 := [rmk false (rV3 0 0 0); rmk false (rV3 (3/5) 0 (-4/5)); rmk false (rV3 0 1 0); rmk false (rV3 (4/5) 0 (3/5))].
Lemma MW_rotation : is_rotation MW.
Proof. unfold is_rotation, MW. vsimp. repeat split; field. Qed.
Lemma W'_eq : rot3 MW W = W'.
Proof. unfold rot3, W, W', MW, mulv. cbn [map m3 c3 fst snd]. vsimp. repeat (f_equal; try field). Qed.

Ltac eval_get := unfold get3, W, W'; cbn [nth m3 c3].
Lemma normal_W : normal3 (rV3 0 0 0) (rV3 1 0 0) (rV3 0 1 0) = rV3 0 0 1.
Proof. apply normal3_of_unit; unfold plane_normal, sqn; vsimp; [f_equal|]; ring. Qed.
Lemma normal_W' : normal3 (rV3 0 0 0) (rV3 (3/5) 0 (-4/5)) (rV3 0 1 0) = rV3 (4/5) 0 (3/5).
Proof. apply normal3_of_unit; unfold plane_normal, sqn; vsimp; [f_equal|]; field. Qed.
Lemma W_ok : row_ok 0 1 2 0 2 W.
Proof. unfold row_ok, refs_observed. eval_get. split; [repeat split; reflexivity|]. split.
  - unfold normal_not_x, plane_normal. vsimp. req. lra.
  - unfold line_not_perp, plane_normal, sqn. vsimp. req. lra. Qed.
Lemma W'_ok : row_ok 0 1 2 0 2 W'.
Proof. unfold row_ok, refs_observed. eval_get. split; [repeat split; reflexivity|]. split.
  - unfold normal_not_x, plane_normal. vsimp. req. lra.
  - unfold line_not_perp, plane_normal, sqn. vsimp. req. lra. Qed.

Section Refute.
Variable zrot : R -> R -> R * R.
Hypothesis Hz : zrot_spec zrot.
(* [row_z] gives the height of the off-plane point as 1 / cur with cur > 0 known by its square *)
Lemma z_W : vz (c3 (rget3 (rnormalize_row zrot 0 1 2 0 2 1 W) 3)) = 1.
Proof. destruct W_ok as (Ho & Hnx & Hl).
  destruct (row_z zrot Hz 0%nat 1%nat 2%nat 0%nat 2%nat 1 W Ho Hnx Hl 3%nat eq_refl) as (Hp & Hc & ->).
  revert Hp Hc. eval_get. rewrite normal_W. set (cur := rsqrt _). unfold sqn. vsimp. req. intros Hp Hc.
  assert (E : cur = 1) by nra. rewrite E. field. Qed.
Lemma z_W' : vz (c3 (rget3 (rnormalize_row zrot 0 1 2 0 2 1 W') 3)) = 5 / 3.
Proof. destruct W'_ok as (Ho & Hnx & Hl).
  destruct (row_z zrot Hz 0%nat 1%nat 2%nat 0%nat 2%nat 1 W' Ho Hnx Hl 3%nat eq_refl) as (Hp & Hc & ->).
  revert Hp Hc. eval_get. rewrite normal_W'. set (cur := rsqrt _). unfold sqn. vsimp. req. intros Hp Hc.
  assert (E : cur = 3 / 5) by nra. rewrite E. field. Qed.

End Refute.

(* the coded basis vanishes: rotate_to_normal keeps only the distance to the plane, as z *)
Lemma frame_normal_x A q : frame A (rV3 1 0 0) q = rV3 0 0 (vx q - vx A).
Proof. unfold frame. vsimp. f_equal; ring. Qed.
Lemma d_of_normal_x zrot A L1 L2 : d_of zrot A (rV3 1 0 0) L1 L2 = rV3 0 0 (vx L2 - vx L1).
Proof. unfold d_of, img. rewrite !frame_normal_x. destruct (zrot _ _) as [c s]. unfold rotp. vsimp. f_equal; ring. Qed.
(* so a line parallel to the plane has current_size = 0, which masks the whole row *)
Lemma normalize_row_normal_x zrot pl1 pl2 pl3 l1 l2 size r : refs_observed pl1 pl2 pl3 l1 l2 r ->
  normal3 (c3 (rget3 r pl1)) (c3 (rget3 r pl2)) (c3 (rget3 r pl3)) = rV3 1 0 0 ->
  vx (c3 (rget3 r l2)) = vx (c3 (rget3 r l1)) ->
  rnormalize_row zrot pl1 pl2 pl3 l1 l2 size r = map (fun _ => rmk true v0) r.
Proof. intros Hobs Hn Hx. apply normalize_row_zero; [exact Hobs|]. rewrite Hn, d_of_normal_x, Hx.
  replace (rdot _ _) with 0 by (vsimp; ring). apply sqrt_0. Qed.

(* witness for the orientation outside norm3d_post_partial: the plane is the y-z plane (normal along x);
   non-degenerate in the property's sense, yet every point of the row comes back missing and zero *)
Definition X : list rp3 := [rmk false (rV3 0 0 0); rmk false (rV3 0 1 0); rmk false (rV3 0 0 1); rmk false (rV3 1 2 3)].
Lemma normal_X : normal3 (rV3 0 0 0) (rV3 0 1 0) (rV3 0 0 1) = rV3 1 0 0.
Proof. apply normal3_of_unit; unfold plane_normal, sqn; vsimp; [f_equal|]; ring. Qed.
Lemma X_observed : refs_observed 0 1 2 0 1 X.
Proof. repeat split; reflexivity. Qed.
Lemma X_nondegenerate : row_nondegenerate 0 1 2 0 1 X.
Proof. split; [exact X_observed|]. unfold get3, X. cbn [nth m3 c3]. split.
  - unfold noncollinear, plane_normal, sqn. vsimp. req. lra.
  - unfold line_not_perp, plane_normal, sqn. vsimp. req. lra. Qed.
